(* Closed traces, the invariant of their reachable states under the hypotheses of C01 / C03,
   and the worked example of C01. *)
From Elvis Require Import Model.Base Model.U32 Model.Tcb Model.TcpNet
  Proofs.U32Facts Proofs.TcbSafetyDefs Proofs.TcbSafetyEx.
From Elvis Require Export Proofs.TcbSafety.
Local Open Scope Z_scope.

(* a closed system: the network only carries what the two endpoints emitted *)
Definition closed_trace (ls : list label) : Prop :=
  forall l, In l ls -> match l with LInject _ _ => False | _ => True end.

Lemma closed_trace_forallb ls : closed_trace ls -> forallb no_inject ls = true.
Proof.
  intros H. apply forallb_forall. intros l Hl. specialize (H l Hl). destruct l; try reflexivity. contradiction.
Qed.

Lemma forallb_closed_trace ls : forallb no_inject ls = true -> closed_trace ls.
Proof.
  intros H l Hl. rewrite forallb_forall in H. specialize (H l Hl). destruct l; try exact I. discriminate H.
Qed.

Lemma bound_eq : 2 ^ 31 - 2 ^ 17 = SEQ_BOUND.
Proof. reflexivity. Qed.

(* the invariant holds in every reachable state, hypotheses as C01 / C03 state them *)
Theorem reach (c : config) (b : bool) (ls : list label) :
  u32 (issA c) -> u32 (issB c) -> 100 <= mtuA c <= 65535 -> 100 <= mtuB c <= 65535 ->
  closed_trace ls ->
  let s := run c (init_sys b) ls in
  zlen (subA s) < 2 ^ 31 - 2 ^ 17 -> zlen (subB s) < 2 ^ 31 - 2 ^ 17 ->
  SysInv c s.
Proof.
  intros H1 H2 H3 H4 Hcl s Ha Hb. rewrite bound_eq in Ha, Hb.
  apply reachable_inv; [unfold cfg_ok; auto|apply closed_trace_forallb; assumption|split; assumption].
Qed.

(* the hypotheses are satisfiable, and data does get through *)
Lemma example_explicit :
  u32 (issA ex_cfg) /\ u32 (issB ex_cfg) /\ 100 <= mtuA ex_cfg <= 65535 /\ 100 <= mtuB ex_cfg <= 65535 /\
  closed_trace ex_trace /\
  zlen (subA ex_final) < 2 ^ 31 - 2 ^ 17 /\ zlen (subB ex_final) < 2 ^ 31 - 2 ^ 17 /\
  length (delivered ex_mid SB) = 50%nat /\ delivered ex_mid SB = firstn 50 (subA ex_mid) /\
  length (subA ex_final) = 140%nat /\ delivered ex_final SB = subA ex_final /\
  length (subB ex_final) = 30%nat /\ delivered ex_final SA = subB ex_final.
Proof.
  do 4 (split; [vm_compute; repeat split; discriminate|]).
  split; [apply forallb_closed_trace; reflexivity|].
  vm_compute. repeat split; reflexivity.
Qed.
