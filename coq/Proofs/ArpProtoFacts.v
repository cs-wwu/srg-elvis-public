(* C06 - facts about the ARP transition system of Model/ArpProto.v. *)
From Elvis Require Import Model.Base Model.Subnet Model.ArpProto.
From Elvis Require Export Proofs.ArpStep.

Definition wf_cfg (cfg : config) : Prop := wf_cfgb cfg = true.

Lemma wf_parts (cfg : config) (Hwf : wf_cfg cfg) :
  NoDup (concat (map mc_claims (cfg_machs cfg))) /\
  NoDup (map mc_mac (cfg_machs cfg)) /\
  forallb (fun mc => (mc_mac mc <? BROADCAST_MAC)%N) (cfg_machs cfg) = true /\
  forallb (fun mc => forallb (fun e => existsb (fun x => (x =? fst e)%N) (mc_claims mc)) (mc_pre mc))
          (cfg_machs cfg) = true.
Proof.
  unfold wf_cfg, wf_cfgb in Hwf. rewrite !andb_true_iff in Hwf. destruct Hwf as [[[H1 H2] H3] H4].
  repeat split; auto using nodupb_NoDup.
Qed.

Lemma owner_unique (cfg : config) (Hwf : wf_cfg cfg) o1 o2 ip :
  (o1 < n_machs cfg)%nat -> (o2 < n_machs cfg)%nat ->
  In ip (claims_of cfg o1) -> In ip (claims_of cfg o2) -> o1 = o2.
Proof.
  destruct (wf_parts cfg Hwf) as (H1 & _). unfold n_machs, claims_of, mconf_of.
  intros. eapply (NoDup_concat_nth mc_claims mc_default); eauto.
Qed.

Lemma mac_inj (cfg : config) (Hwf : wf_cfg cfg) o1 o2 :
  (o1 < n_machs cfg)%nat -> (o2 < n_machs cfg)%nat -> mac_of cfg o1 = mac_of cfg o2 -> o1 = o2.
Proof.
  destruct (wf_parts cfg Hwf) as (_ & H2 & _). unfold n_machs, mac_of, mconf_of. intros Ho1 Ho2 He.
  apply (proj1 (NoDup_nth _ (mc_mac mc_default)) H2); rewrite ?map_length, ?map_nth; assumption.
Qed.

Lemma mac_not_broadcast (cfg : config) (Hwf : wf_cfg cfg) o :
  (o < n_machs cfg)%nat -> (mac_of cfg o <? BROADCAST_MAC)%N = true.
Proof.
  destruct (wf_parts cfg Hwf) as (_ & _ & H3 & _). unfold n_machs, mac_of, mconf_of. intros Ho.
  rewrite forallb_forall in H3. apply H3. apply nth_In. exact Ho.
Qed.

Lemma pre_claimed (cfg : config) (Hwf : wf_cfg cfg) o ip x :
  pre_lookup (mc_pre (mconf_of cfg o)) ip = Some x -> (o < n_machs cfg)%nat /\ In ip (claims_of cfg o).
Proof.
  destruct (wf_parts cfg Hwf) as (_ & _ & _ & H4). unfold pre_lookup. intros H.
  destruct (find _ _) as [e|] eqn:Hf; [|discriminate].
  apply find_some in Hf. destruct Hf as [Hin He]. apply N.eqb_eq in He.
  assert (Ho : (o < n_machs cfg)%nat).
  { unfold n_machs. destruct (Nat.lt_ge_cases o (length (cfg_machs cfg))) as [Hlt|Hge]; [exact Hlt|].
    unfold mconf_of in Hin. rewrite nth_overflow in Hin by exact Hge. cbn in Hin. contradiction. }
  split; [exact Ho|].
  rewrite forallb_forall in H4.
  specialize (H4 (mconf_of cfg o)). unfold mconf_of in *.
  specialize (H4 (nth_In _ _ Ho)). rewrite forallb_forall in H4.
  specialize (H4 e Hin). apply existsb_eqb_In in H4. unfold claims_of, mconf_of. subst ip. exact H4.
Qed.

(* arp.rs:185-200: the gateway exactly when a subnet is configured for the local address and
   the masked addresses differ; the remote address otherwise *)
Lemma target_eq (sub : option subnet_info) (p : pair) :
  target sub p =
  match sub with
  | Some sn => if (N.land (p_local p) (sn_mask sn) =? N.land (p_remote p) (sn_mask sn))%N
               then p_remote p else sn_gw sn
  | None => p_remote p
  end.
Proof.
  destruct sub as [sn|]; [|reflexivity].
  unfold target, net_new. cbn [net_id]. destruct (N.eqb _ _); reflexivity.
Qed.

Definition listens (s : state) (o : nat) (ip : N) : Prop := ms_local (st_machs s o) ip <> None.
(* [mac] is the MAC of a machine that answers for [ip] *)
Definition truthful (cfg : config) (s : state) (ip mac : N) : Prop :=
  exists o, (o < n_machs cfg)%nat /\ mac = mac_of cfg o /\ listens s o ip.

Definition res_truth cfg s (r : resolver) : Prop :=
  (r_mach r < n_machs cfg)%nat /\ r_dest r = target (r_sub r) (r_pair r) /\
  listens s (r_mach r) (p_local (r_pair r)) /\
  forall mac t c, r_phase r = PDone (SOk mac) t c -> truthful cfg s (r_dest r) mac.

(* a machine listens only on addresses the configuration lets it claim; a MAC given for an address - by a
   table entry, a frame in flight, the result of a resolver - is that of a machine that listens on it *)
Record InvA (cfg : config) (s : state) : Prop := mkInvA
  { ia_local : forall o ip, listens s o ip -> (o < n_machs cfg)%nat /\ In ip (claims_of cfg o);
    ia_table : forall m ip mac, ms_table (st_machs s m) ip = Some (SOk mac) -> truthful cfg s ip mac;
    ia_net : forall p d, In (p, d) (st_net s) ->
                         truthful cfg s (pk_sip p) (pk_smac p) /\ (d < n_machs cfg)%nat;
    ia_res : forall rid r, st_res s rid = Some r -> res_truth cfg s r }.

Lemma truthful_mono cfg s s' ip mac :
  (forall o x, listens s o x -> listens s' o x) -> truthful cfg s ip mac -> truthful cfg s' ip mac.
Proof. intros Hm (o & Ho & He & Hl). exists o. auto. Qed.

Lemma InvA_init cfg : wf_cfg cfg -> InvA cfg (init cfg).
Proof.
  intros Hwf. constructor; cbn [init st_machs st_net st_res init_mstate ms_local ms_table].
  - intros o ip H. unfold listens in H. cbn in H.
    destruct (pre_lookup (mc_pre (mconf_of cfg o)) ip) eqn:Hp; [|contradiction].
    eapply pre_claimed; eauto.
  - discriminate.
  - contradiction.
  - discriminate.
Qed.

Lemma res_truth_mono cfg s s' r :
  (forall o x, listens s o x -> listens s' o x) -> res_truth cfg s r -> res_truth cfg s' r.
Proof.
  intros Hm (H1 & H2 & H3 & H4). repeat split; auto.
  intros mac t c Hp. eapply truthful_mono; [exact Hm|]. eapply H4. exact Hp.
Qed.

Lemma InvA_step cfg s t l s' :
  wf_cfg cfg -> InvA cfg s -> step cfg s (t, l) = Ok s' -> InvA cfg s'.
Proof.
  intros Hwf HA Hs. destruct (step_post _ _ _ _ _ Hs) as ((_ & Hg) & _).
  pose proof (fun o x => step_local cfg s t l s' o x Hs) as Hloc.
  assert (Hmono : forall o x, listens s o x -> listens s' o x)
    by (intros o x H; apply (Hloc o x); left; exact H).
  assert (Htm : forall ip mac, truthful cfg s ip mac -> truthful cfg s' ip mac)
    by (intros ip mac; apply truthful_mono; exact Hmono).
  assert (Hnew : forall o x, listens_new l o x -> (o < n_machs cfg)%nat /\ listens s' o x).
  { intros o x H. split; [apply (Hloc o x); exact H | apply (Hloc o x); right; exact H]. }
  constructor.
  - intros o ip H. apply (Hloc o ip) in H. destruct H as [H|H]; [exact (ia_local _ _ HA _ _ H) | apply (Hloc o ip); exact H].
  - intros m ip mac H.
    destruct (step_table cfg s t l s' m ip Hs) as [E|[(_ & E & _)|(p & _ & <- & Hin & E)]]; [|congruence|].
    + apply Htm. apply (ia_table _ _ HA m). congruence.
    + rewrite E in H. inversion H; subst mac. apply Htm. apply (ia_net _ _ HA _ _ Hin).
  - intros q d H. destruct (step_net cfg s t l s' q d Hs H) as [Hin|(Hd & o & Emac & Hsend)].
    + destruct (ia_net _ _ HA _ _ Hin). auto.
    + split; [|exact Hd].
      assert (Ho : (o < n_machs cfg)%nat /\ listens s' o (pk_sip q)).
      { destruct l as [| |m rid p slot|rid|p m| |]; cbn [sends] in Hsend; try contradiction.
        - apply Hnew. exact Hsend.
        - destruct Hsend as (r & Hr & -> & ->). destruct (ia_res _ _ HA _ _ Hr) as (Hm & _ & Hl & _). auto.
        - destruct Hsend as (-> & -> & Hl). destruct (ia_net _ _ HA _ _ Hg). auto. }
      exists o. tauto.
  - intros rid r' H.
    destruct (res_step_inv _ _ _ _ _ _ _ Hs H) as [Hr|[(m & p & slot & -> & Hm & ->)|(r & k & dl & -> & Hr & Hp & _ & ->)]].
    + eapply res_truth_mono; [exact Hmono|]. exact (ia_res _ _ HA _ _ Hr).
    + split; [exact Hm|]. split; [reflexivity|]. split; [apply Hnew; split; reflexivity|].
      intros mac t0 c Hph. apply start_phase_done in Hph. destruct Hph as [_ Hph].
      destruct c; [|contradiction|destruct Hph; discriminate]. apply Htm. exact (ia_table _ _ HA _ _ _ Hph).
    + destruct (ia_res _ _ HA _ _ Hr) as (H1 & H2 & H3 & _). repeat split; auto.
      intros mac t0 c Hph. apply (poll_phase_done _ _ _ _ _ _ _ _ _ Hp) in Hph. destruct Hph as [_ Hph].
      destruct c; [|destruct Hph; discriminate..]. apply Htm. exact (ia_table _ _ HA _ _ _ Hph).
Qed.

Definition BUDGET : Z := (Z.of_N RESEND_TRIES * RESEND_DELAY)%Z.

(* a waiting resolver is due at its k-th resend instant; a finished one finished within the budget, and at
   its very end if the budget ran out *)
Definition res_time (now : Z) (r : resolver) : Prop :=
  (r_born r <= now)%Z /\
  match r_phase r with
  | PWait k dl =>
      (1 <= k <= RESEND_TRIES)%N /\ dl = (r_born r + Z.of_N k * RESEND_DELAY)%Z /\ (now <= dl)%Z
  | PDone st t c =>
      (r_born r <= t <= now)%Z /\ (t <= r_born r + BUDGET)%Z /\
      (c = CBudget -> st = SFailed /\ t = (r_born r + BUDGET)%Z) /\
      (c = CSend -> st = SFailed)
  end.

Record InvB (s : state) : Prop := mkInvB
  { ib_rids : forall rid r, st_res s rid = Some r -> In rid (st_rids s);
    ib_res : forall rid r, st_res s rid = Some r -> res_time (st_now s) r }.

Lemma tries_le_budget k : (k <= RESEND_TRIES)%N -> (Z.of_N k * RESEND_DELAY <= BUDGET)%Z.
Proof. intros H. unfold BUDGET, RESEND_TRIES in *. apply Z.mul_le_mono_nonneg_r; [unfold RESEND_DELAY|]; lia. Qed.

Lemma time_ok_wait s t rid r k dl :
  InvB s -> time_ok s t = true -> st_res s rid = Some r -> r_phase r = PWait k dl -> (t <= dl)%Z.
Proof.
  intros HB Ht Hr Hp. apply time_ok_spec in Ht. destruct Ht as [_ Hall].
  specialize (Hall rid (ib_rids _ HB _ _ Hr)). unfold res_time_ok in Hall. rewrite Hr, Hp in Hall.
  apply andb_true_iff in Hall. destruct Hall as [H _]. apply Z.leb_le. exact H.
Qed.

Lemma res_time_advance s t rid r :
  InvB s -> time_ok s t = true -> st_res s rid = Some r -> res_time t r.
Proof.
  intros HB Ht Hr. pose proof (proj1 (proj1 (time_ok_spec _ _) Ht)) as Hle.
  pose proof (ib_res _ HB _ _ Hr) as [Hb Hp]. split; [lia|].
  destruct (r_phase r) as [k dl|st t0 c] eqn:Hph.
  - destruct Hp as (Hk & Hd & _). repeat split; try tauto. eapply time_ok_wait; eauto.
  - destruct Hp as (H1 & H2 & H3 & H4). repeat split; try tauto; lia.
Qed.

Lemma InvB_init cfg : InvB (init cfg).
Proof. constructor; cbn; discriminate. Qed.

Lemma InvB_step cfg s t l s' : InvB s -> step cfg s (t, l) = Ok s' -> InvB s'.
Proof.
  intros HB Hs. destruct (step_post _ _ _ _ _ Hs) as ((Ht & _) & Hnow & _ & _ & Hrids & _).
  pose proof (proj1 (proj1 (time_ok_spec _ _) Ht)) as Hle.
  assert (Hold : forall rid, In rid (st_rids s) -> In rid (st_rids s'))
    by (intros rid H; rewrite Hrids; destruct l; auto; right; exact H).
  constructor; intros rid r' H; rewrite ?Hnow;
    destruct (res_step_inv _ _ _ _ _ _ _ Hs H) as [Hr|[(m & p & slot & -> & _ & ->)|(r & k & dl & -> & Hr & Hp & Hdl & ->)]].
  - apply Hold. exact (ib_rids _ HB _ _ Hr).
  - rewrite Hrids. left. reflexivity.
  - apply Hold. exact (ib_rids _ HB _ _ Hr).
  - eapply res_time_advance; eauto.
  - split; [cbn; lia|]. cbn [started r_phase r_born].
    destruct (start_phase cfg _ t) as [k dl|st t0 c] eqn:Hph.
    + apply start_phase_wait in Hph. destruct Hph as (_ & -> & -> & _). unfold RESEND_TRIES, RESEND_DELAY. lia.
    + apply start_phase_done in Hph. destruct Hph as [-> Hph]. unfold BUDGET, RESEND_TRIES, RESEND_DELAY.
      destruct c; [|contradiction|]; repeat split; try lia; try discriminate. intros _. apply Hph.
  - pose proof (ib_res _ HB _ _ Hr) as [Hb Hw]. rewrite Hp in Hw. destruct Hw as (Hk & Hd & _).
    pose proof (time_ok_wait _ _ _ _ _ _ HB Ht Hr Hp) as Htd.
    pose proof (tries_le_budget k (proj2 Hk)) as Hkz.
    split; [cbn; lia|]. cbn [with_phase r_phase r_born].
    destruct (poll_phase cfg s t r) as [k' dl'|st t0 c] eqn:Hph.
    + apply (poll_phase_wait _ _ _ _ _ _ _ _ Hp) in Hph. destruct Hph as (Hn & Hlt & -> & -> & _).
      rewrite (Hdl Hn), Hd, N2Z.inj_add. unfold RESEND_DELAY. lia.
    + apply (poll_phase_done _ _ _ _ _ _ _ _ _ Hp) in Hph. destruct Hph as [-> Hph].
      destruct c; repeat split; try lia; try discriminate; try (intros; apply Hph).
      destruct Hph as (_ & Hn & Hge). assert (k = RESEND_TRIES) by lia. subst k.
      rewrite (Hdl Hn), Hd. reflexivity.
Qed.

(* as long as no cached failure was overwritten on a machine, every finished resolver of an
   address on that machine holds the table's current entry *)
Definition InvC (s : state) : Prop :=
  forall rid r st t c,
    st_res s rid = Some r -> r_phase r = PDone st t c -> c <> CSend ->
    ms_flipped (st_machs s (r_mach r)) (r_dest r) = false ->
    ms_table (st_machs s (r_mach r)) (r_dest r) = Some st.

Lemma InvC_init cfg : InvC (init cfg).
Proof. intros rid r st t c H. cbn in H. discriminate. Qed.

Lemma truthful_unique cfg s ip mac1 mac2 :
  wf_cfg cfg -> InvA cfg s -> truthful cfg s ip mac1 -> truthful cfg s ip mac2 -> mac1 = mac2.
Proof.
  intros Hwf HA (o1 & Ho1 & -> & Hl1) (o2 & Ho2 & -> & Hl2).
  destruct (ia_local _ _ HA _ _ Hl1) as [_ Hc1]. destruct (ia_local _ _ HA _ _ Hl2) as [_ Hc2].
  rewrite (owner_unique cfg Hwf o1 o2 ip); auto.
Qed.

Lemma frame_agrees cfg s p d m mac :
  wf_cfg cfg -> InvA cfg s -> In (p, d) (st_net s) ->
  ms_table (st_machs s m) (pk_sip p) = Some (SOk mac) -> mac = pk_smac p.
Proof.
  intros Hwf HA Hin Ht. destruct (ia_net _ _ HA _ _ Hin) as [Htr _].
  eapply truthful_unique; eauto. eapply ia_table; eauto.
Qed.

Lemma InvC_step cfg s t l s' :
  wf_cfg cfg -> InvA cfg s -> InvC s -> step cfg s (t, l) = Ok s' -> InvC s'.
Proof.
  intros Hwf HA HC Hs rid r' st t0 c H Hp Hc Hf.
  rewrite (step_flipped _ _ _ _ _ _ _ Hs) in Hf. apply orb_false_iff in Hf. destruct Hf as [Hf Hfl].
  pose proof (step_table cfg s t l s' (r_mach r') (r_dest r') Hs) as Htab.
  destruct (res_step_inv _ _ _ _ _ _ _ Hs H) as [Hr|[(m & p & slot & -> & _ & ->)|(r & k & dl & -> & Hr & Hw & _ & ->)]].
  - (* an old finished resolver: its entry can only be overwritten by the same MAC *)
    pose proof (HC _ _ _ _ _ Hr Hp Hc Hf) as Hold.
    destruct Htab as [E|[(E & _)|(p & -> & Ed & Hin & E)]]; [congruence|congruence|].
    rewrite E. rewrite <- Ed in Hold. rewrite Nat.eqb_refl, Ed, N.eqb_refl, <- Ed, Hold in Hfl.
    destruct st as [mac|]; [|discriminate]. rewrite (frame_agrees _ _ _ _ _ _ Hwf HA Hin Hold). reflexivity.
  - cbn [started r_phase r_mach r_dest] in *. apply start_phase_done in Hp. destruct Hp as [_ Hp].
    destruct c; [|contradiction|congruence].
    destruct Htab as [E|[(_ & _ & ? & ? & ? & _)|(? & ? & _)]]; [congruence|discriminate..].
  - cbn [with_phase r_phase r_mach r_dest] in *. destruct c; [| |congruence].
    + apply (poll_phase_done _ _ _ _ _ _ _ _ _ Hw) in Hp. destruct Hp as [_ Hp].
      destruct Htab as [E|[(En & _)|(? & ? & _)]]; [congruence|congruence|discriminate].
    + destruct (poll_phase_done _ _ _ _ _ _ _ _ _ Hw Hp) as (_ & -> & _). eapply step_budget; eauto.
Qed.

(* a cached failure was written by a resolver of that address on that machine whose own budget
   ran out (and finished resolvers never change: done_stable) *)
Definition InvD (s : state) : Prop :=
  forall m ip, ms_table (st_machs s m) ip = Some SFailed ->
    exists rid r t, st_res s rid = Some r /\ r_mach r = m /\ r_dest r = ip /\
      r_phase r = PDone SFailed t CBudget.

Lemma InvD_init cfg : InvD (init cfg).
Proof. intros m ip H. cbn in H. discriminate. Qed.

Lemma InvD_step cfg s x s' : InvD s -> step cfg s x = Ok s' -> InvD s'.
Proof.
  intros HD Hs m ip H. destruct x as [t l].
  destruct (step_table cfg s t l s' m ip Hs) as [E|[(_ & _ & rid & r & -> & Hr & Hm & Hd & Hph)|(p & _ & _ & _ & E)]];
    [|..|congruence].
  - rewrite E in H. destruct (HD m ip H) as (rid & r & t0 & Hr & Hm & Hd & Hp).
    exists rid, r, t0. repeat split; auto. eapply done_stable; eauto.
  - destruct (res_step _ _ _ _ _ _ _ Hs Hr) as [[Hn _]|(_ & _ & Hr')]; [congruence|].
    rewrite Hph in Hr'. exists rid, (with_phase r (PDone SFailed t CBudget)), t. cbn. auto.
Qed.

Record Inv (cfg : config) (s : state) : Prop := mkInv
  { inv_a : InvA cfg s; inv_b : InvB s; inv_c : InvC s; inv_d : InvD s }.

Lemma Inv_init cfg : wf_cfg cfg -> Inv cfg (init cfg).
Proof. intros H. constructor; [apply InvA_init; exact H | apply InvB_init | apply InvC_init | apply InvD_init]. Qed.

Lemma Inv_step cfg s x s' : wf_cfg cfg -> Inv cfg s -> step cfg s x = Ok s' -> Inv cfg s'.
Proof.
  intros Hwf [HA HB HC HD] H. destruct x as [t l].
  constructor; [eapply InvA_step|eapply InvB_step|eapply InvC_step|eapply InvD_step]; eauto.
Qed.

Definition reachable (cfg : config) (s : state) : Prop :=
  exists tr, run cfg (init cfg) tr = Ok s.

Lemma reachable_inv cfg (P : state -> Prop) :
  P (init cfg) -> (forall s x s', P s -> step cfg s x = Ok s' -> P s') -> forall s, reachable cfg s -> P s.
Proof.
  intros H0 Hstep s [tr H]. apply (run_inv cfg P (fun _ _ => True)) with (tr := tr) (s := init cfg); auto.
  intros s0 x tr0 s1 _ HP Hs. split; [eapply Hstep; eauto|exact I].
Qed.

Lemma Inv_reachable cfg s : wf_cfg cfg -> reachable cfg s -> Inv cfg s.
Proof. intros Hwf. apply reachable_inv; [apply Inv_init; exact Hwf|]. intros s0 x s1. apply Inv_step. exact Hwf. Qed.

Lemma InvB_reachable cfg s : reachable cfg s -> InvB s.
Proof. apply reachable_inv; [apply InvB_init|]. intros s0 [t l] s1. apply InvB_step. Qed.

Lemma InvD_reachable cfg s : reachable cfg s -> InvD s.
Proof. apply reachable_inv; [apply InvD_init|]. intros s0 x s1. apply InvD_step. Qed.

Lemma reachable_step cfg s x s' : reachable cfg s -> step cfg s x = Ok s' -> reachable cfg s'.
Proof.
  intros [tr H] Hs. exists (tr ++ [x]). eapply run_app; [exact H|]. cbn [run]. rewrite Hs. reflexivity.
Qed.

Lemma reachable_run cfg s tr s' : reachable cfg s -> run cfg s tr = Ok s' -> reachable cfg s'.
Proof. intros [tr0 H] Hs. exists (tr0 ++ tr). eapply run_app; eauto. Qed.

(* [mac] is the MAC of THE machine that may claim [ip], and that machine answers for it now *)
Definition owner_mac (cfg : config) (s : state) (ip mac : N) : Prop :=
  exists o, (o < n_machs cfg)%nat /\ mac = mac_of cfg o /\ listens s o ip /\ In ip (claims_of cfg o) /\
            forall o', (o' < n_machs cfg)%nat -> In ip (claims_of cfg o') -> o' = o.

Lemma truthful_owner cfg s ip mac :
  wf_cfg cfg -> InvA cfg s -> truthful cfg s ip mac -> owner_mac cfg s ip mac.
Proof.
  intros Hwf HA (o & Ho & He & Hl). destruct (ia_local _ _ HA _ _ Hl) as [_ Hc].
  exists o. repeat split; auto. intros o' Ho' Hc'. eapply owner_unique; eauto.
Qed.

Lemma table_truthful cfg s m ip mac :
  wf_cfg cfg -> reachable cfg s ->
  ms_table (st_machs s m) ip = Some (SOk mac) -> owner_mac cfg s ip mac.
Proof.
  intros Hwf Hr Ht. pose proof (Inv_reachable _ _ Hwf Hr) as [HA _ _ _].
  apply truthful_owner; auto. eapply ia_table; eauto.
Qed.

Lemma never_wrong cfg s rid r mac t c :
  wf_cfg cfg -> reachable cfg s ->
  st_res s rid = Some r -> r_phase r = PDone (SOk mac) t c ->
  r_dest r = target (r_sub r) (r_pair r) /\ owner_mac cfg s (r_dest r) mac.
Proof.
  intros Hwf Hre Hr Hp. pose proof (Inv_reachable _ _ Hwf Hre) as [HA _ _ _].
  destruct (ia_res _ _ HA _ _ Hr) as (_ & Hd & _ & Ht). split; [exact Hd|].
  apply truthful_owner; auto. eapply Ht; eauto.
Qed.

Lemma with_mac_self cfg m : (m < n_machs cfg)%nat -> In m (with_mac cfg (mac_of cfg m)).
Proof.
  intros Hm. apply filter_In. split; [apply in_seq; lia|apply N.eqb_refl].
Qed.

Lemma remove1_other p m l l' x : remove1 p m l = Some l' -> In x l -> x = (p, m) \/ In x l'.
Proof.
  intros H Hx. apply remove1_perm in H. apply (Permutation.Permutation_in _ H) in Hx.
  destruct Hx as [<-|Hx]; auto.
Qed.

Lemma exchange_request cfg s t req o m s' :
  (ARP_SIZE <= cfg_mtu cfg)%N ->
  step cfg s (t, LDeliver req o) = Ok s' ->
  pk_oper req = Request -> listens s o (pk_tip req) ->
  (m < n_machs cfg)%nat -> pk_smac req = mac_of cfg m ->
  In (reply_of cfg o req, m) (st_net s') /\
  pk_oper (reply_of cfg o req) = Reply /\ pk_sip (reply_of cfg o req) = pk_tip req /\
  pk_smac (reply_of cfg o req) = mac_of cfg o.
Proof.
  intros Hmtu Hstep Hop Hl Hm Hmac.
  destruct (step_post _ _ _ _ _ Hstep) as (_ & _ & _ & _ & _ & ->). cbn [net_after].
  split; [|cbn; auto]. apply in_or_app. right.
  unfold demux. rewrite Hop. cbn [set_mac ms_local].
  unfold listens in Hl. destruct (ms_local (st_machs s o) (pk_tip req)); [|contradiction].
  unfold send_pci. destruct (N.ltb_spec (cfg_mtu cfg) ARP_SIZE) as [Hlt|_]; [lia|].
  cbn [snd]. unfold route. rewrite Hmac.
  (* a broadcast requester MAC only adds receivers *)
  destruct (mac_of cfg m =? BROADCAST_MAC)%N; apply in_map; [apply in_seq; lia|apply with_mac_self; exact Hm].
Qed.

Lemma exchange_reply cfg s t p m s' :
  step cfg s (t, LDeliver p m) = Ok s' ->
  ms_table (st_machs s' m) (pk_sip p) = Some (SOk (pk_smac p)).
Proof.
  intros Hstep. destruct (step_post _ _ _ _ _ Hstep) as (_ & _ & Hmach & _). rewrite Hmach.
  cbn [mop_of fst snd]. rewrite Nat.eqb_refl, mop_table, N.eqb_refl. reflexivity.
Qed.

Lemma ok_stable_step cfg s x s' m ip mac :
  wf_cfg cfg -> Inv cfg s -> step cfg s x = Ok s' ->
  ms_table (st_machs s m) ip = Some (SOk mac) -> ms_table (st_machs s' m) ip = Some (SOk mac).
Proof.
  intros Hwf [HA _ _ _] Hs Ht. destruct x as [t l].
  destruct (step_table cfg s t l s' m ip Hs) as [E|[(E & _)|(p & _ & <- & Hin & E)]]; try congruence.
  rewrite E, (frame_agrees _ _ _ _ _ _ Hwf HA Hin Ht). reflexivity.
Qed.

Definition not_failed_yet (s : state) (rid : N) (m : nat) (D mac : N) : Prop :=
  forall r st t c, st_res s rid = Some r -> r_mach r = m -> r_dest r = D ->
    r_phase r = PDone st t c -> st = SOk mac.

Lemma succeeds_step cfg s x s' rid m D mac :
  step cfg s x = Ok s' -> ms_table (st_machs s m) D = Some (SOk mac) ->
  not_failed_yet s rid m D mac -> not_failed_yet s' rid m D mac.
Proof.
  destruct x as [t l]. intros Hs Ht Hnf r' st t0 c Hr' Hm Hd Hp.
  destruct (res_step_inv _ _ _ _ _ _ _ Hs Hr') as [Hr|[(m0 & p & slot & _ & _ & ->)|(r & k & dl & _ & Hr & Hw & _ & ->)]].
  - eapply Hnf; eauto.
  - cbn [started r_mach r_dest r_phase] in *. subst m0. rewrite Hd, Ht in Hp. inversion Hp. reflexivity.
  - cbn [with_phase r_mach r_dest r_phase] in *. unfold poll_phase in Hp. rewrite Hw, Hm, Hd, Ht in Hp.
    inversion Hp. reflexivity.
Qed.

Lemma succeeds cfg s tr s' rid m D mac r st t c :
  wf_cfg cfg -> reachable cfg s -> run cfg s tr = Ok s' ->
  ms_table (st_machs s m) D = Some (SOk mac) ->
  (st_res s rid = None \/ exists r0 k dl, st_res s rid = Some r0 /\ r_phase r0 = PWait k dl) ->
  st_res s' rid = Some r -> r_mach r = m -> r_dest r = D -> r_phase r = PDone st t c ->
  st = SOk mac.
Proof.
  intros Hwf Hre Hrun Ht Hstart Hr Hm Hd Hp.
  assert (H : Inv cfg s' /\ ms_table (st_machs s' m) D = Some (SOk mac) /\ not_failed_yet s' rid m D mac).
  { apply (run_inv cfg (fun s => Inv cfg s /\ ms_table (st_machs s m) D = Some (SOk mac) /\ not_failed_yet s rid m D mac)
             (fun _ _ => True)) with (tr := tr) (s := s); auto.
    - intros s0 x tr0 s1 _ (HI & Ht0 & Hnf) Hs. split; [|exact I].
      split; [eapply Inv_step; eauto|]. split; [eapply ok_stable_step; eauto|eapply succeeds_step; eauto].
    - split; [apply Inv_reachable; assumption|]. split; [exact Ht|].
      intros r1 st1 t1 c1 Hr1 _ _ Hp1. destruct Hstart as [Hn|(r0 & k & dl & Hr0 & Hp0)]; congruence. }
  destruct H as (_ & _ & Hnf). eapply Hnf; eauto.
Qed.

Lemma failure_means_unheard cfg s x s' rid r k dl r' t c :
  step cfg s x = Ok s' ->
  st_res s rid = Some r -> r_phase r = PWait k dl ->
  st_res s' rid = Some r' -> r_phase r' = PDone SFailed t c ->
  forall mac, ms_table (st_machs s (r_mach r)) (r_dest r) <> Some (SOk mac).
Proof.
  destruct x as [t0 l]. intros Hs Hr Hp Hr' Hp' mac Ht.
  destruct (res_step _ _ _ _ _ _ _ Hs Hr) as [[_ E]|(_ & _ & E)]; [congruence|].
  rewrite E in Hr'. inversion Hr'; subst r'. unfold poll_phase in Hp'. cbn [with_phase r_phase] in Hp'.
  rewrite Hp, Ht in Hp'. discriminate.
Qed.

Lemma resolver_timing cfg s rid r :
  reachable cfg s -> st_res s rid = Some r -> res_time (st_now s) r.
Proof. intros Hre Hr. exact (ib_res _ (InvB_reachable _ _ Hre) _ _ Hr). Qed.

Lemma unclaimed_never_ok cfg s rid r mac t c :
  wf_cfg cfg -> reachable cfg s ->
  (forall o, (o < n_machs cfg)%nat -> ~ In (r_dest r) (claims_of cfg o)) ->
  st_res s rid = Some r -> r_phase r <> PDone (SOk mac) t c.
Proof.
  intros Hwf Hre Hno Hr Hp.
  destruct (never_wrong _ _ _ _ _ _ _ Hwf Hre Hr Hp) as [_ (o & Ho & _ & _ & Hc & _)].
  exact (Hno o Ho Hc).
Qed.

Lemma failure_cause cfg s rid r t c :
  reachable cfg s -> st_res s rid = Some r -> r_phase r = PDone SFailed t c ->
  (r_born r <= t <= r_born r + BUDGET)%Z /\
  (c = CBudget -> t = (r_born r + BUDGET)%Z).
Proof.
  intros Hre Hr Hp. pose proof (resolver_timing _ _ _ _ Hre Hr) as [_ Ht].
  rewrite Hp in Ht. destruct Ht as (H1 & H2 & H3 & _). split; [lia|]. intros E. apply H3. exact E.
Qed.

Definition poll_instant (s : state) (r : resolver) (dl : Z) : Z :=
  match ms_table (st_machs s (r_mach r)) (r_dest r) with Some _ => st_now s | None => dl end.

Lemma poll_enabled cfg s rid r k dl :
  st_res s rid = Some r -> r_phase r = PWait k dl ->
  time_ok s (poll_instant s r dl) = true ->
  exists s', step cfg s (poll_instant s r dl, LPoll rid) = Ok s'.
Proof.
  intros Hr Hp Ht. unfold step. rewrite Ht. cbn [negb]. unfold poll_resolve. rewrite Hr, Hp.
  unfold poll_instant in *.
  destruct (ms_table (st_machs s (r_mach r)) (r_dest r)) as [st|]; [eauto|].
  rewrite Z.eqb_refl. cbn [negb].
  destruct (k <? RESEND_TRIES)%N; [|eauto].
  destruct (send_pci _ _ _); eauto.
Qed.

Definition due (s : state) (rid : N) : option Z :=
  match st_res s rid with
  | Some r => match r_phase r with PWait _ dl => Some (poll_instant s r dl) | PDone _ _ _ => None end
  | None => None
  end.

Lemma earliest {A} (f : A -> option Z) (l : list A) :
  (forall y, In y l -> f y = None) \/
  exists x0 t0, In x0 l /\ f x0 = Some t0 /\ forall y u, In y l -> f y = Some u -> (t0 <= u)%Z.
Proof.
  induction l as [|a l [Hn|(x0 & t0 & Hin & Hf & Hmin)]]; [left; intros y []| |].
  - destruct (f a) as [ta|] eqn:Ha.
    + right. exists a, ta. split; [left; reflexivity|]. split; [exact Ha|].
      intros y u [<-|Hy] Hu; [|rewrite (Hn y Hy) in Hu; discriminate]. rewrite Ha in Hu. inversion Hu. lia.
    + left. intros y [<-|Hy]; auto.
  - right. destruct (f a) as [ta|] eqn:Ha; [destruct (Z_le_gt_dec ta t0)|].
    + exists a, ta. split; [left; reflexivity|]. split; [exact Ha|].
      intros y u [<-|Hy] Hu; [rewrite Ha in Hu; inversion Hu; lia|]. specialize (Hmin y u Hy Hu). lia.
    + exists x0, t0. split; [right; exact Hin|]. split; [exact Hf|].
      intros y u [<-|Hy] Hu; [rewrite Ha in Hu; inversion Hu; lia|]. exact (Hmin y u Hy Hu).
    + exists x0, t0. split; [right; exact Hin|]. split; [exact Hf|].
      intros y u [<-|Hy] Hu; [congruence|]. exact (Hmin y u Hy Hu).
Qed.

(* no hang: while some resolver is waiting, the poll of the one that is due first is a move of the
   model, at an instant within that resolver's budget *)
Lemma never_hangs cfg s rid r k dl :
  reachable cfg s -> st_res s rid = Some r -> r_phase r = PWait k dl ->
  exists rid0 r0 t0 s',
    step cfg s (t0, LPoll rid0) = Ok s' /\ st_res s rid0 = Some r0 /\
    (st_now s <= t0 <= r_born r0 + BUDGET)%Z /\ (t0 <= dl)%Z.
Proof.
  intros Hre Hr Hp. pose proof (InvB_reachable _ _ Hre) as HB.
  assert (Hdue : forall rid1 r1 k1 dl1, st_res s rid1 = Some r1 -> r_phase r1 = PWait k1 dl1 ->
            due s rid1 = Some (poll_instant s r1 dl1)) by (intros ? ? ? ? H1 H2; unfold due; rewrite H1, H2; reflexivity).
  assert (Hnow : forall rid1 r1 k1 dl1, st_res s rid1 = Some r1 -> r_phase r1 = PWait k1 dl1 ->
            (st_now s <= poll_instant s r1 dl1 <= dl1)%Z /\ (dl1 <= r_born r1 + BUDGET)%Z).
  { intros rid1 r1 k1 dl1 Hr1 Hp1. pose proof (ib_res _ HB _ _ Hr1) as [_ Ht]. rewrite Hp1 in Ht.
    destruct Ht as (Hk & Hd & Hn). unfold poll_instant. pose proof (tries_le_budget k1 (proj2 Hk)).
    destruct (ms_table _ _); lia. }
  destruct (earliest (due s) (st_rids s)) as [Hnone|(rid0 & t0 & Hin0 & Hd0 & Hmin)].
  { pose proof (Hdue _ _ _ _ Hr Hp) as E. rewrite (Hnone rid (ib_rids _ HB _ _ Hr)) in E. discriminate E. }
  assert (H0 : exists r0 k0 dl0, st_res s rid0 = Some r0 /\ r_phase r0 = PWait k0 dl0 /\ t0 = poll_instant s r0 dl0).
  { unfold due in Hd0. destruct (st_res s rid0) as [r0|]; [|discriminate].
    destruct (r_phase r0) as [k0 dl0|] eqn:E; inversion Hd0. exists r0, k0, dl0. auto. }
  destruct H0 as (r0 & k0 & dl0 & Hr0 & Hp0 & ->).
  assert (Htime : time_ok s (poll_instant s r0 dl0) = true).
  { apply time_ok_spec. split; [apply (Hnow _ _ _ _ Hr0 Hp0)|]. intros rid1 Hin1. unfold res_time_ok.
    destruct (st_res s rid1) as [r1|] eqn:Hr1; [|reflexivity].
    destruct (r_phase r1) as [k1 dl1|? ? ?] eqn:Hp1; [|reflexivity].
    pose proof (Hmin _ _ Hin1 (Hdue _ _ _ _ Hr1 Hp1)) as Hle. pose proof (Hnow _ _ _ _ Hr1 Hp1) as [Hb _].
    set (t0 := poll_instant s r0 dl0) in *. unfold poll_instant in Hle, Hb. destruct (ms_table (st_machs s (r_mach r1)) (r_dest r1));
      rewrite ?andb_true_r, ?andb_true_iff, !Z.leb_le; lia. }
  destruct (poll_enabled cfg s rid0 r0 k0 dl0 Hr0 Hp0 Htime) as [s' Hs'].
  exists rid0, r0, (poll_instant s r0 dl0), s'. split; [exact Hs'|]. split; [exact Hr0|].
  pose proof (Hnow _ _ _ _ Hr0 Hp0) as [Ha Hb]. pose proof (Hnow _ _ _ _ Hr Hp) as [Hc _].
  pose proof (Hmin _ _ (ib_rids _ HB _ _ Hr) (Hdue _ _ _ _ Hr Hp)). lia.
Qed.

Lemma owner_mac_functional cfg s1 s2 ip m1 m2 :
  owner_mac cfg s1 ip m1 -> owner_mac cfg s2 ip m2 -> m1 = m2.
Proof.
  intros (o1 & Ho1 & -> & _ & Hc1 & _) (o2 & _ & -> & _ & _ & Hu2).
  rewrite (Hu2 o1 Ho1 Hc1). reflexivity.
Qed.

Lemma same_answer_unflipped cfg s rid1 rid2 r1 r2 st1 st2 t1 t2 c1 c2 :
  wf_cfg cfg -> reachable cfg s ->
  st_res s rid1 = Some r1 -> st_res s rid2 = Some r2 ->
  r_mach r1 = r_mach r2 -> r_dest r1 = r_dest r2 ->
  r_phase r1 = PDone st1 t1 c1 -> r_phase r2 = PDone st2 t2 c2 -> c1 <> CSend -> c2 <> CSend ->
  ms_flipped (st_machs s (r_mach r1)) (r_dest r1) = false ->
  st1 = st2.
Proof.
  intros Hwf Hre H1 H2 Hm Hd P1 P2 C1 C2 Hf.
  pose proof (Inv_reachable _ _ Hwf Hre) as [_ _ HC _].
  pose proof (HC _ _ _ _ _ H1 P1 C1 Hf) as E1.
  rewrite Hm, Hd in Hf. pose proof (HC _ _ _ _ _ H2 P2 C2 Hf) as E2.
  rewrite Hm, Hd in E1. congruence.
Qed.

(* trace-level form of the hypothesis: no ARP packet of an address reaches a machine that has a
   cached failure for that address (in particular: no reply is still in flight when a budget
   runs out) *)
Definition late_answer (s : state) (l : label) : bool :=
  match l with
  | LDeliver p m =>
      match ms_table (st_machs s m) (pk_sip p) with Some SFailed => true | _ => false end
  | _ => false
  end.

Fixpoint no_late_answer (cfg : config) (s : state) (tr : list (Z * label)) : Prop :=
  match tr with
  | [] => True
  | x :: tr' =>
      late_answer s (snd x) = false /\
      match step cfg s x with Ok s' => no_late_answer cfg s' tr' | _ => True end
  end.

Definition unflipped (s : state) : Prop := forall m ip, ms_flipped (st_machs s m) ip = false.

Lemma unflipped_step cfg s x s' :
  unflipped s -> late_answer s (snd x) = false -> step cfg s x = Ok s' -> unflipped s'.
Proof.
  intros Hu Hl Hs m ip. destruct x as [t l]. rewrite (step_flipped _ _ _ _ _ _ _ Hs), Hu.
  destruct l as [| | | |p m0| |]; try reflexivity. cbn [snd late_answer orb] in *.
  destruct (Nat.eqb_spec m m0) as [->|]; [|reflexivity].
  destruct (N.eqb_spec ip (pk_sip p)) as [->|]; [|reflexivity].
  destruct (ms_table (st_machs s m0) (pk_sip p)) as [[|]|]; [reflexivity|discriminate|reflexivity].
Qed.

Lemma unflipped_run cfg tr s :
  run cfg (init cfg) tr = Ok s -> no_late_answer cfg (init cfg) tr -> unflipped s.
Proof.
  intros Hrun Hn. apply (run_inv cfg unflipped (no_late_answer cfg)) with (tr := tr) (s := init cfg); auto.
  - intros s0 x tr0 s1 [Hl Hn0] Hu Hs. cbn [no_late_answer] in Hn0. rewrite Hs in Hn0.
    split; [eapply unflipped_step; eauto|exact Hn0].
  - intros m ip. reflexivity.
Qed.

(* weaker hypothesis, aimed at concurrency: a packet of an address may overwrite a cached
   failure, but not while a resolver of that address is still waiting on that machine *)
Definition waiting_on (s : state) (m : nat) (D : N) (rid : N) : bool :=
  match st_res s rid with
  | Some r =>
      match r_phase r with
      | PWait _ _ => Nat.eqb (r_mach r) m && (r_dest r =? D)%N
      | PDone _ _ _ => false
      end
  | None => false
  end.

Definition late_answer_to_waiter (s : state) (l : label) : bool :=
  match l with
  | LDeliver p m =>
      match ms_table (st_machs s m) (pk_sip p) with
      | Some SFailed => existsb (waiting_on s m (pk_sip p)) (st_rids s)
      | _ => false
      end
  | _ => false
  end.

Fixpoint no_late_answer_to_waiter (cfg : config) (s : state) (tr : list (Z * label)) : Prop :=
  match tr with
  | [] => True
  | x :: tr' =>
      late_answer_to_waiter s (snd x) = false /\
      match step cfg s x with Ok s' => no_late_answer_to_waiter cfg s' tr' | _ => True end
  end.

Definition is_wait (s : state) (rid : N) (m : nat) (D : N) : Prop :=
  exists r k dl, st_res s rid = Some r /\ r_mach r = m /\ r_dest r = D /\ r_phase r = PWait k dl.
Definition is_done (s : state) (rid : N) (m : nat) (D : N) (st : status) : Prop :=
  exists r t c, st_res s rid = Some r /\ r_mach r = m /\ r_dest r = D /\ r_phase r = PDone st t c.

Lemma waiting_on_true s rid m D : is_wait s rid m D -> waiting_on s m D rid = true.
Proof.
  intros (r & k & dl & Hr & Hm & Hd & Hp). unfold waiting_on. rewrite Hr, Hp, Hm, Hd.
  rewrite Nat.eqb_refl, N.eqb_refl. reflexivity.
Qed.

Lemma wait_not_done s rid m D st : is_wait s rid m D -> is_done s rid m D st -> False.
Proof. intros (r & k & dl & Hr & _ & _ & Hp) (r' & t & c & Hr' & _ & _ & Hp'). congruence. Qed.

Lemma is_done_fun s rid m D a b : is_done s rid m D a -> is_done s rid m D b -> a = b.
Proof. intros (r & ? & ? & Hr & _ & _ & Hp) (r' & ? & ? & Hr' & _ & _ & Hp'). congruence. Qed.

Lemma is_done_stable cfg s x s' rid m D st :
  step cfg s x = Ok s' -> is_done s rid m D st -> is_done s' rid m D st.
Proof.
  intros Hs (r & t & c & Hr & H). exists r, t, c. split; [eapply done_stable; eauto; apply H|exact H].
Qed.

Lemma phase_intro s rid r ph m D : st_res s rid = Some (with_phase r ph) -> r_mach r = m -> r_dest r = D ->
  match ph with PWait _ _ => is_wait s rid m D | PDone st _ _ => is_done s rid m D st end.
Proof. intros H1 H2 H3. destruct ph; eexists _, _, _; (split; [exact H1|]); cbn; auto. Qed.

(* a resolver of D on m is still waiting, or has returned what the table of m holds for D *)
Definition tracks (s : state) (m : nat) (D : N) (rid : N) : Prop :=
  is_wait s rid m D \/ exists st, is_done s rid m D st /\ ms_table (st_machs s m) D = Some st.

(* this is kept by every move that does not overwrite a cached failure of (m, D): a poll returns the
   entry or caches its own failure, and a delivery can only repeat a resolved entry *)
Lemma tracks_step cfg s t l s' m D rid :
  wf_cfg cfg -> (ARP_SIZE <= cfg_mtu cfg)%N -> Inv cfg s -> step cfg s (t, l) = Ok s' ->
  (ms_table (st_machs s m) D = Some SFailed -> ms_table (st_machs s' m) D = Some SFailed) ->
  tracks s m D rid -> tracks s' m D rid.
Proof.
  intros Hwf Hmtu [HA _ _ _] Hs Hkeep Ht.
  assert (Hr : exists r, st_res s rid = Some r /\ r_mach r = m /\ r_dest r = D /\
                 ((exists k dl, r_phase r = PWait k dl) \/
                  exists st t c, r_phase r = PDone st t c /\ ms_table (st_machs s m) D = Some st)).
  { destruct Ht as [(r & k & dl & H1 & H2 & H3 & H4)|(st & (r & t0 & c & H1 & H2 & H3 & H4) & H5)];
      exists r; eauto 10. }
  destruct Hr as (r & Hr & Hm & Hd & Hph).
  destruct (res_step _ _ _ _ _ _ _ Hs Hr) as [[_ Hr']|(-> & (k & dl & Hp) & Hr')].
  - destruct Hph as [(k & dl & Hp)|(st & t0 & c & Hp & Htab)]; [left; exists r, k, dl; auto|].
    right. exists st. split; [exists r, t0, c; auto|].
    destruct (step_table cfg s t l s' m D Hs) as [E|[(E & _)|(p & _ & <- & Hin & E)]]; [congruence|congruence|].
    destruct st as [mac|]; [|rewrite (Hkeep Htab) in E; discriminate].
    rewrite E, (frame_agrees _ _ _ _ _ _ Hwf HA Hin Htab). reflexivity.
  - pose proof (phase_intro _ _ _ _ _ _ Hr' Hm Hd) as Hi.
    destruct (poll_phase cfg s t r) as [k' dl'|st t' c] eqn:Hpp; [left; exact Hi|].
    right. exists st. split; [exact Hi|].
    destruct (poll_phase_done _ _ _ _ _ _ _ _ _ Hp Hpp) as (_ & Hc). rewrite Hm, Hd in Hc. destruct c.
    + destruct (step_table cfg s t (LPoll rid) s' m D Hs) as [E|[(E & _)|(p & E & _)]]; [congruence|congruence|discriminate].
    + destruct Hc as (-> & _). rewrite <- Hm, <- Hd. eapply step_budget; eauto.
    + destruct Hc as (_ & _ & Hc). lia.
Qed.

(* while one of the two waits both track the table; afterwards they have the same answer *)
Definition pair_tracks (s : state) (rid1 rid2 : N) (m : nat) (D : N) : Prop :=
  (tracks s m D rid1 /\ tracks s m D rid2 /\ (is_wait s rid1 m D \/ is_wait s rid2 m D)) \/
  (exists st, is_done s rid1 m D st /\ is_done s rid2 m D st).

Lemma pair_tracks_step cfg s x s' rid1 rid2 m D :
  wf_cfg cfg -> (ARP_SIZE <= cfg_mtu cfg)%N -> Inv cfg s ->
  late_answer_to_waiter s (snd x) = false -> step cfg s x = Ok s' ->
  pair_tracks s rid1 rid2 m D -> pair_tracks s' rid1 rid2 m D.
Proof.
  intros Hwf Hmtu HI Hlate Hs [(T1 & T2 & W)|(st & D1 & D2)];
    [|right; exists st; split; eapply is_done_stable; eauto].
  destruct x as [t l]. cbn [snd] in Hlate.
  assert (Hkeep : ms_table (st_machs s m) D = Some SFailed -> ms_table (st_machs s' m) D = Some SFailed).
  { intros Hf. destruct (step_table cfg s t l s' m D Hs) as [E|[(E & _)|(p & -> & <- & _)]]; [congruence|congruence|].
    (* a delivery over the cached failure while somebody waits is what the hypothesis excludes *)
    cbn [late_answer_to_waiter] in Hlate. rewrite Hf in Hlate. exfalso.
    assert (Hw : exists rid, In rid (st_rids s) /\ waiting_on s m (pk_sip p) rid = true).
    { destruct W as [W|W]; [exists rid1|exists rid2]; (split; [|apply waiting_on_true; exact W]);
        destruct W as (r & ? & ? & Hr & _); eapply ib_rids; eauto; apply HI. }
    rewrite (proj2 (existsb_exists _ _) Hw) in Hlate. discriminate. }
  pose proof (tracks_step _ _ _ _ _ _ _ rid1 Hwf Hmtu HI Hs Hkeep T1) as T1'.
  pose proof (tracks_step _ _ _ _ _ _ _ rid2 Hwf Hmtu HI Hs Hkeep T2) as T2'.
  destruct T1' as [W1|(a & Da & Ta)] eqn:E1; [left; auto|].
  destruct T2' as [W2|(b & Db & Tb)] eqn:E2; [left; auto|].
  right. exists a. split; [exact Da|]. replace a with b by congruence. exact Db.
Qed.

Lemma same_answer_tracked cfg sa tr s rid1 rid2 m D st1 st2 :
  wf_cfg cfg -> (ARP_SIZE <= cfg_mtu cfg)%N -> reachable cfg sa ->
  is_wait sa rid1 m D -> is_wait sa rid2 m D ->
  run cfg sa tr = Ok s -> no_late_answer_to_waiter cfg sa tr ->
  is_done s rid1 m D st1 -> is_done s rid2 m D st2 -> st1 = st2.
Proof.
  intros Hwf Hmtu Hre W1 W2 Hrun Hn D1 D2.
  assert (H : Inv cfg s /\ pair_tracks s rid1 rid2 m D).
  { apply (run_inv cfg (fun s => Inv cfg s /\ pair_tracks s rid1 rid2 m D) (no_late_answer_to_waiter cfg))
      with (tr := tr) (s := sa); auto.
    - intros s0 x tr0 s1 [Hl Hn0] [HI HQ] Hs. cbn [no_late_answer_to_waiter] in Hn0. rewrite Hs in Hn0.
      split; [|exact Hn0]. split; [eapply Inv_step; eauto|eapply pair_tracks_step; eauto].
    - split; [apply Inv_reachable; assumption|]. left. unfold tracks. auto. }
  destruct H as [_ [(_ & _ & [W|W])|(st & H1 & H2)]]; try (exfalso; eapply wait_not_done; eauto; fail).
  rewrite (is_done_fun _ _ _ _ _ _ D1 H1), (is_done_fun _ _ _ _ _ _ D2 H2). reflexivity.
Qed.

Definition wcfg : config :=
  mkCfg [mkMc 0 [167772161%N] []; mkMc 1 [167772162%N] []] 65535.
Definition wcfg_subnet : config :=
  mkCfg [mkMc 0 [167772161%N] [(167772161%N, mkSn 4294967040 167772162)]; mkMc 1 [167772162%N] []] 65535.

(* recorded from the implementation, case `0 0 | 167772161:-;167772162:- | L 0 0 167772161;L 1 0 167772162;R 1 0 0 167772161 167772162 0 0;R 2 0 100 167772161 167772162 0 0 | d 18:k,19:y200`;
   observed results: 1 err 2000000000 2 ok:1 2000000000 *)
Definition wreq : packet := mkPkt Request 0 167772161 69 167772162.
(* the poll due at i * 100 ms and the two copies of the request it broadcasts *)
Definition wround (lose : bool) (i : Z) : list (Z * label) :=
  let t := (i * 100000000)%Z in
  let net := if lose then LDrop else LDeliver in
  [(t, LPoll (if Z.even i then 1 else 2)); (t, net wreq 0%nat); (t, net wreq 1%nat)].
(* both starts and the polls up to 1700 ms lose their requests, the requests of 1800 ms arrive,
   the reply is delivered at 2000 ms between the last polls of the two resolvers *)
Definition wtrace_race : list (Z * label) :=
  [(0, LListen 0 167772161); (0, LListen 1 167772162);
   (0, LStart 0 1 (mkPair 167772161 167772162) 0); (0, LDrop wreq 0); (0, LDrop wreq 1);
   (100000000, LStart 0 2 (mkPair 167772161 167772162) 0);
   (100000000, LDrop wreq 0); (100000000, LDrop wreq 1)]%Z
  ++ flat_map (wround true) (map Z.of_nat (seq 2 16)) ++ wround false 18 ++ wround true 19
  ++ [(2000000000, LPoll 1); (2000000000, LDeliver (mkPkt Reply 1 167772162 0 167772161) 0);
      (2000000000, LPoll 2)]%Z.

(* recorded from the implementation, case `0 0 | 167772161:167772161/24/167772162;167772162:- | L 0 0 167772161;L 1 0 167772162;R 1 0 0 167772161 167772162 0 0;R 2 0 0 167772161 3232235777 0 0 | k -`;
   observed results: 1 ok:1 0 2 ok:1 0 *)
Definition wtrace_agree : list (Z * label) :=
  [(0, LListen 0 167772161);
   (0, LListen 1 167772162);
   (0, LStart 0 1 (mkPair 167772161 167772162) 0);
   (0, LStart 0 2 (mkPair 167772161 3232235777) 0);
   (0, LDeliver (mkPkt Request 0 167772161 69 167772162) 0);
   (0, LDeliver (mkPkt Request 0 167772161 69 167772162) 1);
   (0, LDeliver (mkPkt Request 0 167772161 69 167772162) 0);
   (0, LDeliver (mkPkt Request 0 167772161 69 167772162) 1);
   (0, LDeliver (mkPkt Reply 1 167772162 0 167772161) 0);
   (0, LDeliver (mkPkt Reply 1 167772162 0 167772161) 0);
   (0, LPoll 1);
   (0, LPoll 2)]%Z.

(* recorded from the implementation, case `0 0 | 167772161:-;167772162:- | L 0 0 167772161;L 1 0 167772162;R 1 0 0 167772161 167772199 0 0 | k -`;
   observed results: 1 err 2000000000 *)
Definition wtrace_unclaimed : list (Z * label) :=
  [(0, LListen 0 167772161);
   (0, LListen 1 167772162);
   (0, LStart 0 1 (mkPair 167772161 167772199) 0);
   (0, LDeliver (mkPkt Request 0 167772161 69 167772199) 0);
   (0, LDeliver (mkPkt Request 0 167772161 69 167772199) 1);
   (200000000, LPoll 1);
   (200000000, LDeliver (mkPkt Request 0 167772161 69 167772199) 0);
   (200000000, LDeliver (mkPkt Request 0 167772161 69 167772199) 1);
   (400000000, LPoll 1);
   (400000000, LDeliver (mkPkt Request 0 167772161 69 167772199) 0);
   (400000000, LDeliver (mkPkt Request 0 167772161 69 167772199) 1);
   (600000000, LPoll 1);
   (600000000, LDeliver (mkPkt Request 0 167772161 69 167772199) 0);
   (600000000, LDeliver (mkPkt Request 0 167772161 69 167772199) 1);
   (800000000, LPoll 1);
   (800000000, LDeliver (mkPkt Request 0 167772161 69 167772199) 0);
   (800000000, LDeliver (mkPkt Request 0 167772161 69 167772199) 1);
   (1000000000, LPoll 1);
   (1000000000, LDeliver (mkPkt Request 0 167772161 69 167772199) 0);
   (1000000000, LDeliver (mkPkt Request 0 167772161 69 167772199) 1);
   (1200000000, LPoll 1);
   (1200000000, LDeliver (mkPkt Request 0 167772161 69 167772199) 0);
   (1200000000, LDeliver (mkPkt Request 0 167772161 69 167772199) 1);
   (1400000000, LPoll 1);
   (1400000000, LDeliver (mkPkt Request 0 167772161 69 167772199) 0);
   (1400000000, LDeliver (mkPkt Request 0 167772161 69 167772199) 1);
   (1600000000, LPoll 1);
   (1600000000, LDeliver (mkPkt Request 0 167772161 69 167772199) 0);
   (1600000000, LDeliver (mkPkt Request 0 167772161 69 167772199) 1);
   (1800000000, LPoll 1);
   (1800000000, LDeliver (mkPkt Request 0 167772161 69 167772199) 0);
   (1800000000, LDeliver (mkPkt Request 0 167772161 69 167772199) 1);
   (2000000000, LPoll 1)]%Z.

(* a closed run is evaluated once, and only what is read off its final state is compared *)
Lemma run_witness cfg tr (P : state -> Prop) :
  match run cfg (init cfg) tr with Ok s => P s | _ => False end ->
  exists s, run cfg (init cfg) tr = Ok s /\ P s.
Proof. destruct (run cfg (init cfg) tr) as [s| | |]; [eauto|contradiction..]. Qed.

(* the unrestricted "concurrent resolvers get the same answer" is false: resolver 1 (born at 0)
   exhausts its budget at 2000 ms and returns Err; the reply to its last request reaches the
   machine at the same instant, after the failure was cached; resolver 2 (born at 100 ms, same
   machine, same address, still waiting) then returns Ok.  Their lifetimes overlap. *)
Lemma same_answer_refuted :
  exists cfg tr s r1 r2 t1 t2 c1 c2 mac,
    wf_cfg cfg /\ run cfg (init cfg) tr = Ok s /\
    st_res s 1%N = Some r1 /\ st_res s 2%N = Some r2 /\
    r_mach r1 = r_mach r2 /\ r_dest r1 = r_dest r2 /\ c1 <> CSend /\ c2 <> CSend /\
    r_phase r1 = PDone SFailed t1 c1 /\ r_phase r2 = PDone (SOk mac) t2 c2 /\
    (r_born r1 < t2)%Z /\ (r_born r2 < t1)%Z.
Proof.
  destruct (run_witness wcfg wtrace_race (fun s =>
      st_res s 1%N = Some (mkRes 0 (mkPair 167772161 167772162) None 167772162 0 (PDone SFailed 2000000000 CBudget)) /\
      st_res s 2%N = Some (mkRes 0 (mkPair 167772161 167772162) None 167772162 100000000 (PDone (SOk 1) 2000000000 CCache))))
    as (s & Hrun & H1 & H2); [vm_compute; split; reflexivity|].
  exists wcfg, wtrace_race, s. do 7 eexists.
  split; [reflexivity|]. split; [exact Hrun|]. split; [exact H1|]. split; [exact H2|].
  cbn [r_mach r_dest r_phase r_born]. repeat split; try discriminate; reflexivity.
Qed.

(* the hypotheses of the positive theorems are satisfiable: a run without late answers in which
   two concurrent resolvers (one of them sent to the gateway by the /24 subnet rule) both finish *)
Lemma hypotheses_satisfiable :
  wf_cfg wcfg_subnet /\ no_late_answer wcfg_subnet (init wcfg_subnet) wtrace_agree /\
  exists s r1 r2,
    run wcfg_subnet (init wcfg_subnet) wtrace_agree = Ok s /\
    st_res s 1%N = Some r1 /\ st_res s 2%N = Some r2 /\
    r_dest r1 = 167772162%N /\ r_dest r2 = 167772162%N /\ p_remote (r_pair r2) = 3232235777%N /\
    r_phase r1 = PDone (SOk 1) 0 CCache /\ r_phase r2 = PDone (SOk 1) 0 CCache.
Proof.
  split; [reflexivity|]. split; [vm_compute; repeat split|].
  destruct (run_witness wcfg_subnet wtrace_agree (fun s =>
      st_res s 1%N = Some (mkRes 0 (mkPair 167772161 167772162) (Some (mkSn 4294967040 167772162)) 167772162 0 (PDone (SOk 1) 0 CCache)) /\
      st_res s 2%N = Some (mkRes 0 (mkPair 167772161 3232235777) (Some (mkSn 4294967040 167772162)) 167772162 0 (PDone (SOk 1) 0 CCache))))
    as (s & Hrun & H1 & H2); [vm_compute; split; reflexivity|].
  exists s. do 2 eexists. split; [exact Hrun|]. split; [exact H1|]. split; [exact H2|].
  cbn [r_dest r_pair p_remote r_phase]. repeat split.
Qed.

(* an address nobody claims: all ten requests are delivered, nobody answers, Err after exactly
   RESEND_TRIES * RESEND_DELAY *)
Lemma unclaimed_example :
  exists s r,
    run wcfg (init wcfg) wtrace_unclaimed = Ok s /\ st_res s 1%N = Some r /\
    r_phase r = PDone SFailed 2000000000 CBudget /\ r_born r = 0%Z.
Proof.
  destruct (run_witness wcfg wtrace_unclaimed (fun s =>
      st_res s 1%N = Some (mkRes 0 (mkPair 167772161 167772199) None 167772199 0 (PDone SFailed 2000000000 CBudget))))
    as (s & Hrun & H1); [vm_compute; reflexivity|].
  exists s. eexists. split; [exact Hrun|]. split; [exact H1|]. split; reflexivity.
Qed.

(* the hypotheses of same_answer_tracked are satisfiable: after the first four labels of the
   recorded run both resolvers are waiting; the rest of the run has no late answer to a waiter *)
Lemma concurrent_hypotheses_satisfiable :
  exists sa s,
    run wcfg_subnet (init wcfg_subnet) (firstn 4 wtrace_agree) = Ok sa /\
    is_wait sa 1%N 0%nat 167772162%N /\ is_wait sa 2%N 0%nat 167772162%N /\
    run wcfg_subnet sa (skipn 4 wtrace_agree) = Ok s /\
    no_late_answer_to_waiter wcfg_subnet sa (skipn 4 wtrace_agree) /\
    is_done s 1%N 0%nat 167772162%N (SOk 1) /\ is_done s 2%N 0%nat 167772162%N (SOk 1).
Proof.
  destruct (run_witness wcfg_subnet (firstn 4 wtrace_agree) (fun sa =>
      match run wcfg_subnet sa (skipn 4 wtrace_agree) with
      | Ok s =>
          (st_res sa 1%N = Some (mkRes 0 (mkPair 167772161 167772162) (Some (mkSn 4294967040 167772162)) 167772162 0 (PWait 1 200000000)) /\
           st_res sa 2%N = Some (mkRes 0 (mkPair 167772161 3232235777) (Some (mkSn 4294967040 167772162)) 167772162 0 (PWait 1 200000000))) /\
          no_late_answer_to_waiter wcfg_subnet sa (skipn 4 wtrace_agree) /\
          st_res s 1%N = Some (mkRes 0 (mkPair 167772161 167772162) (Some (mkSn 4294967040 167772162)) 167772162 0 (PDone (SOk 1) 0 CCache)) /\
          st_res s 2%N = Some (mkRes 0 (mkPair 167772161 3232235777) (Some (mkSn 4294967040 167772162)) 167772162 0 (PDone (SOk 1) 0 CCache))
      | _ => False
      end)) as (sa & Hsa & H); [vm_compute; repeat split|].
  destruct (run wcfg_subnet sa (skipn 4 wtrace_agree)) as [s| | |] eqn:Hrun; try contradiction.
  destruct H as ((W1 & W2) & Hn & D1 & D2). exists sa, s.
  split; [exact Hsa|]. split; [eexists _, _, _; split; [exact W1|repeat split]|].
  split; [eexists _, _, _; split; [exact W2|repeat split]|]. split; [exact Hrun|]. split; [exact Hn|].
  split; eexists _, _, _; (split; [eassumption|repeat split]).
Qed.

Lemma run_v_spec cfg tr : forall s n,
  match run_v cfg s tr n with inl s' => run cfg s tr = Ok s' | inr v => v <> Accept end.
Proof.
  induction tr as [|x tr IH]; intros s n; cbn [run_v run]; [reflexivity|].
  destruct (step cfg s x); cbn [bind]; try discriminate. apply IH.
Qed.

Lemma status_eqb_eq a b : status_eqb a b = true -> a = b.
Proof.
  destruct a, b; cbn; intros H; try discriminate; [|reflexivity].
  apply N.eqb_eq in H. subst. reflexivity.
Qed.

Lemma validate_sound cfg tr os :
  validate cfg tr os = Accept ->
  wf_cfg cfg /\
  exists s, run cfg (init cfg) tr = Ok s /\ st_net s = [] /\
    (forall o, In o os -> exists r c, st_res s (o_rid o) = Some r /\
                                      r_phase r = PDone (o_status o) (o_at o) c) /\
    (forall rid, In rid (st_rids s) -> exists o, In o os /\ o_rid o = rid).
Proof.
  unfold validate. destruct (wf_cfgb cfg) eqn:Hwf; cbn [negb]; [|discriminate].
  pose proof (run_v_spec cfg tr (init cfg) 0) as Hrun.
  destruct (run_v cfg (init cfg) tr 0) as [s|v]; [|intros ->; contradiction].
  destruct (find (fun o => negb (check_obs s o)) os) eqn:Hobs; [discriminate|].
  destruct (find (fun rid => negb (observed os rid)) (st_rids s)) eqn:Hmiss; [discriminate|].
  destruct (st_net s) as [|[p m] rest] eqn:Hnet; [|discriminate].
  intros _. split; [exact Hwf|]. exists s. split; [exact Hrun|]. split; [exact Hnet|]. split.
  - intros o Ho. pose proof (find_none _ _ Hobs o Ho) as Hc. apply negb_false_iff in Hc.
    unfold check_obs in Hc. destruct (st_res s (o_rid o)) as [r|]; [|discriminate].
    destruct (r_phase r) as [|st t c] eqn:Hp; [discriminate|].
    apply andb_true_iff in Hc. destruct Hc as [H1 H2]. apply status_eqb_eq in H1. apply Z.eqb_eq in H2.
    subst. eauto.
  - intros rid Hin. pose proof (find_none _ _ Hmiss rid Hin) as Hc. apply negb_false_iff in Hc.
    unfold observed in Hc. apply existsb_exists in Hc. destruct Hc as (o & Ho & He).
    apply N.eqb_eq in He. eauto.
Qed.

Lemma validate_property cfg tr os :
  validate cfg tr os = Accept ->
  exists s, run cfg (init cfg) tr = Ok s /\
    forall o, In o os ->
      exists r c, st_res s (o_rid o) = Some r /\ r_phase r = PDone (o_status o) (o_at o) c /\
        r_dest r = target (r_sub r) (r_pair r) /\
        (forall mac, o_status o = SOk mac -> owner_mac cfg s (r_dest r) mac) /\
        (r_born r <= o_at o <= r_born r + BUDGET)%Z /\
        (c = CBudget -> o_status o = SFailed /\ o_at o = (r_born r + BUDGET)%Z).
Proof.
  intros H. destruct (validate_sound _ _ _ H) as (Hwf & s & Hrun & _ & Hobs & _).
  exists s. split; [exact Hrun|]. intros o Ho. destruct (Hobs o Ho) as (r & c & Hr & Hp).
  assert (Hre : reachable cfg s) by (exists tr; exact Hrun).
  exists r, c. split; [exact Hr|]. split; [exact Hp|].
  split; [apply (ia_res _ _ (inv_a _ _ (Inv_reachable _ _ Hwf Hre)) _ _ Hr)|]. split.
  - intros mac E. rewrite E in Hp. eapply never_wrong; eauto.
  - pose proof (resolver_timing _ _ _ _ Hre Hr) as [_ Ht]. rewrite Hp in Ht.
    destruct Ht as (H1 & H2 & H3 & _). split; [lia|exact H3].
Qed.

Lemma validate_results_sound cfg os :
  validate_results cfg os = true ->
  wf_cfg cfg /\
  forall o mac, In o os -> ro_status o = SOk mac ->
    exists i, (i < n_machs cfg)%nat /\ mac = mac_of cfg i /\
              In (target (ro_sub o) (ro_pair o)) (claims_of cfg i) /\
              forall j, (j < n_machs cfg)%nat -> In (target (ro_sub o) (ro_pair o)) (claims_of cfg j) -> j = i.
Proof.
  unfold validate_results. intros H. apply andb_true_iff in H. destruct H as [Hwf Hall].
  split; [exact Hwf|]. intros o mac Ho Hs. rewrite forallb_forall in Hall. specialize (Hall o Ho).
  unfold check_robs in Hall. rewrite Hs in Hall. apply existsb_eqb_In in Hall.
  unfold owner_macs in Hall. apply in_map_iff in Hall. destruct Hall as (i & He & Hi).
  apply filter_In in Hi. destruct Hi as [Hi Hc]. apply claimsb_In in Hc.
  unfold all_machs in Hi. apply in_seq in Hi.
  exists i. split; [lia|]. split; [auto|]. split; [exact Hc|].
  intros j Hj Hcj. eapply (owner_unique cfg Hwf); eauto. lia.
Qed.
