(* Characterising lemmas of the byte-level helpers (Model/Bytes.v): every shift
   and mask in div/mod form, big-endian conversions, reader inversion. *)
From Elvis Require Import Model.Base Model.Bytes.
Ltac Zify.zify_post_hook ::= Z.div_mod_to_equations.
Local Open Scope Z_scope.

Definition zrange (n : nat) : list Z := map Z.of_nat (seq 0 n).
Lemma zrange_in : forall n x, 0 <= x < Z.of_nat n -> In x (zrange n).
Proof.
  intros n x Hx. unfold zrange. apply in_map_iff. exists (Z.to_nat x). split.
  - lia.
  - apply in_seq. lia.
Qed.
Lemma zrange_forallb : forall n f, forallb f (zrange n) = true ->
  forall x, 0 <= x < Z.of_nat n -> f x = true.
Proof.
  intros n f H x Hx. rewrite forallb_forall in H. apply H. apply zrange_in. exact Hx.
Qed.
Lemma zrange_forallb2 : forall (f : Z -> Z -> bool) n m,
  forallb (fun x => forallb (f x) (zrange m)) (zrange n) = true ->
  forall x y, 0 <= x < Z.of_nat n -> 0 <= y < Z.of_nat m -> f x y = true.
Proof.
  intros f n m H x y Hx Hy. apply (zrange_forallb m (f x)); [|exact Hy].
  exact (zrange_forallb n (fun x => forallb (f x) (zrange m)) H x Hx).
Qed.

Lemma shr_div : forall a k, 0 <= k -> shr a k = a / 2 ^ k.
Proof. intros. unfold shr. apply Z.shiftr_div_pow2. assumption. Qed.
Lemma shl_mul : forall a k, 0 <= k -> shl a k = a * 2 ^ k.
Proof. intros. unfold shl. apply Z.shiftl_mul_pow2. assumption. Qed.
Lemma band_ones : forall a k, 0 <= k -> band a (2 ^ k - 1) = a mod 2 ^ k.
Proof.
  intros a k Hk. unfold band. replace (2 ^ k - 1) with (Z.ones k).
  - apply Z.land_ones. assumption.
  - rewrite Z.ones_equiv. lia.
Qed.

Lemma shr_4 : forall a, shr a 4 = a / 16.
Proof. intros. rewrite shr_div by lia. reflexivity. Qed.
Lemma shr_13 : forall a, shr a 13 = a / 8192.
Proof. intros. rewrite shr_div by lia. reflexivity. Qed.
Lemma shl_13 : forall a, shl a 13 = a * 8192.
Proof. intros. rewrite shl_mul by lia. reflexivity. Qed.
Lemma shl_4 : forall a, shl a 4 = a * 16.
Proof. intros. rewrite shl_mul by lia. reflexivity. Qed.
Lemma band_3 : forall a, band a 3 = a mod 4.
Proof. intros. exact (band_ones a 2 ltac:(lia)). Qed.
Lemma band_15 : forall a, band a 15 = a mod 16.
Proof. intros. exact (band_ones a 4 ltac:(lia)). Qed.
Lemma band_63 : forall a, band a 63 = a mod 64.
Proof. intros. exact (band_ones a 6 ltac:(lia)). Qed.
Lemma band_8191 : forall a, band a 8191 = a mod 8192.
Proof. intros. exact (band_ones a 13 ltac:(lia)). Qed.
Lemma band_1 : forall a, band a 1 = a mod 2.
Proof. intros. exact (band_ones a 1 ltac:(lia)). Qed.

Lemma band_pow2 : forall a k, 0 <= k -> band a (2 ^ k) = (a / 2 ^ k mod 2) * 2 ^ k.
Proof.
  intros a k Hk. unfold band. rewrite <- Z.testbit_spec' by assumption.
  apply Z.bits_inj'. intros n Hn. rewrite Z.land_spec, Z.pow2_bits_eqb by assumption.
  destruct (Z.testbit a k) eqn:E; cbn [Z.b2z].
  - rewrite Z.mul_1_l, Z.pow2_bits_eqb by assumption.
    destruct (Z.eqb_spec k n); [subst; rewrite E; reflexivity | apply andb_false_r].
  - rewrite Z.mul_0_l, Z.bits_0.
    destruct (Z.eqb_spec k n); [subst; rewrite E; reflexivity | apply andb_false_r].
Qed.
Lemma band_4 : forall a, band a 4 = (a / 4 mod 2) * 4.
Proof. intros. exact (band_pow2 a 2 ltac:(lia)). Qed.
Lemma band_2 : forall a, band a 2 = (a / 2 mod 2) * 2.
Proof. intros. exact (band_pow2 a 1 ltac:(lia)). Qed.

Lemma land_shifted_low : forall a b k, 0 <= k -> 0 <= b < 2 ^ k -> Z.land (a * 2 ^ k) b = 0.
Proof.
  intros a b k Hk Hb. apply Z.bits_inj'. intros n Hn. rewrite Z.land_spec, Z.bits_0.
  destruct (Z.ltb_spec n k) as [Hlt|Hge].
  - rewrite Z.mul_pow2_bits_low by lia. reflexivity.
  - destruct (Z.eq_dec b 0) as [->|Hnz].
    + rewrite Z.bits_0. apply andb_false_r.
    + rewrite (Z.bits_above_log2 b n).
      * apply andb_false_r.
      * lia.
      * apply Z.log2_lt_pow2; try lia.
        apply Z.lt_le_trans with (2 ^ k); try lia. apply Z.pow_le_mono_r; lia.
Qed.
Lemma bor_add : forall a b k, 0 <= k -> 0 <= b < 2 ^ k -> bor (a * 2 ^ k) b = a * 2 ^ k + b.
Proof.
  intros a b k Hk Hb. unfold bor.
  pose proof (land_shifted_low a b k Hk Hb) as H0.
  rewrite <- Z.lxor_lor by assumption. symmetry. apply Z.add_nocarry_lxor. assumption.
Qed.
Lemma bor_add_8192 : forall a b, 0 <= b < 8192 -> bor (a * 8192) b = a * 8192 + b.
Proof. intros. exact (bor_add a b 13 ltac:(lia) ltac:(lia)). Qed.

Lemma bnot16_sub : forall x, 0 <= x < 65536 -> bnot16 x = 65535 - x.
Proof.
  intros x Hx. unfold bnot16.
  destruct (Z.eq_dec x 0) as [->|Hnz]; [reflexivity|].
  assert (Hl : Z.log2 x < 16) by (apply Z.log2_lt_pow2; lia).
  pose proof (Z.add_nocarry_lxor x (Z.lxor x 65535)) as Hadd.
  assert (Hland : Z.land x (Z.lxor x 65535) = 0).
  { apply Z.bits_inj'. intros n Hn. rewrite Z.land_spec, Z.lxor_spec, Z.bits_0.
    destruct (Z.testbit x n) eqn:E; [|reflexivity].
    change 65535 with (Z.ones 16).
    destruct (Z.ltb_spec n 16).
    - rewrite Z.ones_spec_low by lia. reflexivity.
    - rewrite (Z.bits_above_log2 x n) in E by lia. discriminate. }
  specialize (Hadd Hland).
  rewrite <- Z.lxor_assoc, Z.lxor_nilpotent, Z.lxor_0_l in Hadd.
  lia.
Qed.

Lemma of_be16_be16 : forall v, u16 v -> of_be16 (v / 256 mod 256) (v mod 256) = v.
Proof. unfold u16, of_be16. intros. lia. Qed.
Lemma of_be32_be32 : forall v, u32 v ->
  of_be32 (v / 16777216 mod 256) (v / 65536 mod 256) (v / 256 mod 256) (v mod 256) = v.
Proof. unfold u32, of_be32. intros. lia. Qed.
Lemma be16_of_be16 : forall a b, byte a -> byte b -> be16 (of_be16 a b) = [a; b].
Proof. unfold byte, of_be16, be16. intros. f_equal; [|f_equal]; lia. Qed.
Lemma be32_of_be32 : forall a b c d, byte a -> byte b -> byte c -> byte d ->
  be32 (of_be32 a b c d) = [a; b; c; d].
Proof. unfold byte, of_be32, be32. intros. repeat (f_equal; try lia). Qed.
Lemma of_be16_range : forall a b, byte a -> byte b -> u16 (of_be16 a b).
Proof. unfold byte, u16, of_be16. intros. lia. Qed.
Lemma of_be32_range : forall a b c d, byte a -> byte b -> byte c -> byte d -> u32 (of_be32 a b c d).
Proof. unfold byte, u32, of_be32. intros. lia. Qed.
Lemma be16_bytes : forall v, bytes (be16 v).
Proof. intros. unfold bytes, be16, byte. repeat constructor; lia. Qed.
Lemma be32_bytes : forall v, bytes (be32 v).
Proof. intros. unfold bytes, be32, byte. repeat constructor; lia. Qed.

Lemma next_u8_Some : forall bs v r, next_u8 bs = Some (v, r) -> bs = v :: r.
Proof. intros [|b bs] v r H; inversion H; reflexivity. Qed.
Lemma next_u16_be_Some : forall bs v r, next_u16_be bs = Some (v, r) ->
  exists a b, bs = a :: b :: r /\ v = of_be16 a b.
Proof. intros [|a [|b bs]] v r H; inversion H. eauto. Qed.
Lemma next_u32_be_Some : forall bs v r, next_u32_be bs = Some (v, r) ->
  exists a b c d, bs = a :: b :: c :: d :: r /\ v = of_be32 a b c d.
Proof. intros [|a [|b [|c [|d bs]]]] v r H; inversion H. eauto 6. Qed.

Lemma bytes_cons : forall b bs, bytes (b :: bs) <-> byte b /\ bytes bs.
Proof. intros. unfold bytes. split; intro H; [inversion H; auto | constructor; tauto]. Qed.
Lemma bytes_app : forall a b, bytes (a ++ b) <-> bytes a /\ bytes b.
Proof. intros. unfold bytes. apply Forall_app. Qed.
Lemma bytes_firstn : forall n l, bytes l -> bytes (firstn n l).
Proof.
  induction n as [|n IH]; intros [|b l] H; cbn [firstn]; try constructor.
  - apply bytes_cons in H. tauto.
  - apply IH. apply bytes_cons in H. tauto.
Qed.
Lemma bytes_skipn : forall n l, bytes l -> bytes (skipn n l).
Proof.
  induction n as [|n IH]; intros [|b l] H; cbn [skipn]; try assumption.
  apply IH. apply bytes_cons in H. tauto.
Qed.

Lemma bytes_nth : forall bs i, bytes bs -> byte (nth i bs 0).
Proof.
  intros bs i H. destruct (nth_in_or_default i bs 0) as [I | ->].
  - unfold bytes in H. rewrite Forall_forall in H. apply H, I.
  - unfold byte. lia.
Qed.

Lemma nth_firstn_lt : forall (n i : nat) (l : list Z) d, (i < n)%nat -> nth i (firstn n l) d = nth i l d.
Proof.
  induction n as [|n IH]; intros i l d Hi; [lia|].
  destruct l as [|b r]; [destruct i; reflexivity|].
  destruct i as [|i]; cbn [firstn nth]; [reflexivity|]. apply IH. lia.
Qed.

Definition w16 (bs : list Z) (i : nat) : Z := of_be16 (nth i bs 0) (nth (S i) bs 0).
Definition w32 (bs : list Z) (i : nat) : Z :=
  of_be32 (nth i bs 0) (nth (S i) bs 0) (nth (S (S i)) bs 0) (nth (S (S (S i))) bs 0).
Lemma w16_range : forall bs i, bytes bs -> u16 (w16 bs i).
Proof. intros. apply of_be16_range; apply bytes_nth; assumption. Qed.
Lemma w32_range : forall bs i, bytes bs -> u32 (w32 bs i).
Proof. intros. apply of_be32_range; apply bytes_nth; assumption. Qed.
Lemma be16_w16 : forall bs i, bytes bs -> be16 (w16 bs i) = [nth i bs 0; nth (S i) bs 0].
Proof. intros. apply be16_of_be16; apply bytes_nth; assumption. Qed.
Lemma be32_w32 : forall bs i, bytes bs ->
  be32 (w32 bs i) = [nth i bs 0; nth (S i) bs 0; nth (S (S i)) bs 0; nth (S (S (S i))) bs 0].
Proof. intros. apply be32_of_be32; apply bytes_nth; assumption. Qed.
Lemma firstn_nth : forall n (bs : list Z), (n <= length bs)%nat ->
  firstn n bs = map (fun i => nth i bs 0) (seq 0 n).
Proof.
  induction n as [|n IH]; intros [|b r] H; cbn [length] in H; try lia; [reflexivity..|].
  cbn [firstn seq map nth]. rewrite <- seq_shift, map_map, IH by lia. reflexivity.
Qed.

Lemma np_bind : forall A B (r : result A) (k : A -> result B),
  is_panic r = false -> (forall a, is_panic (k a) = false) -> is_panic (bind r k) = false.
Proof. intros A B [a|e|s|] k H K; cbn in *; auto; discriminate. Qed.
Lemma np_ok_or : forall A (o : option A) e, is_panic (ok_or o e) = false.
Proof. intros A [a|] e; reflexivity. Qed.
Lemma np_if : forall A (c : bool) (x y : result A),
  is_panic x = false -> is_panic y = false -> is_panic (if c then x else y) = false.
Proof. intros A [|] x y; auto. Qed.
Lemma nf_bind : forall A B (r : result A) (k : A -> result B),
  r <> OutOfFuel -> (forall a, k a <> OutOfFuel) -> bind r k <> OutOfFuel.
Proof. intros A B [a|e|s|] k H K; cbn in *; auto; discriminate. Qed.
Lemma nf_ok_or : forall A (o : option A) e, ok_or o e <> OutOfFuel.
Proof. intros A [a|] e; discriminate. Qed.
Lemma nf_if : forall A (c : bool) (x y : result A),
  x <> OutOfFuel -> y <> OutOfFuel -> (if c then x else y) <> OutOfFuel.
Proof. intros A [|] x y; auto. Qed.
Lemma Ok_inj : forall A (a b : A), @Ok A a = Ok b -> a = b.
Proof. intros A a b H. injection H. auto. Qed.
Lemma is_panic_false : forall A (r : result A), is_panic r = false -> forall s, r <> Panic s.
Proof. intros A [a|e|s'|] H s; try discriminate. Qed.

Ltac no_panic :=
  repeat first
    [ reflexivity
    | apply np_ok_or
    | apply np_bind; [| intros [? ?]; cbv beta iota ]
    | apply np_if
    | progress cbv zeta ].
Ltac no_fuel :=
  repeat first
    [ discriminate
    | apply nf_ok_or
    | apply nf_bind; [| intros [? ?]; cbv beta iota ]
    | apply nf_if
    | progress cbv zeta ].

(* a chain of [if]s all of whose leaves are error values *)
Ltac kill_ifs_err :=
  repeat match goal with
         | |- context [if ?c then _ else _] => destruct c
         end; eauto.

Ltac norm_pow :=
  repeat match goal with
         | |- context [2 ^ ?k] =>
             let v := eval vm_compute in (2 ^ k) in change (2 ^ k) with v
         end.
Ltac list_eq := repeat (apply (f_equal2 (@cons Z)); [try lia|]); try reflexivity.
