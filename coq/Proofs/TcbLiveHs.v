(* C01 liveness: evaluation of the three-way handshake, TCB level.
   What each endpoint does with the SYN, the duplicate SYN, the bare ACK that overtakes the
   SYN-ACK, the SYN-ACK, its retransmitted copy, and the final ACK. *)
From Elvis Require Import Model.Base Model.U32 Model.Tcb Model.TcpNet Proofs.U32Facts Proofs.TcbSafetySnd
  Proofs.TcbSafetyRcv Proofs.TcbSafetyArr Proofs.TcbLive.
Local Open Scope Z_scope.

Lemma mod_lt_succ_l x : mod_lt (wadd x 1) x = false.
Proof. unfold mod_lt. rewrite wsub_spec, wadd_spec. unfold M32, H31. lia. Qed.
Lemma mod_lt_succ_r x : mod_lt x (wadd x 1) = true.
Proof. unfold mod_lt. rewrite wsub_spec, wadd_spec. unfold M32, H31. lia. Qed.
Lemma succ_neq x : u32 x -> (wadd x 1 =? x) = false.
Proof. rewrite wadd_spec. unfold u32, M32. lia. Qed.
Lemma mod_leq_succ x : u32 x -> mod_leq (wadd x 1) x = false.
Proof. intros H. unfold mod_leq. now rewrite succ_neq, mod_lt_succ_l. Qed.

(* SEG.ACK = ISS+1 in SYN-SENT: not in (SND.NXT, ISS], but in (SND.UNA, SND.NXT] *)
Lemma ack_not_bad x : u32 x -> mod_bounded (wadd x 1) CLt (wadd x 1) CLeq x = false.
Proof.
  intros H. rewrite mod_bounded_spec by (try assumption; apply wadd_u32).
  unfold on_arc. cbn [cmp_offset]. rewrite !wsub_spec, !wadd_spec. unfold u32, M32 in *. lia.
Qed.
Lemma ack_acceptable x : u32 x -> mod_bounded x CLt (wadd x 1) CLeq (wadd x 1) = true.
Proof.
  intros H. rewrite mod_bounded_spec by (try assumption; apply wadd_u32).
  unfold on_arc. cbn [cmp_offset]. rewrite !wsub_spec, !wadd_spec. unfold u32, M32 in *. lia.
Qed.

Lemma heap_push_same_seq a b : h_seq (s_hdr a) = h_seq (s_hdr b) -> heap_push [a] b = [a; b].
Proof.
  intros E. unfold heap_push. cbv -[seg_le].
  assert (H : seg_le b a = true) by (unfold seg_le; rewrite E, Z.eqb_refl; reflexivity).
  rewrite H. reflexivity.
Qed.

Lemma heap_pop_two a b : heap_pop [a; b] = Some (a, [b]).
Proof. reflexivity. Qed.

Definition syn_only (h : header) : Prop :=
  c_syn (h_ctl h) = true /\ c_ack (h_ctl h) = false /\ c_rst (h_ctl h) = false /\ c_fin (h_ctl h) = false.

(* the TCB created by a SYN in LISTEN *)
Definition listen_tcb (h : header) (iss m : Z) : tcb :=
  let t := mkTcb (h_dport h) (h_sport h) m true SynReceived iss (wadd iss 1)
                 (h_wnd h) (h_seq h) (h_ack h) iss (h_seq h) (wadd (h_seq h) 1) DEFAULT_WND
                 [] [] [] false [] [] RTO None in
  let sa := hb_wnd (hb_ack (hb_syn (hb t iss)) (wadd (h_seq h) 1)) DEFAULT_WND in
  let h' := mkHdr (h_sport h) (h_dport h) (h_seq h) (h_ack h)
                  (mkCtl (c_urg (h_ctl h)) false (c_psh (h_ctl h)) (c_rst (h_ctl h)) false (c_fin (h_ctl h)))
                  (h_wnd h) (h_urg h) in
  set_in_segs (set_retx t [mkTx (mkSeg sa []) true]) [mkSeg h' []].

Lemma syn_to_listen h iss m : syn_only h ->
  arrives_listen (mkSeg h []) iss m = LTcb (listen_tcb h iss m).
Proof.
  intros (Hs & Ha & Hr & Hf). unfold arrives_listen. tcb_simpl. rewrite Hr, Ha, Hs.
  rewrite enqueue_synack. tcb_simpl. change (heap_push [] ?x) with [x].
  unfold listen_tcb. rewrite Hr. reflexivity.
Qed.

(* process a flag-free, text-free segment at RCV.NXT-1 (the SYN copy queued by LISTEN) *)
Lemma process_stripped t h :
  state_eqb (st t) SynSent = false -> u32 (h_seq h) -> rcv_nxt t = wadd (h_seq h) 1 -> rcv_wnd t = 65535 ->
  c_syn (h_ctl h) = false -> c_ack (h_ctl h) = false -> c_rst (h_ctl h) = false -> c_fin (h_ctl h) = false ->
  process_segment t (mkSeg h []) = Ok (t, PSuccess).
Proof.
  intros Hss Hu Hr Hw Hsy Ha Hrs Hf. rewrite process_nosyn; try assumption.
  - unfold ps_ack. rewrite Ha. cbn [negb]. rewrite Hss, ps_text_nil, ps_fin_nofin by exact Hf. reflexivity.
  - rewrite Hf. unfold is_seq_ok. cbn [b2z zlen length]. change (Z.of_nat 0 + 0 + 0 =? 0) with true. cbn iota.
    rewrite Hw. cbn [Z.eqb]. apply in_window_before; assumption.
Qed.

(* a SYN (no ACK) in a synchronised-or-SYN-RECEIVED state: acknowledged and discarded *)
Lemma process_dup_syn t h :
  state_eqb (st t) SynSent = false -> u32 (h_seq h) -> rcv_nxt t = wadd (h_seq h) 1 -> rcv_wnd t = 65535 ->
  syn_only h ->
  process_segment t (mkSeg h []) = Ok (enqueue t (ack_hdr t), PDiscard).
Proof.
  intros Hss Hu Hr Hw (Hsy & Ha & Hrs & Hf). unfold process_segment. tcb_simpl.
  rewrite Hsy, Hf.
  assert (Hok : is_seq_ok t (zlen (@nil Z)) (h_seq h) true false = true).
  { apply (is_seq_ok_before t); try assumption. cbn. lia. }
  rewrite Hok. cbn [negb].
  replace (match st t with SynSent => false | _ => false end) with false by (destruct (st t); reflexivity).
  unfold ps_ack. rewrite Ha. cbn [negb]. unfold ps_rst. rewrite Hrs. cbn [negb].
  unfold ps_syn. rewrite Hsy. cbn [negb].
  destruct (st t); try discriminate Hss; reflexivity.
Qed.

Lemma dup_syn_after_listen t s0 h :
  state_eqb (st t) SynSent = false -> in_segs t = [s0] -> s_text s0 = [] ->
  h_seq (s_hdr s0) = h_seq h ->
  c_syn (h_ctl (s_hdr s0)) = false -> c_ack (h_ctl (s_hdr s0)) = false ->
  c_rst (h_ctl (s_hdr s0)) = false -> c_fin (h_ctl (s_hdr s0)) = false ->
  u32 (h_seq h) -> rcv_nxt t = wadd (h_seq h) 1 -> rcv_wnd t = 65535 -> syn_only h ->
  segment_arrives t (mkSeg h []) =
  Ok (set_oneshot (set_in_segs t []) (oneshot t ++ [ack_hdr t]), AOk).
Proof.
  intros Hss Hs Ht0 Hq F1 F2 F3 F4 Hu Hr Hw Hh.
  unfold segment_arrives. rewrite Hs, heap_push_same_seq by exact Hq. cbn [length].
  set (seg := mkSeg h []). set (t0 := set_in_segs t [s0; seg]).
  assert (Hgt : mod_gt (h_seq h) (rcv_nxt t) = false).
  { rewrite Hr. unfold mod_gt. apply mod_lt_succ_l. }
  (* first iteration: the queued copy *)
  remember 2%nat as f2 eqn:Ef2. cbn [arrives_loop]. subst t0. tcb_simpl. cbn [heap_peek].
  rewrite Hss, Hq, Hgt. cbn [negb andb]. rewrite heap_pop_two. cbn iota beta.
  assert (E1 : set_in_segs (set_in_segs t [s0; seg]) [seg] = set_in_segs t [seg]) by reflexivity.
  rewrite E1. destruct s0 as [h0 tx0]. cbn [s_text s_hdr] in *. subst tx0.
  rewrite (process_stripped (set_in_segs t [seg]) h0); try assumption; try (rewrite Hq; assumption).
  cbn [should_delete].
  (* second iteration: the duplicate SYN *)
  subst f2.
  apply (arrives_loop_one 0 (set_in_segs t [seg]) seg _ PDiscard); try reflexivity.
  - tcb_simpl. rewrite Hss. subst seg. cbn [s_hdr]. rewrite Hgt. reflexivity.
  - assert (E2 : set_in_segs (set_in_segs t [seg]) [] = set_in_segs t []) by reflexivity.
    rewrite E2. subst seg. rewrite (process_dup_syn (set_in_segs t []) h); try assumption.
    rewrite enqueue_plain by apply ack_hdr_plain. reflexivity.
Qed.

(* a bare ACK of our SYN while still in SYN-SENT: acceptable, no SYN, hence dropped *)
Lemma ack_in_synsent t h iss :
  st t = SynSent -> in_segs t = [] -> u32 iss -> snd_iss t = iss -> snd_una t = iss -> snd_nxt t = wadd iss 1 ->
  ack_only h -> h_ack h = wadd iss 1 ->
  segment_arrives t (mkSeg h []) = Ok (set_in_segs t [], AOk).
Proof.
  intros Est Hs Hu Hi Hun Hnx (Ha & Hr & Hsy & Hf) Hack.
  eapply arrives_one; try assumption; try reflexivity.
  - now rewrite Est.
  - unfold process_segment. tcb_simpl. rewrite Est.
    unfold ps_ack. rewrite Ha. tcb_simpl. rewrite Est. cbn [negb].
    rewrite Hnx, Hi, Hun, Hack, ack_not_bad, ack_acceptable by assumption. rewrite Hsy.
    unfold ps_rst. rewrite Hr. cbn [negb]. unfold ps_syn. rewrite Hsy. cbn [negb].
    tcb_simpl. rewrite Est. cbn [state_eqb]. reflexivity.
  - reflexivity.
Qed.

(* the SYN-ACK in SYN-SENT *)
Lemma synack_in_synsent t h iss tx :
  st t = SynSent -> in_segs t = [] -> u32 iss -> snd_iss t = iss -> snd_una t = iss -> snd_nxt t = wadd iss 1 ->
  retx t = [tx] -> h_seq (s_hdr (t_seg tx)) = iss -> seg_len (t_seg tx) = 1 ->
  c_syn (h_ctl h) = true -> c_ack (h_ctl h) = true -> c_rst (h_ctl h) = false -> c_fin (h_ctl h) = false ->
  h_ack h = wadd iss 1 ->
  let t1 := set_retx (set_snd_una (set_in_segs t []) (wadd iss 1)) [] in
  let t2 := set_snd_window (set_rcv_nxt (set_rcv_irs t1 (h_seq h)) (wadd (h_seq h) 1))
                           (h_wnd h) (h_seq h) (h_ack h) in
  let t3 := set_st t2 Established in
  segment_arrives t (mkSeg h []) = Ok (set_oneshot t3 (oneshot t ++ [ack_hdr t3]), AOk).
Proof.
  intros Est Hs Hu Hi Hun Hnx Hretx Htxs Htxl Hsy Ha Hr Hf Hack t1 t2 t3.
  eapply arrives_one; try assumption; try reflexivity.
  - now rewrite Est.
  - unfold process_segment. tcb_simpl. rewrite Est.
    unfold ps_ack. rewrite Ha. tcb_simpl. rewrite Est. cbn [negb].
    rewrite Hnx, Hi, Hun, Hack, ack_not_bad, ack_acceptable by assumption. rewrite Hsy.
    set (ta := remove_acked _ _).
    assert (Eta : ta = t1).
    { subst ta t1. unfold remove_acked. tcb_simpl. rewrite Hretx. cbn [filter].
      rewrite Htxs, Htxl, mod_lt_irrefl. reflexivity. }
    rewrite Eta.
    unfold ps_rst. rewrite Hr. cbn [negb]. unfold ps_syn. rewrite Hsy. cbn [negb].
    change (st t1) with (st t). rewrite Est. fold t2.
    change (snd_una t2) with (wadd iss 1). change (snd_iss t2) with (snd_iss t). rewrite Hi.
    unfold mod_gt. rewrite mod_lt_succ_r. fold t3.
    rewrite enqueue_plain by apply ack_hdr_plain.
    cbn [set_oneshot st state_eqb]. rewrite ps_text_nil, ps_fin_nofin by exact Hf.
    reflexivity.
  - reflexivity.
Qed.

(* a SYN-bearing segment at RCV.NXT-1 whose ACK acknowledges nothing new, in ESTABLISHED *)
Lemma syn_dup_established t h :
  st t = Established -> in_segs t = [] -> u32 (h_seq h) -> rcv_nxt t = wadd (h_seq h) 1 -> rcv_wnd t = 65535 ->
  c_syn (h_ctl h) = true -> c_rst (h_ctl h) = false -> c_fin (h_ctl h) = false ->
  (c_ack (h_ctl h) = true -> mod_leq (h_ack h) (snd_una t) = true) ->
  segment_arrives t (mkSeg h []) =
  Ok (set_oneshot (set_in_segs t []) (oneshot t ++ [ack_hdr t]), AOk).
Proof.
  intros Est Hs Hu Hr Hw Hsy Hrs Hf Hleq. set (t0 := set_in_segs t []).
  eapply arrives_one; try assumption; try reflexivity.
  - rewrite Est. cbn [state_eqb negb andb]. tcb_simpl. rewrite Hr. unfold mod_gt. apply mod_lt_succ_l.
  - fold t0. unfold process_segment. tcb_simpl. change (st t0) with (st t). rewrite Est, Hsy, Hf.
    assert (Hok : is_seq_ok t0 (zlen (@nil Z)) (h_seq h) true false = true).
    { apply (is_seq_ok_before t0); try assumption. cbn. lia. }
    rewrite Hok. cbn [negb].
    assert (Hack : ps_ack t0 h = (t0, None)).
    { unfold ps_ack. destruct (c_ack (h_ctl h)) eqn:Ea; cbn [negb]; [|reflexivity].
      change (st t0) with (st t). rewrite Est, (ack_est_old t0 h (Hleq eq_refl)). reflexivity. }
    rewrite Hack. unfold ps_rst. rewrite Hrs. cbn [negb]. unfold ps_syn. rewrite Hsy. cbn [negb].
    change (st t0) with (st t). rewrite Est.
    rewrite enqueue_plain by apply ack_hdr_plain. reflexivity.
  - reflexivity.
Qed.

(* a SYN without ACK in SYN-SENT: SYN-RECEIVED, and the SYN-ACK joins the retransmission queue *)
Lemma syn_in_synsent t h :
  st t = SynSent -> in_segs t = [] -> snd_una t = snd_iss t -> syn_only h ->
  let t1 := set_snd_window (set_rcv_nxt (set_rcv_irs (set_in_segs t []) (h_seq h)) (wadd (h_seq h) 1))
                           (h_wnd h) (h_seq h) (h_ack h) in
  let t2 := set_st t1 SynReceived in
  let sa := hb_wnd (hb_ack (hb_syn (hb t2 (snd_iss t2))) (rcv_nxt t2)) (rcv_wnd t2) in
  segment_arrives t (mkSeg h []) = Ok (set_retx t2 (retx t ++ [mkTx (mkSeg sa []) true]), AOk).
Proof.
  intros Est Hs Hun (Hsy & Ha & Hr & Hf) t1 t2 sa.
  eapply arrives_one; try assumption; try reflexivity.
  - now rewrite Est.
  - unfold process_segment. tcb_simpl. rewrite Est.
    unfold ps_ack. rewrite Ha. cbn [negb].
    unfold ps_rst. rewrite Hr. cbn [negb]. unfold ps_syn. rewrite Hsy. cbn [negb].
    tcb_simpl. rewrite Est. fold t1.
    change (snd_una t1) with (snd_una t). change (snd_iss t1) with (snd_iss t).
    rewrite Hun. unfold mod_gt. rewrite mod_lt_irrefl. fold t2.
    rewrite enqueue_synack. reflexivity.
  - reflexivity.
Qed.

(* a duplicate SYN (no ACK) with an empty heap, any state but SYN-SENT *)
Lemma dup_syn_arrives t h :
  state_eqb (st t) SynSent = false -> in_segs t = [] ->
  u32 (h_seq h) -> rcv_nxt t = wadd (h_seq h) 1 -> rcv_wnd t = 65535 -> syn_only h ->
  segment_arrives t (mkSeg h []) =
  Ok (set_oneshot (set_in_segs t []) (oneshot t ++ [ack_hdr t]), AOk).
Proof.
  intros Hss Hs Hu Hr Hw Hh.
  eapply arrives_one; try assumption; try reflexivity.
  - rewrite Hss. cbn [negb andb]. rewrite Hr. unfold mod_gt. apply mod_lt_succ_l.
  - rewrite (process_dup_syn (set_in_segs t []) h); try assumption.
    rewrite enqueue_plain by apply ack_hdr_plain. reflexivity.
  - reflexivity.
Qed.

Definition covers_syn (iss : Z) (tx : transmit) : Prop :=
  h_seq (s_hdr (t_seg tx)) = iss /\ seg_len (t_seg tx) = 1.

Lemma filter_acked_syn iss l : Forall (covers_syn iss) l ->
  filter (fun tx => mod_lt (wadd iss 1) (wadd (h_seq (s_hdr (t_seg tx))) (seg_len (t_seg tx)))) l = [].
Proof.
  induction 1 as [|tx l [H1 H2] _ IH]; cbn [filter]; [reflexivity|].
  now rewrite H1, H2, mod_lt_irrefl.
Qed.

(* the ACK of our SYN(s) in SYN-RECEIVED, whatever SYN-bearing segments are queued: ESTABLISHED, the
   queue is emptied and the send window taken from the segment *)
Lemma ps_ack_synrcvd t h iss :
  st t = SynReceived -> c_ack (h_ctl h) = true -> u32 iss -> snd_una t = iss -> snd_nxt t = wadd iss 1 ->
  Forall (covers_syn iss) (retx t) -> h_ack h = wadd iss 1 ->
  ps_ack t h = (set_snd_window (set_retx (set_snd_una (set_st t Established) (wadd iss 1)) [])
                               (h_wnd h) (h_seq h) (h_ack h), None).
Proof.
  intros Est Ha Hi Hun Hnx Hretx Hack. unfold ps_ack. rewrite Ha, Est. cbn [negb].
  rewrite Hun, Hnx, Hack, ack_acceptable by assumption.
  unfold ack_est. tcb_simpl. rewrite ?Hack, ?Hun, ?Hnx, mod_leq_succ by assumption. unfold mod_gt. rewrite mod_lt_irrefl.
  unfold remove_acked. tcb_simpl. rewrite Z.eqb_refl, mod_leq_refl, orb_true_r.
  rewrite filter_acked_syn by exact Hretx. reflexivity.
Qed.

Lemma ack_in_synrcvd_all t h iss :
  st t = SynReceived -> in_segs t = [] -> rcv_wnd t = 65535 -> u32 (rcv_nxt t) ->
  u32 iss -> snd_una t = iss -> snd_nxt t = wadd iss 1 ->
  Forall (covers_syn iss) (retx t) ->
  ack_only h -> h_seq h = rcv_nxt t -> h_ack h = wadd iss 1 ->
  segment_arrives t (mkSeg h []) =
  Ok (set_snd_window (set_retx (set_snd_una (set_st (set_in_segs t []) Established) (wadd iss 1)) [])
                     (h_wnd h) (h_seq h) (h_ack h), AOk).
Proof.
  intros Est Hs Hw Hu Hi Hun Hnx Hretx (Ha & Hr & Hsy & Hf) Hseq Hack.
  set (t0 := set_in_segs t []).
  eapply arrives_one; try assumption; try reflexivity.
  - rewrite Est. cbn [state_eqb negb andb]. tcb_simpl. rewrite Hseq. apply mod_gt_refl_false.
  - fold t0. rewrite process_nosyn; try assumption;
      [|change (st t0) with (st t); now rewrite Est|rewrite Hf, Hseq; apply (is_seq_ok_at_nxt t0); assumption].
    rewrite (ps_ack_synrcvd t0 h iss) by assumption.
    cbn [set_snd_window st state_eqb]. rewrite ps_text_nil, ps_fin_nofin by exact Hf. reflexivity.
  - reflexivity.
Qed.

(* the peer's SYN-ACK in SYN-RECEIVED (simultaneous open): ESTABLISHED, then the SYN is
   acknowledged and discarded *)
Lemma synack_in_synrcvd t h iss :
  st t = SynReceived -> in_segs t = [] -> rcv_wnd t = 65535 ->
  u32 (h_seq h) -> rcv_nxt t = wadd (h_seq h) 1 ->
  u32 iss -> snd_una t = iss -> snd_nxt t = wadd iss 1 ->
  Forall (covers_syn iss) (retx t) ->
  c_syn (h_ctl h) = true -> c_ack (h_ctl h) = true -> c_rst (h_ctl h) = false -> c_fin (h_ctl h) = false ->
  h_ack h = wadd iss 1 ->
  let t1 := set_snd_window (set_retx (set_snd_una (set_st (set_in_segs t []) Established) (wadd iss 1)) [])
                           (h_wnd h) (h_seq h) (h_ack h) in
  segment_arrives t (mkSeg h []) = Ok (set_oneshot t1 (oneshot t ++ [ack_hdr t1]), AOk).
Proof.
  intros Est Hs Hw Hu Hrn Hi Hun Hnx Hretx Hsy Ha Hr Hf Hack t1.
  set (t0 := set_in_segs t []).
  eapply arrives_one; try assumption; try reflexivity.
  - rewrite Est. cbn [state_eqb negb andb]. tcb_simpl. rewrite Hrn. unfold mod_gt. apply mod_lt_succ_l.
  - fold t0. unfold process_segment. tcb_simpl. change (st t0) with (st t). rewrite Est, Hsy, Hf.
    assert (Hok : is_seq_ok t0 (zlen (@nil Z)) (h_seq h) true false = true).
    { apply (is_seq_ok_before t0); try assumption. cbn. lia. }
    rewrite Hok. cbn [negb].
    rewrite (ps_ack_synrcvd t0 h iss) by assumption. cbv beta iota. fold t0 in t1. fold t1.
    unfold ps_rst. rewrite Hr. cbn [negb]. unfold ps_syn. rewrite Hsy. cbn [negb].
    change (st t1) with Established. cbn iota.
    rewrite enqueue_plain by apply ack_hdr_plain. reflexivity.
  - reflexivity.
Qed.
