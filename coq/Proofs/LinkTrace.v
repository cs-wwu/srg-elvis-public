(* C05 - soundness of the trace validator of Model/Link.v: what an accepted trace satisfies. *)
From Elvis Require Import Model.Base Model.Link Proofs.ProtoListFacts Proofs.LinkFacts.
Local Open Scope Z_scope.

Lemma count_zero p tr : count p tr = 0 -> forall e, In e tr -> p e = false.
Proof.
  unfold count. intros H e He. destruct (p e) eqn:E; [|reflexivity].
  assert (Hin : In e (filter p tr)) by (apply filter_In; split; assumption).
  destruct (filter p tr); [destruct Hin|]. cbn [length] in H. lia.
Qed.

Lemma nodupb_NoDup l : nodupb l = true -> NoDup l.
Proof. apply (nd_NoDup Z.eqb nodupb Z.eqb_eq); reflexivity. Qed.

Lemma existsb_eqb_In k l : existsb (Z.eqb k) l = true -> In k l.
Proof. apply (existsb_eqb_iff Z.eqb Z.eqb_eq). Qed.

Lemma event_eqb_eq a b : event_eqb a b = true -> a = b.
Proof.
  destruct a, b; cbn [event_eqb]; intros H; try discriminate.
  repeat (apply andb_true_iff in H; destruct H as [H ?]).
  f_equal; lia.
Qed.

(* an accepted frame, sent at t from tap T of network ni, identified by key *)
Definition accepted_ok (ts : list (nat * tap)) (tr : list event) (ni : nat) (T : tap) (n : net)
    (t key : Z) (s : scfg) : Prop :=
  let rcp := route n (dst_of (s_dst s)) in
  (* on the wire exactly once, with the sender's address and the destination as given *)
  count (is_wire key) tr = 1 /\
  (forall t' ni' f' d' k', In (EWire t' ni' f' d' k') tr -> k' = key ->
      ni' = Z.of_nat ni /\ f' = t_mac T /\ d' = s_dst s) /\
  (* hand-overs: only on this network, unchanged, not before the latency, only to its taps *)
  (forall t' ni' f' d' tp k', In (EDlv t' ni' f' d' tp k') tr -> k' = key ->
      ni' = Z.of_nat ni /\ f' = t_mac T /\ d' = s_dst s /\ t + n_lat_base n <= t' /\
      (tp = -1 \/ mem_mac tp (n_taps n) = true)) /\
  (* every tap of the network: handed over exactly once if the routing function names it,
     not at all otherwise; "nobody" is reported exactly when the routing function names nobody *)
  (forall T', In T' (n_taps n) ->
      count (is_dlv_to key (t_mac T')) tr = b2z (mem_mac (t_mac T') rcp)) /\
  count (is_dlv_to key (-1)) tr = b2z (match rcp with [] => true | _ => false end) /\
  (* receptions by the target protocol: sender, destination, MTU as sent; not before the latency *)
  (forall t' m' s' src' dst' mtu' k', In (ERx t' m' s' src' dst' mtu' k') tr -> k' = key ->
      src' = t_mac T /\ dst' = s_dst s /\ mtu' = n_mtu n /\ t + n_lat_base n <= t' /\
      find_tap ts m' s' <> None) /\
  (* every tap of EVERY network: received exactly once if it is on this network and the
     routing function names it, not at all otherwise *)
  (forall it, In it ts ->
      count (is_rx_at key (t_machine (snd it)) (t_slot (snd it))) tr =
      b2z ((fst it =? ni)%nat && mem_mac (t_mac (snd it)) rcp)).

Definition send_ok (w : list net) (ts : list (nat * tap)) (tr : list event) (i : Z) (s : scfg) : Prop :=
  exists ni T n t j res em key,
    find_tap ts (s_machine s) (s_slot s) = Some (ni, T) /\
    nth_error w ni = Some n /\
    filter (is_tx i) tr = [ETx t j res em key] /\
    key / HMOD = s_len s /\
    (* longer than the MTU: refused with the MTU in the error, and nothing of it anywhere *)
    (n_mtu n < s_len s ->
       res = 1 /\ em = n_mtu n /\ forall e, In e tr -> on_wire key e = false) /\
    (s_len s <= n_mtu n -> res = 0 /\ accepted_ok ts tr ni T n t key s).

Lemma wire_ok_spec ni from to t' ni' f' d' k :
  wire_ok ni from to (EWire t' ni' f' d' k) = true -> ni' = ni /\ f' = from /\ d' = to.
Proof. cbn [wire_ok]. rewrite !andb_true_iff, !Z.eqb_eq. tauto. Qed.

Lemma dlv_ok_spec ni from to t0 lat macs t' ni' f' d' tp k :
  dlv_ok ni from to t0 lat macs (EDlv t' ni' f' d' tp k) = true ->
  ni' = ni /\ f' = from /\ d' = to /\ t0 + lat <= t' /\ (tp = -1 \/ mem_mac tp macs = true).
Proof. cbn [dlv_ok]. rewrite !andb_true_iff, orb_true_iff, !Z.eqb_eq, Z.leb_le. tauto. Qed.

Lemma rx_ok_spec ts src dst mtu t0 lat t' m' s' src' dst' mtu' k :
  rx_ok ts src dst mtu t0 lat (ERx t' m' s' src' dst' mtu' k) = true ->
  src' = src /\ dst' = dst /\ mtu' = mtu /\ t0 + lat <= t' /\ find_tap ts m' s' <> None.
Proof.
  cbn [rx_ok]. rewrite !andb_true_iff, !Z.eqb_eq, Z.leb_le. intros [[[[A B] C] D] E].
  repeat split; try assumption. destruct (find_tap ts m' s'); discriminate.
Qed.

Lemma check_send_sound w ts tr i s : check_send w ts tr i s = true -> send_ok w ts tr i s.
Proof.
  unfold check_send, send_ok. intros H.
  destruct (find_tap ts (s_machine s) (s_slot s)) as [[ni T]|] eqn:F; [|discriminate].
  destruct (nth_error w ni) as [n|] eqn:N; [|discriminate].
  destruct (filter (is_tx i) tr) as [|e0 [|e1 l]] eqn:Ftx; try discriminate.
  2:{ destruct e0; discriminate. }
  destruct e0 as [ | t j res em key | | | ]; try discriminate.
  apply andb_true_iff in H. destruct H as [Hk H].
  exists ni, T, n, t, j, res, em, key.
  split; [reflexivity|]. split; [exact N|]. split; [reflexivity|]. split; [apply Z.eqb_eq; exact Hk|].
  (* the tests are read one by one: lia would split on every boolean of the conjunction *)
  unfold mtu_test in H. destruct (Z.ltb_spec (n_mtu n) (s_len s)) as [M|M]; cbv beta iota in H;
    rewrite !andb_true_iff in H.
  - split; [|intros L; exfalso; exact (Z.lt_irrefl _ (Z.lt_le_trans _ _ _ M L))]. intros _.
    destruct H as [[H1 H2] H3]. split; [apply Z.eqb_eq, H1|]. split; [apply Z.eqb_eq, H2|].
    apply count_zero, Z.eqb_eq, H3.
  - split; [intros L; exfalso; exact (Z.lt_irrefl _ (Z.lt_le_trans _ _ _ L M))|]. intros _.
    destruct H as [[[[[[[Hres Hcw] Hfw] Hfd] Hdl] Hdn] Hrx] Hts].
    split; [apply Z.eqb_eq, Hres|]. unfold accepted_ok.
    split; [apply Z.eqb_eq, Hcw|]. split; [|split; [|split; [|split; [|split]]]].
    + intros t' ni' f' d' k' Hin ->.
      exact (wire_ok_spec _ _ _ _ _ _ _ _ (forallb_filter _ _ _ Hfw _ Hin (Z.eqb_refl key))).
    + intros t' ni' f' d' tp k' Hin ->.
      exact (dlv_ok_spec _ _ _ _ _ _ _ _ _ _ _ _ (forallb_filter _ _ _ Hfd _ Hin (Z.eqb_refl key))).
    + intros T' HT'. rewrite forallb_forall in Hdl. apply Z.eqb_eq, Hdl, HT'.
    + apply Z.eqb_eq, Hdn.
    + intros t' m' s' src' dst' mtu' k' Hin ->.
      exact (rx_ok_spec _ _ _ _ _ _ _ _ _ _ _ _ _ (forallb_filter _ _ _ Hrx _ Hin (Z.eqb_refl key))).
    + intros it Hit. rewrite forallb_forall in Hts. apply Z.eqb_eq, Hts, Hit.
Qed.

Lemma check_sends_sound w ts tr ss : forall i,
  check_sends_from w ts tr i ss = true ->
  forall k s, nth_error ss k = Some s -> send_ok w ts tr (i + Z.of_nat k) s.
Proof.
  induction ss as [|s0 ss IH]; intros i H k s Hk; [destruct k; discriminate|].
  cbn [check_sends_from] in H. apply andb_true_iff in H. destruct H as [H1 H2].
  destruct k as [|k]; cbn [nth_error] in Hk.
  - injection Hk as <-. replace (i + Z.of_nat 0) with i by lia. apply check_send_sound. exact H1.
  - replace (i + Z.of_nat (S k)) with ((i + 1) + Z.of_nat k) by lia. apply IH; assumption.
Qed.

Definition window_ok (thr : Z) (fs : list fr) : Prop :=
  forall a b, In a fs -> In b fs -> fr_arr a <= fr_dlv b ->
    win_bytes (fr_arr a) (fr_dlv b) fs * NS <= thr * (fr_dlv b - fr_arr a).

Lemma check_window_sound thr fs : check_window thr fs = true -> window_ok thr fs.
Proof.
  unfold check_window, window_ok. intros H a b Ha Hb Hab.
  rewrite forallb_forall in H. specialize (H a Ha). rewrite forallb_forall in H. specialize (H b Hb).
  apply orb_true_iff in H. destruct H as [H|H]; lia.
Qed.

Lemma check_thr_sound c ts tr w : forall ni,
  check_thr_from c ts tr ni w = true ->
  forall k n, nth_error w k = Some n -> n_thr_base n <> 0 ->
    window_ok (thr_max n) (net_frames c ts tr (ni + k)).
Proof.
  induction w as [|n0 w IH]; intros ni H k n Hk Hn; [destruct k; discriminate|].
  cbn [check_thr_from] in H. apply andb_true_iff in H. destruct H as [H1 H2].
  destruct k as [|k]; cbn [nth_error] in Hk.
  - injection Hk as <-. rewrite Nat.add_0_r. apply orb_true_iff in H1. destruct H1 as [H1|H1]; [lia|].
    apply check_window_sound. exact H1.
  - replace (ni + S k)%nat with (S ni + k)%nat by lia. apply IH; assumption.
Qed.

Fixpoint total_fr (fs : list fr) : Z :=
  match fs with [] => 0 | f :: r => fr_len f + total_fr r end.

Lemma win_bytes_all s e fs :
  (forall f, In f fs -> s <= fr_arr f /\ fr_dlv f <= e) -> win_bytes s e fs = total_fr fs.
Proof.
  induction fs as [|f fs IH]; intros H; cbn [win_bytes total_fr fold_right]; [reflexivity|].
  fold (win_bytes s e fs). rewrite IH by (intros g Hg; apply H; right; exact Hg).
  destruct (H f (or_introl eq_refl)) as (H1 & H2).
  destruct ((s <=? fr_arr f) && (fr_dlv f <=? e)) eqn:W; lia.
Qed.

Definition TraceOK (c : cfg) (tr : list event) : Prop :=
  exists w ts,
    build c = Ok (w, ts) /\
    (* the taps report exactly the addresses (and MTUs) the model's allocator hands out ... *)
    tap_events tr = expected_taps w ts /\
    (* ... which are pairwise distinct per network *)
    NoDup (map tap_key ts) /\
    (* frames are identifiable and no frame that nobody sent is anywhere *)
    NoDup (tx_keys tr) /\
    (forall e, In e tr -> known_key (tx_keys tr) e = true) /\
    (* every send of the scenario *)
    (forall k s, nth_error (c_sends c) k = Some s -> send_ok w ts tr (Z.of_nat k) s) /\
    (* every throttled network: no window holds more bytes than its rate allows *)
    (forall k n, nth_error w k = Some n -> n_thr_base n <> 0 ->
        window_ok (thr_max n) (net_frames c ts tr k)).

Lemma validate_sound c tr : validate c tr = true -> TraceOK c tr.
Proof.
  unfold validate, TraceOK. intros H.
  destruct (build c) as [[w ts]| | |] eqn:B; try discriminate.
  apply andb_true_iff in H. destruct H as [H _].
  apply andb_true_iff in H. destruct H as [H Hthr].
  apply andb_true_iff in H. destruct H as [H Hs].
  apply andb_true_iff in H. destruct H as [Ht Hk].
  exists w, ts. split; [reflexivity|].
  split; [exact (list_eqb_eq _ event_eqb event_eqb_eq _ _ Ht)|].
  split; [apply (build_inv c w ts B)|].
  unfold check_keys in Hk.
  apply andb_true_iff in Hk. destruct Hk as [Hk _].
  apply andb_true_iff in Hk. destruct Hk as [Hk1 Hk2].
  split; [apply nodupb_NoDup; exact Hk1|].
  split; [rewrite forallb_forall in Hk2; exact Hk2|].
  split.
  - intros k s Hks. apply (check_sends_sound w ts tr (c_sends c) 0 Hs k s Hks).
  - intros k n Hkn Hn. apply (check_thr_sound c ts tr w 0%nat Hthr k n Hkn Hn).
Qed.

Lemma validate_code_zero c tr : validate_code c tr = 0 <-> validate c tr = true.
Proof.
  unfold validate_code, validate. destruct (build c) as [[w ts]| | |]; try (split; intros; [lia|discriminate]).
  destruct (check_taps w ts tr); cbn [negb andb]; [|split; intros; [lia|discriminate]].
  destruct (check_keys c tr); cbn [negb andb]; [|split; intros; [lia|discriminate]].
  destruct (check_sends_from w ts tr 0 (c_sends c)); cbn [negb andb]; [|split; intros; [lia|discriminate]].
  destruct (check_thr_from c ts tr 0 w); cbn [negb andb]; [|split; intros; [lia|discriminate]].
  destruct ((c_tick c <=? 0) || check_exact_from c ts tr 0 w); cbn [negb]; split; intros; lia.
Qed.

Lemma mem_mac_In m l : mem_mac m l = true <-> exists T, In T l /\ t_mac T = m.
Proof.
  unfold mem_mac. rewrite existsb_exists. split; intros (T & H1 & H2); exists T; split; auto; lia.
Qed.

Lemma mem_mac_route_unicast n d m : net_inv n -> d <> BROADCAST_MAC -> 0 <= d ->
  mem_mac m (route n (dst_of d)) = true <-> (m = d /\ mem_mac d (n_taps n) = true).
Proof.
  intros Hinv Hd H0. unfold dst_of. destruct (d <? 0) eqn:E; [lia|].
  rewrite !mem_mac_In. split.
  - intros (T & HT & Hm). apply (route_unicast n d Hinv Hd) in HT. destruct HT as (HT & HmT).
    split; [lia|]. exists T. split; assumption.
  - intros (-> & T & HT & HmT). exists T. split; [|exact HmT].
    apply (route_unicast n d Hinv Hd). split; assumption.
Qed.
