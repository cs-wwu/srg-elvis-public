(* C04 — facts about the binding tables, the receive pipeline and the trace validator of Model/Demux.v *)
From Coq Require Import Permutation.
From Elvis Require Import Model.Base Model.Demux.
From Elvis Require Export Proofs.ProtoListFacts.
Local Open Scope Z_scope.

Lemma key_eqb_eq : forall a b : key, key_eqb a b = true <-> a = b.
Proof.
  intros [a1 a2] [b1 b2]. unfold key_eqb. cbn [fst snd].
  rewrite andb_true_iff, !Z.eqb_eq. split.
  - intros [-> ->]. reflexivity.
  - intros H. inversion H. split; reflexivity.
Qed.

Lemma key_eqb_refl : forall a : key, key_eqb a a = true.
Proof. intros a. apply key_eqb_eq. reflexivity. Qed.

Lemma key_eqb_neq : forall a b : key, a <> b -> key_eqb a b = false.
Proof.
  intros a b H. destruct (key_eqb a b) eqn:E; [|reflexivity].
  apply key_eqb_eq in E. contradiction.
Qed.

Lemma tget_cons_eq : forall t k v, tget ((k, v) :: t) k = Some v.
Proof. intros. cbn [tget]. rewrite key_eqb_refl. reflexivity. Qed.

Lemma tget_cons_neq : forall t k k' v, k' <> k -> tget ((k', v) :: t) k = tget t k.
Proof. intros. cbn [tget]. rewrite key_eqb_neq by assumption. reflexivity. Qed.

Lemma tget_In : forall t k v, tget t k = Some v -> In (k, v) t.
Proof.
  induction t as [|[k' v'] r IH]; intros k v H; cbn [tget] in H; [discriminate|].
  destruct (key_eqb k' k) eqn:E.
  - apply key_eqb_eq in E. inversion H. subst. left. reflexivity.
  - right. apply IH. exact H.
Qed.

Lemma lookup_wildcard : forall (b : tbl) a p,
  tget b (a, p) = None -> tlookup b (a, p) = tget b (ANY, p).
Proof. intros b a p H. unfold tlookup. rewrite H. reflexivity. Qed.

Lemma lookup_sound : forall (b : tbl) a p x,
  tlookup b (a, p) = Some x ->
  tget b (a, p) = Some x \/ (tget b (a, p) = None /\ tget b (ANY, p) = Some x).
Proof.
  intros b a p x H. unfold tlookup in H. cbn [snd] in H.
  destruct (tget b (a, p)) as [v|] eqn:E.
  - left. exact H.
  - right. split; [reflexivity | exact H].
Qed.

(* the lookup for (a,p) consults exactly two entries: (a,p) and (0.0.0.0,p) *)
Lemma lookup_frame : forall (b b' : tbl) a p,
  tget b (a, p) = tget b' (a, p) -> tget b (ANY, p) = tget b' (ANY, p) ->
  tlookup b (a, p) = tlookup b' (a, p).
Proof. intros b b' a p H1 H2. unfold tlookup. cbn [snd]. rewrite H1, H2. reflexivity. Qed.

Lemma lookup_ignores_other : forall (b : tbl) a p a' p' y,
  (p' <> p \/ (a' <> a /\ a' <> ANY)) ->
  tlookup (((a', p'), y) :: b) (a, p) = tlookup b (a, p).
Proof.
  intros b a p a' p' y H. apply lookup_frame.
  - apply tget_cons_neq. intros E. inversion E. destruct H as [H|[H _]]; contradiction.
  - apply tget_cons_neq. intros E. inversion E. destruct H as [H|[_ H]]; contradiction.
Qed.

Lemma zmem_true : forall x l, zmem x l = true <-> In x l.
Proof.
  induction l as [|y r IH]; cbn [zmem In].
  - split; [discriminate | tauto].
  - rewrite orb_true_iff, Z.eqb_eq, IH. split; intros [H|H]; auto.
Qed.

(* operations that touch only the ARP listen set *)
Definition same_bindings (s s' : mstate) : Prop :=
  udp_b s' = udp_b s /\ ip_b s' = ip_b s /\ protos s' = protos s /\ has_arp s' = has_arp s.

Lemma same_bindings_refl : forall s, same_bindings s s.
Proof. repeat split. Qed.

Lemma arp_listen_same : forall a s, same_bindings s (arp_listen a s).
Proof. intros a s. unfold arp_listen. destruct (zmem a (arp_ips s)); repeat split. Qed.

Lemma rebind_refused : forall s up e x,
  tget (udp_b s) e = Some x -> udp_listen s up e = (LExisting, s).
Proof. intros s up e x H. unfold udp_listen. rewrite H. reflexivity. Qed.

(* well-formed states: what a sequence of UDP binds establishes and keeps *)
Definition wf (s : mstate) : Prop :=
  (forall a p x, tget (udp_b s) (a, p) = Some x -> tget (ip_b s) (a, UDP_PROTO) = Some UDP_TID) /\
  (forall a u, tget (ip_b s) (a, UDP_PROTO) = Some u -> u = UDP_TID) /\
  zmem UDP_TID (protos s) = true /\
  (forall k x, tget (udp_b s) k = Some x -> zmem x (protos s) = true).

Lemma wf_same_bindings : forall s s', same_bindings s s' -> wf s -> wf s'.
Proof. intros s s' (E1 & E2 & E3 & _) H. unfold wf. rewrite E1, E2, E3. exact H. Qed.

Lemma wf_arp_listen : forall a s, wf s -> wf (arp_listen a s).
Proof. intros a s. apply wf_same_bindings, arp_listen_same. Qed.

Definition pre_ip (s : mstate) (a : Z) : mstate :=
  if has_arp s && negb (a =? BCAST) then arp_listen a s else s.

Lemma pre_ip_same : forall s a, same_bindings s (pre_ip s a).
Proof.
  intros s a. unfold pre_ip. destruct (has_arp s && negb (a =? BCAST)); [apply arp_listen_same | apply same_bindings_refl].
Qed.

Lemma ipv4_listen_unfold : forall s up a proto,
  ipv4_listen s up a proto =
  match tget (ip_b (pre_ip s a)) (a, proto) with
  | Some u => if u =? up then (LOk, pre_ip s a) else (LIpExists, pre_ip s a)
  | None => (LOk, set_ip_b (pre_ip s a) (((a, proto), up) :: ip_b (pre_ip s a)))
  end.
Proof. reflexivity. Qed.

Lemma udp_listen_vacant : forall s app a p,
  wf s -> tget (udp_b s) (a, p) = None ->
  exists s', udp_listen s app (a, p) = (LOk, s') /\
    udp_b s' = ((a, p), app) :: udp_b s /\
    tget (ip_b s') (a, UDP_PROTO) = Some UDP_TID /\
    (forall k, k <> (a, UDP_PROTO) -> tget (ip_b s') k = tget (ip_b s) k) /\
    (forall u, tget (ip_b s) (a, UDP_PROTO) = Some u -> ip_b s' = ip_b s) /\
    protos s' = protos s /\ has_arp s' = has_arp s.
Proof.
  intros s app a p (W1 & W2 & W3 & W4) V.
  unfold udp_listen. rewrite V. cbn [fst]. rewrite ipv4_listen_unfold.
  match goal with |- context [pre_ip ?x a] => set (s1 := x) end.
  destruct (pre_ip_same s1 a) as (E1 & E2 & E3 & E4).
  assert (Hi : ip_b s1 = ip_b s) by reflexivity.
  rewrite E2, Hi.
  destruct (tget (ip_b s) (a, UDP_PROTO)) as [u|] eqn:G.
  - rewrite (W2 _ _ G), Z.eqb_refl. exists (pre_ip s1 a). split; [reflexivity|].
    rewrite E1, E2, E3, E4, Hi, G, (W2 _ _ G). repeat split; auto.
  - eexists. split; [reflexivity|]. cbn [udp_b ip_b protos has_arp set_ip_b].
    rewrite E1, E3, E4. repeat split; [apply tget_cons_eq| |discriminate].
    intros k Hk. apply tget_cons_neq. congruence.
Qed.

Lemma wf_udp_listen : forall s app e,
  wf s -> zmem app (protos s) = true -> wf (snd (udp_listen s app e)).
Proof.
  intros s app [a p] W Happ.
  destruct (tget (udp_b s) (a, p)) as [x|] eqn:V.
  - rewrite (rebind_refused _ _ _ _ V). exact W.
  - destruct (udp_listen_vacant s app a p W V) as (s' & E & Hu & Hi & Hother & Hsame & Hp & _).
    rewrite E. cbn [snd]. destruct W as (W1 & W2 & W3 & W4).
    unfold wf. rewrite Hu, Hp. repeat split.
    + intros a0 p0 x H. destruct (Z.eq_dec a0 a) as [->|Na]; [exact Hi|].
      rewrite tget_cons_neq in H by congruence.
      rewrite Hother by congruence. eapply W1. exact H.
    + intros a0 u H. destruct (Z.eq_dec a0 a) as [->|Na].
      * rewrite Hi in H. congruence.
      * rewrite Hother in H by congruence. eapply W2. exact H.
    + exact W3.
    + intros k x H. cbn [tget] in H. destruct (key_eqb (a, p) k).
      * inversion H. subst. exact Happ.
      * eapply W4. exact H.
Qed.

(* the bind operations of the property's universe: UDP binds by applications present on the machine *)
Definition udp_op (present : list Z) (op : lop) : Prop :=
  match op with
  | LUdp app _ | LOpen app _ => zmem app present = true
  | LRaw _ _ => False
  end.

Lemma ip_open_same : forall rt s a, same_bindings s (snd (ip_open rt s a)).
Proof.
  intros rt s a. unfold ip_open. destruct (rget rt a) as [[m|]|]; cbn [snd]; try apply same_bindings_refl.
  destruct (has_arp s); cbn [snd]; [apply arp_listen_same | apply same_bindings_refl].
Qed.

Lemma protos_udp_listen : forall s app e, wf s -> protos (snd (udp_listen s app e)) = protos s.
Proof.
  intros s app [a p] W. destruct (tget (udp_b s) (a, p)) as [x|] eqn:V.
  - rewrite (rebind_refused _ _ _ _ V). reflexivity.
  - destruct (udp_listen_vacant s app a p W V) as (s' & E & _ & _ & _ & _ & Hp & _).
    rewrite E. exact Hp.
Qed.

Lemma wf_run_lop : forall rt s op,
  wf s -> udp_op (protos s) op ->
  wf (snd (run_lop rt s op)) /\ protos (snd (run_lop rt s op)) = protos s.
Proof.
  intros rt s op W Hop. destruct op as [app e|app e|app a]; cbn [udp_op] in Hop; [| |contradiction].
  - cbn [run_lop]. pose proof (wf_udp_listen s app e W Hop) as W'.
    pose proof (protos_udp_listen s app e W) as P'.
    destruct (udp_listen s app e) as [r s']. cbn [snd] in *. auto.
  - cbn [run_lop]. pose proof (wf_udp_listen s app e W Hop) as W'.
    pose proof (protos_udp_listen s app e W) as P'.
    destruct (udp_listen s app e) as [r s']. cbn [snd] in *.
    destruct r; cbn [snd]; auto.
    destruct (ip_open_same rt s' (fst e)) as (_ & _ & E3 & _).
    pose proof (wf_same_bindings _ _ (ip_open_same rt s' (fst e)) W') as W''.
    destruct (ip_open rt s' (fst e)) as [o s'']. cbn [snd] in *. split; [exact W''|congruence].
Qed.

Lemma wf_run_lops : forall rt ops s,
  wf s -> Forall (udp_op (protos s)) ops -> wf (snd (run_lops rt s ops)).
Proof.
  intros rt ops. induction ops as [|op r IH]; intros s W F; cbn [run_lops].
  - exact W.
  - inversion F as [|? ? Hop Fr]; subst.
    destruct (wf_run_lop rt s op W Hop) as [W1 P1].
    destruct (run_lop rt s op) as [c s1]. cbn [snd] in *.
    specialize (IH s1 W1). rewrite P1 in IH. specialize (IH Fr).
    destruct (run_lops rt s1 r) as [cs s2]. cbn [snd] in *. exact IH.
Qed.

Lemma wf_init : forall mc, zmem UDP_TID (mc_protos mc) = true -> wf (init_state mc).
Proof.
  intros mc H. unfold wf, init_state. cbn [udp_b ip_b protos tget]. repeat split; try discriminate.
  exact H.
Qed.

Lemma wf_final_state : forall mc,
  zmem UDP_TID (mc_protos mc) = true -> Forall (udp_op (mc_protos mc)) (mc_listens mc) ->
  wf (final_state mc).
Proof.
  intros mc H F. unfold final_state. apply wf_run_lops; [apply wf_init; exact H | exact F].
Qed.

Section MSetFacts.
  Variable A : Type.
  Variable eqb : A -> A -> bool.
  Variable eqb_ok : forall a b, eqb a b = true -> a = b.

  Lemma msub_eq_perm : forall a b, msub_eq eqb a b = true -> Permutation a b.
  Proof.
    induction a as [|x a' IH]; intros b H; cbn [msub_eq] in H.
    - destruct b; [apply perm_nil | discriminate].
    - destruct (remove1 eqb x b) as [b'|] eqn:R; [|discriminate].
      apply (remove1_perm _ _ eqb_ok) in R. apply Permutation_sym.
      eapply Permutation_trans; [exact R|]. apply perm_skip. apply Permutation_sym. apply IH. exact H.
  Qed.

End MSetFacts.

Section PayloadFacts.
  Variable P : Type.
  Variable plen : P -> Z.
  Variable peqb : P -> P -> bool.
  Variable peqb_ok : forall a b, peqb a b = true -> a = b.

  Lemma proto_class_udp : proto_class UDP_PROTO = UDP_PROTO.
  Proof. reflexivity. Qed.

  (* on a well-formed state the pipeline is the lookup in the UDP table; which of the two drops an
     unbound datagram gets depends on the IPv4 table only *)
  Lemma receive_eq : forall s (d : dgram P), wf s ->
    ip_demux s UDP_PROTO d =
    match tlookup (udp_b s) (d_dst d) with
    | Some app => Deliver app (d_dst d) (d_src d) (d_payload d)
    | None => match tlookup (ip_b s) (fst (d_dst d), UDP_PROTO) with
              | Some _ => DropUdpNoBinding
              | None => DropIpNoBinding
              end
    end.
  Proof.
    intros s d (W1 & W2 & W3 & W4). destruct (tlookup (udp_b s) (d_dst d)) as [app|] eqn:L;
      destruct (d_dst d) as [a p] eqn:Ed; unfold ip_demux; rewrite Ed; cbn [fst]; rewrite proto_class_udp.
    - assert (Lip : tlookup (ip_b s) (a, UDP_PROTO) = Some UDP_TID).
      { apply lookup_sound in L. destruct L as [L|[_ L]].
        - unfold tlookup. rewrite (W1 _ _ _ L). reflexivity.
        - unfold tlookup. cbn [snd]. destruct (tget (ip_b s) (a, UDP_PROTO)) as [u|] eqn:G.
          + f_equal. eapply W2. exact G.
          + eapply W1. exact L. }
      assert (Happ : zmem app (protos s) = true).
      { apply lookup_sound in L. destruct L as [L|[_ L]]; eapply W4; exact L. }
      rewrite Lip, W3, Z.eqb_refl. unfold udp_demux. rewrite Ed, L, Happ. reflexivity.
    - destruct (tlookup (ip_b s) (a, UDP_PROTO)) as [u|] eqn:Lip; [|reflexivity].
      assert (u = UDP_TID).
      { apply lookup_sound in Lip. destruct Lip as [G|[_ G]]; eapply W2; exact G. }
      subst u. rewrite W3, Z.eqb_refl. unfold udp_demux. rewrite Ed, L. reflexivity.
  Qed.

  Lemma events_of_eq : forall s m (d : dgram P), wf s ->
    events_of s m d =
    match tlookup (udp_b s) (d_dst d) with
    | Some app => [mkDev 0 app m (d_dst d) (d_src d) (d_payload d)]
    | None => []
    end.
  Proof.
    intros s m d W. unfold events_of. rewrite (receive_eq s d W).
    destruct (tlookup (udp_b s) (d_dst d)); [reflexivity|]. destruct (tlookup (ip_b s) _); reflexivity.
  Qed.

  Lemma send_within_limit : forall mtu mac (d : dgram P),
    0 <= plen (d_payload d) <= mtu - 28 -> mtu <= 65535 ->
    exists l, udp_send plen mtu mac d = SOk l.
  Proof.
    intros mtu mac d Hl Hm. unfold udp_send.
    destruct (65535 <? plen (d_payload d) + 8) eqn:E1; [lia|].
    destruct (65535 <? plen (d_payload d) + 8 + 20) eqn:E2; [lia|].
    destruct (mtu <? plen (d_payload d) + 28) eqn:E3; [lia|].
    destruct (fst (d_dst d) =? BCAST); [eexists; reflexivity|].
    destruct (is_loopback (fst (d_dst d))); eexists; reflexivity.
  Qed.

  Lemma send_over_limit : forall mtu mac (d : dgram P),
    mtu - 28 < plen (d_payload d) -> is_loopback (fst (d_dst d)) = false ->
    forall l, udp_send plen mtu mac d <> SOk l.
  Proof.
    intros mtu mac d Hl Hlo l. unfold udp_send.
    destruct (65535 <? plen (d_payload d) + 8); [discriminate|].
    destruct (65535 <? plen (d_payload d) + 8 + 20); [discriminate|].
    assert (E3 : (mtu <? plen (d_payload d) + 28) = true).
    { apply Z.ltb_lt. apply Z.lt_sub_lt_add_r. exact Hl. }
    rewrite E3, Hlo. destruct (fst (d_dst d) =? BCAST); discriminate.
  Qed.

  Lemma send_link_dst : forall mtu mac (d : dgram P) l,
    udp_send plen mtu mac d = SOk l ->
    l = (if fst (d_dst d) =? BCAST then ToBroadcast
         else if is_loopback (fst (d_dst d)) then ToSelf else ToMac mac).
  Proof.
    intros mtu mac d l. unfold udp_send.
    destruct (65535 <? plen (d_payload d) + 8); [discriminate|].
    destruct (65535 <? plen (d_payload d) + 8 + 20); [discriminate|].
    destruct (fst (d_dst d) =? BCAST).
    - destruct (mtu <? plen (d_payload d) + 28); [discriminate|]. congruence.
    - destruct (is_loopback (fst (d_dst d))); [congruence|].
      destruct (mtu <? plen (d_payload d) + 28); [discriminate|]. congruence.
  Qed.

  Definition deliveries (s : mstate) (m : nat) (l : list (dgram P)) : list (dev P) :=
    flat_map (events_of s m) l.

  Lemma dgram_eqb_ok : forall a b : dgram P, dgram_eqb peqb a b = true -> a = b.
  Proof.
    intros [s1 t1 p1] [s2 t2 p2] H. unfold dgram_eqb in H. cbn in H.
    apply andb_true_iff in H. destruct H as [H H3]. apply andb_true_iff in H. destruct H as [H1 H2].
    apply key_eqb_eq in H1. apply key_eqb_eq in H2. apply peqb_ok in H3. congruence.
  Qed.

  Lemma sop_eqb_ok : forall a b : sop P, sop_eqb peqb a b = true -> a = b.
  Proof.
    intros [m1 d1] [m2 d2] H. unfold sop_eqb in H. cbn in H.
    apply andb_true_iff in H. destruct H as [H1 H2].
    apply Nat.eqb_eq in H1. apply dgram_eqb_ok in H2. congruence.
  Qed.

  Lemma dev_eqb_ok : forall a b : dev P, dev_eqb peqb a b = true -> a = b.
  Proof.
    intros [k1 a1 m1 l1 r1 p1] [k2 a2 m2 l2 r2 p2] H. unfold dev_eqb in H. cbn in H.
    repeat (apply andb_true_iff in H; let H' := fresh "H" in destruct H as [H H']).
    apply Z.eqb_eq in H. apply Z.eqb_eq in H4. apply Nat.eqb_eq in H3.
    apply key_eqb_eq in H2. apply key_eqb_eq in H1. apply peqb_ok in H0. congruence.
  Qed.

  Lemma validate_checks : forall c tr, validate plen peqb c tr = 0 ->
    list_eqb (list_eqb Z.eqb) (map listen_codes (c_machines c)) (tr_listen tr) = true /\
    tx_codes_ok plen c (c_ops c) (tr_tx tr) = true /\
    msub_eq (sop_eqb peqb) (expected_frames plen peqb c tr) (observed_frames tr) = true /\
    forallb (frame_to_ok peqb c) (tr_frames tr) = true /\
    any_panic plen peqb c tr = false /\
    msub_eq (dev_eqb peqb) (predicted plen peqb c tr) (tr_dlv tr) = true.
  Proof.
    intros c tr H. unfold validate in H.
    destruct (list_eqb _ _ _); cbn [negb] in H; [|discriminate].
    destruct (tx_codes_ok _ _ _ _); cbn [negb] in H; [|discriminate].
    destruct (msub_eq (sop_eqb peqb) _ _); cbn [negb] in H; [|discriminate].
    destruct (forallb _ _); cbn [negb] in H; [|discriminate].
    destruct (any_panic _ _ _ _); [discriminate|].
    destruct (msub_eq (dev_eqb peqb) _ _); cbn [negb] in H; [|discriminate].
    repeat split.
  Qed.

  Definition machines_wf (c : config P) : Prop :=
    forall mc, In mc (c_machines c) ->
      zmem UDP_TID (mc_protos mc) = true /\ Forall (udp_op (mc_protos mc)) (mc_listens mc).

  Lemma state_at_wf : forall c m, machines_wf c -> (m < length (c_machines c))%nat -> wf (state_at c m).
  Proof.
    intros c m H Hm. unfold state_at.
    destruct (H (nth m (c_machines c) dummy_mcfg)) as [H1 H2]; [apply nth_In; exact Hm|].
    apply wf_final_state; assumption.
  Qed.

  Lemma reach_lt : forall n to m, In m (reach n to) -> (m < n)%nat.
  Proof.
    intros n to m H. unfold reach in H. destruct ((to =? -2) || (to =? -3)).
    - apply in_seq in H. lia.
    - destruct ((0 <=? to) && (to <? Z.of_nat n)) eqn:E; [|destruct H].
      destruct H as [H|[]]. subst m. apply andb_true_iff in E. destruct E as [E1 E2].
      apply Z.leb_le in E1. apply Z.ltb_lt in E2. lia.
  Qed.

  Lemma state_at_cases : forall c m, machines_wf c ->
    wf (state_at c m) \/
    (udp_b (state_at c m) = [] /\ forall m' (d : dgram P), events_of (state_at c m) m' d = []).
  Proof.
    intros c m H. destruct (Nat.lt_ge_cases m (length (c_machines c))) as [Hm|Hm].
    - left. apply state_at_wf; assumption.
    - right. unfold state_at. rewrite nth_overflow by exact Hm. split; reflexivity.
  Qed.

  Lemma validate_sound : forall c tr,
    validate plen peqb c tr = 0 -> machines_wf c ->
    map listen_codes (c_machines c) = tr_listen tr /\
    Permutation (expected_frames plen peqb c tr) (observed_frames tr) /\
    Permutation (predicted plen peqb c tr) (tr_dlv tr) /\
    (forall e, In e (tr_dlv tr) ->
       exists m d, In (m, d) (arrivals plen peqb c tr) /\
         tlookup (udp_b (state_at c m)) (d_dst d) = Some (e_app e) /\
         e = mkDev 0 (e_app e) m (d_dst d) (d_src d) (d_payload d)) /\
    (forall m d app, In (m, d) (arrivals plen peqb c tr) ->
       tlookup (udp_b (state_at c m)) (d_dst d) = Some app ->
       In (mkDev 0 app m (d_dst d) (d_src d) (d_payload d)) (tr_dlv tr)).
  Proof.
    intros c tr Hv Hwf. destruct (validate_checks c tr Hv) as (E1 & _ & E3 & _ & _ & E5).
    apply (msub_eq_perm _ _ sop_eqb_ok) in E3. apply (msub_eq_perm _ _ dev_eqb_ok) in E5.
    split.
    { apply (list_eqb_eq _ (list_eqb Z.eqb)); [|exact E1].
      intros a b Hab. apply (list_eqb_eq _ Z.eqb); [|exact Hab]. intros x y. apply Z.eqb_eq. }
    split; [exact E3|]. split; [exact E5|]. split.
    - intros e He. apply (Permutation_in _ (Permutation_sym E5)) in He. apply in_flat_map in He.
      destruct He as [[m d] [Ha Hin]]. exists m, d. split; [exact Ha|].
      destruct (state_at_cases c m Hwf) as [W|[_ Hempty]].
      + cbn [fst snd] in Hin. rewrite (events_of_eq _ _ _ W) in Hin.
        destruct (tlookup (udp_b (state_at c m)) (d_dst d)); [|destruct Hin].
        destruct Hin as [<-|[]]. split; reflexivity.
      + rewrite Hempty in Hin. destruct Hin.
    - intros m d app Ha L. apply (Permutation_in _ E5). apply in_flat_map. exists (m, d). split; [exact Ha|]. cbn [fst snd].
      destruct (state_at_cases c m Hwf) as [W|[Hnil _]].
      + rewrite (events_of_eq _ _ _ W), L. left. reflexivity.
      + rewrite Hnil in L. discriminate.
  Qed.

End PayloadFacts.

Definition ex_state0 : mstate := mkState [] [] false [] [UDP_TID; 1; 2].

Lemma wf_example :
  wf (snd (run_lops [] ex_state0 [LUdp 1 (167772161, 5000); LUdp 2 (ANY, 5000); LUdp 1 (BCAST, 5001)])).
Proof.
  apply wf_run_lops.
  - unfold wf, ex_state0. cbn [udp_b ip_b protos tget]. repeat split; discriminate.
  - repeat constructor.
Qed.

(* a small closed scenario for the validator *)
Definition ex_mc0 : mcfg :=
  mkMcfg false [] [UDP_TID; 1; 2] []
    [LUdp 1 (167772161, 5000); LUdp 2 (ANY, 5000); LUdp 2 (ANY, 5001); LUdp 1 (167772161, 5000)].
Definition ex_mc1 : mcfg := mkMcfg false [] [UDP_TID; 1] [(167772417, None)] [].
Definition ex_d1 : dgram Z := mkDgram (167772417, 1000) (167772161, 5000) 7.
Definition ex_d2 : dgram Z := mkDgram (167772417, 1001) (167772169, 5001) 0.
Definition ex_cfg : config Z := mkConfig 1500 false 3 [ex_mc0; ex_mc1] [mkSop 1 ex_d1; mkSop 1 ex_d2].
Definition ex_ev1 (app : Z) : dev Z := mkDev 0 app 0%nat (167772161, 5000) (167772417, 1000) 7.
Definition ex_ev2 : dev Z := mkDev 0 2 0%nat (167772169, 5001) (167772417, 1001) 0.
Definition ex_trace (dl : list (dev Z)) : trace Z :=
  mkTrace [[0; 0; 0; 1]; []] [0; 0] [mkFev 1%nat (-3) ex_d1; mkFev 1%nat (-3) ex_d2] dl.
Definition ex_trace_good := ex_trace [ex_ev2; ex_ev1 1].
Definition ex_trace_wrong_app := ex_trace [ex_ev2; ex_ev1 2].
Definition ex_trace_missing := ex_trace [ex_ev1 1].

Lemma example_validate :
  wf (final_state ex_mc0) /\ machines_wf Z ex_cfg /\
  validate (fun n : Z => n) Z.eqb ex_cfg ex_trace_good = 0 /\
  validate (fun n : Z => n) Z.eqb ex_cfg ex_trace_wrong_app = 5 /\
  validate (fun n : Z => n) Z.eqb ex_cfg ex_trace_missing = 5.
Proof.
  assert (M : machines_wf Z ex_cfg).
  { intros mc [<-|[<-|[]]]; (split; [reflexivity | repeat constructor]). }
  split; [|split; [exact M|]].
  - apply wf_final_state; [reflexivity | repeat constructor].
  - split; [|split]; vm_compute; reflexivity.
Qed.
