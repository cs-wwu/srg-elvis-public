(* Segment level: pieces of a datagram, the buffer invariant, and what
   Segment::receive_packet (repaired) returns for a piece. *)
From Coq Require Import Permutation ZifyBool.
From Elvis Require Import Model.Base Model.Reasm Proofs.ReasmHeap Proofs.ReasmBits.
Local Open Scope Z_scope.

Lemma frag_le_total {A} : forall x y : frag A, frag_le x y = true \/ frag_le y x = true.
Proof. intros x y. unfold frag_le. lia. Qed.
Lemma frag_le_trans {A} : forall x y z : frag A,
  frag_le x y = true -> frag_le y z = true -> frag_le x z = true.
Proof. intros x y z. unfold frag_le. lia. Qed.

(* Segment::receive_packet, whatever the packet: what an Ok result has done to the buffer, and what it
   takes to reach the header.unwrap() of step (14) with no header stored *)
Section SegReceive.
  Context {A : Type}.

  Definition new_bits (s : segment A) (h : hdr) : bitvec :=
    bv_set_range (s_bits s) (h_fo h) (h_fo h + (h_tl h - h_ihl h * 4 + 7) / 8).
  Definition new_header (s : segment A) (h : hdr) : option hdr :=
    if h_fo h =? 0 then Some h else s_header s.
  Definition new_tdl (s : segment A) (h : hdr) : Z :=
    if is_last_fragment (h_flags h) then h_tl h - h_ihl h * 4 + h_fo h * 8 else s_tdl s.

  Definition seg_post (s : segment A) (h : hdr) (r : result (segment A * option (hdr * list A))) : Prop :=
    match r with
    | Ok (s', out) =>
      h_ihl h * 4 <= h_tl h /\ s_bits s' = new_bits s h /\ s_header s' = new_header s h /\
      s_tdl s' = new_tdl s h /\
      s_epoch s' = match out with None => s_epoch s + 1 | Some _ => s_epoch s end
    | Panic p =>
      p = 7 -> h_ihl h * 4 <= h_tl h /\ new_header s h = None /\ new_tdl s h <> 0 /\
               bv_complete (new_bits s h) ((new_tdl s h + 7) / 8) = true
    | _ => True
    end.

  Lemma seg_receive_cases : forall (s : segment A) h b, seg_post s h (seg_receive s h b).
  Proof.
    intros s h b. unfold seg_receive, seg_receive_gen. cbv beta iota zeta.
    fold (new_bits s h) (new_header s h).
    destruct (Z.ltb_spec (h_tl h) (h_ihl h * 4)) as [|Hdl]; [intros [=]|].
    destruct (U16MAX <? h_tl h - h_ihl h * 4 + 7); [intros [=]|].
    destruct (U16MAX <? h_fo h + (h_tl h - h_ihl h * 4 + 7) / 8); [intros [=]|].
    match goal with |- context [bind ?X _] =>
      assert (HX : X = Panic 4 \/ X = Panic 5 \/ X = Ok (new_tdl s h)) end.
    { unfold new_tdl. destruct (is_last_fragment (h_flags h)); [|auto].
      destruct (U16MAX <? h_fo h * 8); [auto|]. destruct (U16MAX <? h_tl h - h_ihl h * 4 + h_fo h * 8); auto. }
    destruct HX as [-> | [-> | ->]]; cbn [bind]; [intros [=] | intros [=] |].
    assert (Hinc : forall frags tmo, seg_post s h
      (if U64MAX <=? s_epoch s then Panic 9
       else Ok (mkSeg (new_header s h) (new_bits s h) frags (new_tdl s h) tmo (s_epoch s + 1), None))).
    { intros frags tmo. destruct (U64MAX <=? s_epoch s); [intros [=]|]. repeat split; first [assumption | reflexivity]. }
    destruct (Z.eqb_spec (new_tdl s h) 0) as [|N0]; [apply Hinc|].
    destruct (U16MAX <? new_tdl s h + 7); [intros [=]|].
    destruct (bv_complete (new_bits s h) ((new_tdl s h + 7) / 8)) eqn:Ec; [|apply Hinc].
    destruct (new_header s h) as [hh|] eqn:Eh.
    - destruct (U16MAX <? new_tdl s h + h_ihl hh * 4); [intros [=]|]. repeat split; first [assumption | symmetry; assumption].
    - intros _. repeat split; assumption.
  Qed.

  Lemma seg_receive_epoch : forall (s : segment A) h b s' out,
    seg_receive s h b = Ok (s', out) ->
    s_epoch s' = match out with None => s_epoch s + 1 | Some _ => s_epoch s end.
  Proof. intros s h b s' out H. pose proof (seg_receive_cases s h b) as C. rewrite H in C. apply C. Qed.
End SegReceive.

Section Pieces.
  Context {A : Type}.
  Notation len l := (Z.of_nat (length l)).

  (* a received packet: header and payload *)
  Definition piece : Type := (hdr * list A)%type.
  Definition pfrag (p : piece) : frag A := (h_fo (fst p), snd p).
  (* first octet after the piece *)
  Definition pend (p : piece) : Z := 8 * h_fo (fst p) + len (snd p).

  (* an unfragmented datagram as its sender built it *)
  Definition WfDgram (oh : hdr) (body : list A) : Prop :=
    5 <= h_ihl oh <= 15 /\ h_fo oh = 0 /\ (h_flags oh = 0 \/ h_flags oh = 2) /\
    h_tl oh = h_ihl oh * 4 + len body /\ h_tl oh <= 65535.

  (* p carries a slice of the payload of (oh, body) at octet 8*FO, MF is clear
     exactly when the slice ends where the payload ends, every piece but the
     last is a whole number of 8-octet blocks, and the other header fields are
     those of oh.  The unfragmented datagram itself is a piece. *)
  Definition Piece (oh : hdr) (body : list A) (p : piece) : Prop :=
    0 <= h_fo (fst p) /\ 0 < len (snd p) /\ pend p <= len body /\
    snd p = firstn (length (snd p)) (skipn (Z.to_nat (8 * h_fo (fst p))) body) /\
    h_tl (fst p) = h_ihl oh * 4 + len (snd p) /\
    h_flags (fst p) = (if pend p =? len body then h_flags oh else h_flags oh + 1) /\
    (pend p < len body -> len (snd p) mod 8 = 0) /\
    h_ihl (fst p) = h_ihl oh /\ h_tos (fst p) = h_tos oh /\ h_id (fst p) = h_id oh /\
    h_ttl (fst p) = h_ttl oh /\ h_proto (fst p) = h_proto oh /\ h_ck (fst p) = h_ck oh /\
    h_src (fst p) = h_src oh /\ h_dst (fst p) = h_dst oh.

  (* FO = 0 and MF = 0: reassembly.rs step (2) *)
  Definition Whole (p : piece) : Prop :=
    h_fo (fst p) = 0 /\ is_last_fragment (h_flags (fst p)) = true.

  Definition covers_byte (p : piece) (i : Z) : Prop := 8 * h_fo (fst p) <= i < pend p.
  (* the pieces cover every octet of [0, n) *)
  Definition Covers (ps : list piece) (n : Z) : Prop :=
    forall i, 0 <= i < n -> exists p, In p ps /\ covers_byte p i.
  Definition covers_blk (p : piece) (j : Z) : Prop :=
    h_fo (fst p) <= j < h_fo (fst p) + (len (snd p) + 7) / 8.

  Lemma is_last_wf : forall oh body, WfDgram oh body -> is_last_fragment (h_flags oh) = true.
  Proof. intros oh body (_ & _ & [E|E] & _); rewrite E; reflexivity. Qed.
  Lemma is_last_wf_succ : forall oh body, WfDgram oh body -> is_last_fragment (h_flags oh + 1) = false.
  Proof. intros oh body (_ & _ & [E|E] & _); rewrite E; reflexivity. Qed.
  Lemma set_last_wf_succ : forall oh body, WfDgram oh body ->
    set_last_fragment_true (h_flags oh + 1) = h_flags oh.
  Proof. intros oh body (_ & _ & [E|E] & _); rewrite E; reflexivity. Qed.

  Lemma piece_last_iff : forall oh body p, WfDgram oh body -> Piece oh body p ->
    (is_last_fragment (h_flags (fst p)) = true <-> pend p = len body).
  Proof.
    intros oh body p Hwf Hp. destruct Hp as (_ & _ & _ & _ & _ & Hf & _). rewrite Hf.
    destruct (Z.eqb_spec (pend p) (len body)) as [E|N].
    - rewrite (is_last_wf _ _ Hwf). tauto.
    - rewrite (is_last_wf_succ _ _ Hwf). split; [discriminate|tauto].
  Qed.

  Lemma piece_whole_is_dgram : forall oh body p, WfDgram oh body -> Piece oh body p -> Whole p ->
    p = (oh, body).
  Proof.
    intros oh body [ph pb] Hwf Hp [Hfo Hl].
    pose proof (proj1 (piece_last_iff _ _ _ Hwf Hp) Hl) as Hend.
    destruct Hp as (H0 & Hk & Hle & Hs & Htl & Hf & Hm & E1 & E2 & E3 & E4 & E5 & E6 & E7 & E8).
    unfold pend in *. cbn [fst snd] in *.
    destruct Hwf as (Wi & Wfo & Wfl & Wtl & Wmax).
    rewrite Hfo in *. replace (8 * 0 + len pb =? len body) with true in Hf by lia.
    assert (Hlen : length pb = length body) by lia.
    assert (Hb : pb = body).
    { rewrite Hs. cbn [Z.mul Z.to_nat skipn]. rewrite Hlen. apply firstn_all. }
    subst pb. f_equal.
    destruct ph, oh; cbn in *. subst. f_equal; lia.
  Qed.

  Lemma blocks_iff_bytes : forall oh body ps, WfDgram oh body -> Forall (Piece oh body) ps ->
    ((forall j : nat, Z.of_nat j < (len body + 7) / 8 -> exists p, In p ps /\ covers_blk p (Z.of_nat j))
     <-> Covers ps (len body)).
  Proof.
    intros oh body ps Hwf Hall. rewrite Forall_forall in Hall. split.
    - intros H i Hi.
      destruct (H (Z.to_nat (i / 8)) ltac:(lia)) as (p & Hin & Hb).
      exists p. split; [exact Hin|].
      destruct (Hall p Hin) as (H0 & Hk & Hle & _ & _ & _ & Hm & _).
      unfold covers_blk in Hb. unfold covers_byte, pend in *.
      destruct (Z.eq_dec (8 * h_fo (fst p) + len (snd p)) (len body)) as [E|N].
      + lia.
      + specialize (Hm ltac:(lia)). lia.
    - intros H j Hj.
      destruct (H (8 * Z.of_nat j) ltac:(lia)) as (p & Hin & Hb).
      exists p. split; [exact Hin|].
      unfold covers_byte, pend in Hb. unfold covers_blk. lia.
  Qed.

  Definition saw_last (ps : list piece) : bool :=
    existsb (fun p => is_last_fragment (h_flags (fst p))) ps.

  Lemma covers_has_last : forall oh body ps, WfDgram oh body -> Forall (Piece oh body) ps ->
    0 < len body -> Covers ps (len body) -> saw_last ps = true.
  Proof.
    intros oh body ps Hwf Hall Hn Hc. rewrite Forall_forall in Hall.
    destruct (Hc (len body - 1) ltac:(lia)) as (p & Hin & Hb).
    apply existsb_exists. exists p. split; [exact Hin|].
    apply (piece_last_iff _ _ _ Hwf (Hall p Hin)).
    destruct (Hall p Hin) as (_ & _ & Hle & _). unfold covers_byte in Hb. lia.
  Qed.

  Definition FragOf (body : list A) (f : frag A) : Prop :=
    0 <= fst f /\ 8 * fst f + len (snd f) <= len body /\
    snd f = firstn (length (snd f)) (skipn (Z.to_nat (8 * fst f)) body).

  Lemma fold_place_prefix : forall (body : list A) l c,
    ge_sorted frag_le l -> Forall (FragOf body) l -> (c <= length body)%nat ->
    (forall i, (c <= i < length body)%nat ->
       exists f, In f l /\ 8 * fst f <= Z.of_nat i < 8 * fst f + len (snd f)) ->
    fold_left place l (firstn c body) = body.
  Proof.
    intros body l. induction l as [|f l IH]; intros c Hs Hall Hc Hcov.
    - cbn [fold_left]. destruct (Nat.eq_dec c (length body)) as [->|N]; [apply firstn_all|].
      destruct (Hcov c ltac:(lia)) as (f & [] & _).
    - cbn [fold_left]. inversion Hs as [|? ? Hs' Hge]; subst. inversion Hall as [|? ? Hf Hall']; subst.
      destruct Hf as (H0 & Hle & Hsl).
      assert (Hstart : (Z.to_nat (fst f * 8) <= c)%nat).
      { destruct (Nat.eq_dec c (length body)) as [->|N]; [lia|].
        destruct (Hcov c ltac:(lia)) as (g & [<-|Hin] & Hg); [lia|].
        rewrite Forall_forall in Hge. specialize (Hge g Hin). unfold frag_le in Hge. lia. }
      rewrite place_is_place_nat by exact H0. rewrite Hsl.
      replace (Z.to_nat (8 * fst f)) with (Z.to_nat (fst f * 8)) by lia.
      rewrite place_nat_prefix by lia.
      apply IH; [exact Hs'|exact Hall'|lia|].
      intros i Hi. destruct (Hcov i ltac:(lia)) as (g & [<-|Hin] & Hg).
      + lia.
      + exists g. split; assumption.
  Qed.

  Lemma piece_frag_of : forall oh body p, Piece oh body p -> FragOf body (pfrag p).
  Proof.
    intros oh body p (H0 & _ & Hle & Hs & _). unfold FragOf, pfrag, pend in *. cbn [fst snd].
    split; [exact H0|]. split; [exact Hle|exact Hs].
  Qed.

  Lemma assemble_pieces : forall oh body ps h,
    Forall (Piece oh body) ps -> Permutation h (map pfrag ps) -> heap_ok frag_le dfrag h ->
    Covers ps (len body) -> assemble h = body.
  Proof.
    intros oh body ps h Hall Hperm Hok Hcov. unfold assemble.
    destruct (heap_drain_ok frag_le dfrag frag_le_total frag_le_trans (length h) h Hok (le_n _))
      as [Hp Hs].
    set (l := heap_drain frag_le dfrag (length h) h) in *.
    assert (Hpl : Permutation l (map pfrag ps)).
    { eapply Permutation_trans; [apply Permutation_sym; exact Hp|exact Hperm]. }
    change (@nil A) with (firstn 0 body).
    apply fold_place_prefix; [exact Hs| |lia|].
    - rewrite Forall_forall in *. intros f Hf.
      apply (Permutation_in f Hpl) in Hf. apply in_map_iff in Hf. destruct Hf as (p & <- & Hin).
      eapply piece_frag_of. apply Hall. exact Hin.
    - intros i Hi. destruct (Hcov (Z.of_nat i) ltac:(lia)) as (p & Hin & Hb).
      exists (pfrag p). split.
      + apply (Permutation_in (pfrag p) (Permutation_sym Hpl)). apply in_map. exact Hin.
      + unfold covers_byte, pend in Hb. unfold pfrag. cbn [fst snd]. lia.
  Qed.

  (* what a buffer holds after receiving the proper fragments ps of (oh, body) *)
  Record SInv (oh : hdr) (body : list A) (ps : list piece) (s : segment A) : Prop := {
    si_pieces : Forall (Piece oh body) ps;
    si_proper : Forall (fun p => ~ Whole p) ps;
    si_perm : Permutation (s_frags s) (map pfrag ps);
    si_heap : heap_ok frag_le dfrag (s_frags s);
    si_bits : forall j : nat,
      bv_get (s_bits s) j = true <-> exists p, In p ps /\ covers_blk p (Z.of_nat j);
    si_tdl : s_tdl s = if saw_last ps then len body else 0;
    si_hdr_some : forall p, In p ps -> h_fo (fst p) = 0 -> s_header s <> None;
    si_hdr_in : forall h, s_header s = Some h -> h_fo h = 0 /\ exists pb, In (h, pb) ps;
    si_timeout : s_timeout s = match ps with [] => 15 | _ => Z.max 15 (h_ttl oh) end
  }.

  Lemma SInv_new : forall oh body, SInv oh body [] seg_new.
  Proof.
    intros. constructor; cbn [seg_new s_frags s_bits s_tdl s_header s_timeout saw_last existsb map].
    - constructor.
    - constructor.
    - constructor.
    - intros i Hi. cbn [length] in Hi. lia.
    - intros j. rewrite bv_get_nil. split; [discriminate|]. intros (p & [] & _).
    - reflexivity.
    - intros p [].
    - discriminate.
    - reflexivity.
  Qed.

  Lemma rebuilt_header : forall oh body h pb, WfDgram oh body -> Piece oh body (h, pb) ->
    ~ Whole (h, pb) -> h_fo h = 0 ->
    mkHdr (h_ihl h) (h_tos h) (len body + h_ihl h * 4) (h_id h) (h_fo h)
          (set_last_fragment_true (h_flags h)) (h_ttl h) (h_proto h) (h_ck h) (h_src h) (h_dst h) = oh.
  Proof.
    intros oh body h pb Hwf Hp Hnw Hfo.
    assert (Hnl : is_last_fragment (h_flags h) = false).
    { destruct (is_last_fragment (h_flags h)) eqn:E; [|reflexivity]. exfalso. apply Hnw. split; assumption. }
    pose proof (piece_last_iff _ _ _ Hwf Hp) as Hli. cbn [fst] in Hli.
    destruct Hp as (H0 & Hk & Hle & Hs & Htl & Hf & Hm & E1 & E2 & E3 & E4 & E5 & E6 & E7 & E8).
    cbn [fst snd] in *.
    destruct (Z.eqb_spec (pend (h, pb)) (len body)) as [E|N].
    { rewrite (proj2 Hli E) in Hnl. discriminate. }
    rewrite Hf, (set_last_wf_succ _ _ Hwf).
    destruct Hwf as (Wi & Wfo & Wfl & Wtl & Wmax).
    destruct h, oh; cbn in *. subst. f_equal; lia.
  Qed.

  Lemma seg_receive_spec : forall oh body ps s p,
    WfDgram oh body -> SInv oh body ps s -> Piece oh body p -> ~ Whole p -> s_epoch s < U64MAX ->
    exists s' out, seg_receive s (fst p) (snd p) = Ok (s', out) /\
      ((Covers (p :: ps) (len body) /\ out = Some (oh, body) /\ s_epoch s' = s_epoch s) \/
       (~ Covers (p :: ps) (len body) /\ out = None /\ SInv oh body (p :: ps) s' /\
        s_epoch s' = s_epoch s + 1)).
  Proof.
    intros oh body ps s [ph pb] Hwf Hinv Hp Hnw Hep.
    pose proof Hp as (H0 & Hk & Hle & Hsl & Htl & Hfl & Hm & Ei & Etos & Eid & Ettl & Epr & Eck & Esrc & Edst).
    pose proof Hwf as (Wi & Wfo & Wfl & Wtl & Wmax).
    unfold pend in *. cbn [fst snd] in *.
    set (n := len body) in *. set (k := len pb) in *.
    set (frags' := heap_push frag_le dfrag (s_frags s) (h_fo ph, pb)).
    set (bits' := bv_set_range (s_bits s) (h_fo ph) (h_fo ph + (k + 7) / 8)).
    set (tdl' := if is_last_fragment (h_flags ph) then n else s_tdl s).
    set (header' := if h_fo ph =? 0 then Some ph else s_header s).
    set (s' := mkSeg header' bits' frags' tdl' (Z.max (s_timeout s) (h_ttl ph)) (s_epoch s + 1)).
    pose proof (piece_last_iff _ _ _ Hwf Hp) as Hli. unfold pend in Hli. cbn [fst snd] in Hli.
    fold n k in Hli.
    (* the invariant holds for the updated buffer *)
    assert (Hs' : SInv oh body ((ph, pb) :: ps) s').
    { destruct Hinv as [I1 I2 I3 I4 I5 I6 I7 I8 I9].
      destruct (heap_push_ok frag_le dfrag frag_le_total frag_le_trans (s_frags s) (h_fo ph, pb) I4)
        as [Hok' Hperm'].
      constructor; cbn [s' s_frags s_bits s_tdl s_header s_timeout].
      - constructor; assumption.
      - constructor; assumption.
      - cbn [map]. change (pfrag (ph, pb)) with (h_fo ph, pb).
        eapply Permutation_trans; [apply Permutation_sym; exact Hperm'|]. apply perm_skip. exact I3.
      - exact Hok'.
      - intros j. unfold bits', bv_set_range. rewrite bv_get_set_range_nat.
        rewrite orb_true_iff, andb_true_iff, I5. split.
        + intros [[Ha Hb]|(q & Hq & Hc)].
          * exists (ph, pb). split; [left; reflexivity|]. unfold covers_blk. cbn [fst snd]. fold k. lia.
          * exists q. split; [right; exact Hq|exact Hc].
        + intros (q & [<-|Hq] & Hc).
          * left. unfold covers_blk in Hc. cbn [fst snd] in Hc. fold k in Hc. lia.
          * right. exists q. split; assumption.
      - unfold tdl', saw_last. cbn [existsb fst]. fold (saw_last ps). rewrite I6.
        destruct (is_last_fragment (h_flags ph)); reflexivity.
      - intros q [<-|Hq] Hq0; cbn [fst] in *.
        + unfold header'. rewrite Hq0. cbn. discriminate.
        + unfold header'. destruct (h_fo ph =? 0); [discriminate|]. eapply I7; eassumption.
      - intros h. unfold header'. destruct (Z.eqb_spec (h_fo ph) 0) as [E0|N0].
        + intros [= <-]. split; [exact E0|]. exists pb. left. reflexivity.
        + intros Hh. destruct (I8 h Hh) as [Hh0 (qb & Hq)]. split; [exact Hh0|]. exists qb. right. exact Hq.
      - rewrite I9, Ettl. destruct ps; lia. }
    (* arithmetic of steps (9) and (10) stays inside u16 *)
    assert (Edl : h_tl ph - h_ihl ph * 4 = k) by lia.
    assert (Hn : 0 < n) by lia.
    unfold seg_receive, seg_receive_gen. cbv beta iota zeta. rewrite Edl.
    destruct (Z.leb_spec U64MAX (s_epoch s)); [lia|].
    destruct (Z.ltb_spec (h_tl ph) (h_ihl ph * 4)); [lia|].
    unfold U16MAX.
    destruct (Z.ltb_spec 65535 (k + 7)); [lia|].
    destruct (Z.ltb_spec 65535 (h_fo ph + (k + 7) / 8)); [lia|].
    fold frags' bits' header'.
    assert (Etdl : (if is_last_fragment (h_flags ph)
                    then if 65535 <? h_fo ph * 8 then Panic 4
                         else if 65535 <? k + h_fo ph * 8 then Panic 5 else Ok (k + h_fo ph * 8)
                    else Ok (s_tdl s)) = Ok tdl').
    { unfold tdl'. destruct (is_last_fragment (h_flags ph)) eqn:El; [|reflexivity].
      pose proof (proj1 Hli eq_refl).
      destruct (Z.ltb_spec 65535 (h_fo ph * 8)); [lia|].
      destruct (Z.ltb_spec 65535 (k + h_fo ph * 8)); [lia|]. f_equal. lia. }
    rewrite Etdl. cbn [bind]. fold s'.
    pose proof (si_tdl _ _ _ _ Hs') as Htdl'. cbn [s' s_tdl] in Htdl'. fold n in Htdl'.
    destruct (saw_last ((ph, pb) :: ps)) eqn:Esaw.
    - (* the end of the datagram is known *)
      rewrite Htdl'. destruct (Z.eqb_spec n 0); [lia|]. destruct (Z.ltb_spec 65535 (n + 7)); [lia|].
      assert (Hdec : bv_complete bits' ((n + 7) / 8) = true <-> Covers ((ph, pb) :: ps) n).
      { unfold bv_complete. rewrite bv_complete_nat_spec. unfold n.
        rewrite <- (blocks_iff_bytes oh body _ Hwf (si_pieces _ _ _ _ Hs')).
        split.
        - intros Hb j Hj. apply (proj1 (si_bits _ _ _ _ Hs' j)). apply Hb. lia.
        - intros Hb j Hj. apply (proj2 (si_bits _ _ _ _ Hs' j)). apply Hb. lia. }
      destruct (bv_complete bits' ((n + 7) / 8)) eqn:Ecomp.
      + (* complete *)
        pose proof (proj1 Hdec eq_refl) as Hcov.
        destruct (Hcov 0 ltac:(lia)) as (q & Hq & Hq0).
        assert (Hqfo : h_fo (fst q) = 0).
        { pose proof (si_pieces _ _ _ _ Hs') as Hall. rewrite Forall_forall in Hall.
          destruct (Hall q Hq) as (Hq1 & _). unfold covers_byte in Hq0. lia. }
        pose proof (si_hdr_some _ _ _ _ Hs' q Hq Hqfo) as Hsome. cbn [s' s_header] in Hsome.
        destruct header' as [hh|] eqn:Eh; [|congruence].
        destruct (si_hdr_in _ _ _ _ Hs' hh) as [Hh0 (hb & Hhin)]; [reflexivity|].
        assert (Hhp : Piece oh body (hh, hb)).
        { pose proof (si_pieces _ _ _ _ Hs') as Hall. rewrite Forall_forall in Hall. apply Hall. exact Hhin. }
        assert (Hhnw : ~ Whole (hh, hb)).
        { pose proof (si_proper _ _ _ _ Hs') as Hall. rewrite Forall_forall in Hall. apply Hall. exact Hhin. }
        assert (Ehi : h_ihl hh = h_ihl oh) by (destruct Hhp as (_ & _ & _ & _ & _ & _ & _ & E & _); exact E).
        destruct (Z.ltb_spec 65535 (n + h_ihl hh * 4)); [lia|].
        eexists. eexists. split; [reflexivity|]. left. split; [exact Hcov|].
        split; [|reflexivity].
        f_equal. f_equal.
        * apply (rebuilt_header oh body hh hb Hwf Hhp Hhnw Hh0).
        * apply (assemble_pieces oh body ((ph, pb) :: ps) frags'
                   (si_pieces _ _ _ _ Hs') (si_perm _ _ _ _ Hs') (si_heap _ _ _ _ Hs') Hcov).
      + eexists. eexists. split; [reflexivity|]. right.
        split; [|split; [reflexivity|split; [exact Hs'|reflexivity]]].
        intros Hc. apply Hdec in Hc. congruence.
    - (* no fragment with MF = 0 so far *)
      rewrite Htdl'. cbn [Z.eqb].
      eexists. eexists. split; [reflexivity|]. right.
      split; [|split; [reflexivity|split; [exact Hs'|reflexivity]]].
      intros Hc. pose proof (covers_has_last oh body _ Hwf (si_pieces _ _ _ _ Hs') Hn Hc) as Hl.
      congruence.
  Qed.
End Pieces.
