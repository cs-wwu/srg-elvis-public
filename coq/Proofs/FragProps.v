(* The partition predicate of C10 with every conjunct spelled out, the theorems about it, witnesses. *)
From Elvis Require Import Model.Base Model.Frag Proofs.FragFacts Proofs.FragChain.
Local Open Scope Z_scope.

Definition PartitionSpec {A : Type} (o : hdr) (body : list A) (mtu : Z) (frs : list (frag A)) : Prop :=
  frs <> [] /\
  concat (map snd frs) = body /\
  (forall i h p, nth_error frs i = Some (h, p) ->
     (* fits the MTU; header length + payload length *)
     total_length h <= mtu /\
     total_length h = 4 * ihl o + Z.of_nat (length p) /\
     (* position: recorded offset = original offset + bytes of the earlier pieces *)
     8 * fragment_offset h = 8 * fragment_offset o + sumlen (firstn i frs) /\
     (* every field the fragmentation must not touch *)
     ihl h = ihl o /\ oth h = oth o /\
     (* flags: the piece that ends the datagram keeps the original flags (so MF = MF_orig);
        every earlier piece has the original flags with MF set, and a payload of whole 8-byte blocks *)
     (S i = length frs -> flags h = flags o) /\
     (S i <> length frs -> flags h = set_mf (flags o) /\ Z.of_nat (length p) mod 8 = 0)) /\
  (* several pieces => none is empty *)
  (length frs = 1%nat \/ Forall (fun f : frag A => snd f <> []) frs).

Lemma PartitionSpec_POK {A : Type} o (body : list A) mtu frs :
  PartitionSpec o body mtu frs <-> POK o body mtu frs.
Proof.
  unfold PartitionSpec, POK. rewrite nondeg_ok_iff, pieces_ok_iff.
  assert (K : forall i h (p : list A), PieceOK o mtu (0 + sumlen (firstn i frs)) (Nat.eqb (S i) (length frs) && negb false) (h, p) <->
    total_length h <= mtu /\ total_length h = 4 * ihl o + Z.of_nat (length p) /\
    8 * fragment_offset h = 8 * fragment_offset o + sumlen (firstn i frs) /\ ihl h = ihl o /\ oth h = oth o /\
    (S i = length frs -> flags h = flags o) /\
    (S i <> length frs -> flags h = set_mf (flags o) /\ Z.of_nat (length p) mod 8 = 0)).
  { intros i h p. unfold PieceOK, plen. cbn [fst snd]. rewrite Z.add_0_l, andb_true_r.
    destruct (Nat.eqb_spec (S i) (length frs)); intuition congruence. }
  split; intros (H1 & H2 & H3 & H4); (split; [exact H1|]); (split; [exact H2|]); (split; [|exact H4]).
  - intros i [h p] Hn. apply K, H3, Hn.
  - intros i h p Hn. apply K, (H3 i (h, p) Hn).
Qed.

(* the theorems' domain contains every header a parser can produce *)
Lemma valid_domain {A : Type} h (body : list A) :
  ihl h = 5 -> Z.of_nat (length body) <= 65515 ->
  total_length h = 20 + Z.of_nat (length body) -> 0 <= fragment_offset h <= 8191 ->
  Valid h body /\ (forall mtu, 68 <= mtu <= 65535 -> MtuOk h mtu).
Proof.
  intros Hi Hl Ht Hf. split.
  - apply Valid_of_fields; unfold len, U16MAX; lia.
  - intros mtu Hm. unfold MtuOk, U16MAX. lia.
Qed.

Lemma fragment_spec {A : Type} h (body : list A) mtu :
  Valid h body -> MtuOk h mtu -> may_fragment (flags h) = true -> mtu < total_length h ->
  exists frs, fragment h body mtu = Ok (Fragmented frs) /\ PartitionSpec h body mtu frs /\
              (2 <= length frs)%nat /\ Forall (fun f : frag A => snd f <> []) frs.
Proof.
  intros Hv Hm Hdf Hbig.
  destruct (fragment_fragments h body mtu Hv Hm Hdf Hbig) as (frs & H1 & H2 & H3).
  exists frs. split; [exact H1|]. split; [apply PartitionSpec_POK, H2 | exact H3].
Qed.

Lemma weaken_spec {A : Type} o (body : list A) m m' frs :
  m <= m' -> PartitionSpec o body m frs -> PartitionSpec o body m' frs.
Proof.
  intros Hle (H1 & H2 & H3 & H4). split; [exact H1|]. split; [exact H2|]. split; [|exact H4].
  intros i h p Hn. destruct (H3 i h p Hn) as (Q1 & Q). split; [lia | exact Q].
Qed.

(* fragments of a datagram that fits IPv4's 16-bit total length have 13-bit offsets *)
Lemma offsets_13bit_spec {A : Type} o (body : list A) mtu frs f :
  PartitionSpec o body mtu frs -> Valid o body ->
  8 * fragment_offset o + Z.of_nat (length body) <= 65535 ->
  In f frs -> 0 <= fragment_offset (fst f) <= 8191.
Proof.
  intros HP Hv Hfit Hin. apply PartitionSpec_POK in HP.
  destruct (POK_elem o body mtu frs f HP Hv Hin) as ((_ & _ & H0 & _) & _ & _ & _ & Hle).
  pose proof (plen_nonneg f). unfold len in Hle. lia.
Qed.

Definition OutcomeSpec {A : Type} (h : hdr) (body : list A) (mtu : Z) (r : fragments A) : Prop :=
  match r with
  | DontFragment f => total_length h <= mtu /\ f = (h, body)
  | Discard => mtu < total_length h /\ may_fragment (flags h) = false
  | Fragmented frs => mtu < total_length h /\ may_fragment (flags h) = true /\ PartitionSpec h body mtu frs
  end.

Lemma outcome_ok_spec {A : Type} (eqb : A -> A -> bool) :
  (forall x y, eqb x y = true <-> x = y) ->
  forall h body mtu r, outcome_ok eqb h body mtu r = true <-> OutcomeSpec h body mtu r.
Proof.
  intros He h body mtu r. destruct r as [frs | [h' b'] | ]; unfold outcome_ok, OutcomeSpec.
  - rewrite !andb_true_iff, (partition_ok_iff eqb He), <- PartitionSpec_POK. intuition lia.
  - rewrite !andb_true_iff, hdr_eqb_spec, (list_eqb_spec eqb He). split.
    + intros [[H1 H2] H3]. subst. split; [lia | reflexivity].
    + intros [H1 H2]. injection H2 as -> ->. repeat split; try reflexivity; lia.
  - rewrite andb_true_iff, negb_true_iff. intuition lia.
Qed.

Lemma fragment_outcome_spec {A : Type} h (body : list A) mtu :
  Valid h body -> MtuOk h mtu ->
  exists r, fragment h body mtu = Ok r /\ OutcomeSpec h body mtu r.
Proof.
  intros Hv Hm. destruct (Z_le_gt_dec (total_length h) mtu) as [Hfit | Hbig].
  - exists (DontFragment (h, body)). split; [apply fragment_fits, Hfit|]. split; [exact Hfit | reflexivity].
  - destruct (may_fragment (flags h)) eqn:Hdf.
    + destruct (fragment_spec h body mtu Hv Hm Hdf) as (frs & Hf & Hp & _); [lia|].
      exists (Fragmented frs). split; [exact Hf|]. split; [lia | split; [exact Hdf | exact Hp]].
    + exists Discard. split; [apply fragment_discard; [lia | exact Hdf]|]. split; [lia | exact Hdf].
Qed.

Definition ex_oth : others := mkOthers 0 4660 64 17 0 167772161 167772162.
Definition ex_hdr (tl fo fl : Z) : hdr := mkHdr 5 tl fo fl ex_oth.
Definition ex_body (n : nat) : list Z := map Z.of_nat (seq 0 n).

(* 30 payload bytes, MTU 37: NFB = (37-20)/8 = 2 -> pieces of 16 and 14 bytes *)
Lemma example_fragment :
  fragment (ex_hdr 50 0 0) (ex_body 30) 37 =
  Ok (Fragmented [ (ex_hdr 36 0 1, ex_body 16);
                   (ex_hdr 34 2 0, map Z.of_nat (seq 16 14)) ]).
Proof. vm_compute. reflexivity. Qed.

(* a middle fragment (MF set, offset 100) fragmented again: the last piece keeps MF *)
Lemma example_refragment_middle :
  fragment (ex_hdr 44 100 1) (ex_body 24) 36 =
  Ok (Fragmented [ (ex_hdr 36 100 1, ex_body 16);
                   (ex_hdr 28 102 1, map Z.of_nat (seq 16 8)) ]).
Proof. vm_compute. reflexivity. Qed.

Lemma example_chain :
  chain [45; 29] [(ex_hdr 60 0 0, ex_body 40)] =
  Ok (Some [ (ex_hdr 28 0 1, ex_body 8);
             (ex_hdr 28 1 1, map Z.of_nat (seq 8 8));
             (ex_hdr 28 2 1, map Z.of_nat (seq 16 8));
             (ex_hdr 28 3 1, map Z.of_nat (seq 24 8));
             (ex_hdr 28 4 0, map Z.of_nat (seq 32 8)) ]).
Proof. vm_compute. reflexivity. Qed.
