(* DHCP codec: round trips, totality of the repaired decoder, panics of the
   decoder as it was. *)
From Elvis Require Import Proofs.BaseFacts Model.Base Model.AppBytes Model.Dhcp Proofs.AppBytesFacts.
Local Open Scope Z_scope.

Lemma mt_range t : 1 <= mt_u8 t <= 7.
Proof. destruct t; cbn [mt_u8]; lia. Qed.

Lemma mt_try_from_u8 t : mt_try_from (mt_u8 t) = Ok t.
Proof. destruct t; reflexivity. Qed.

Lemma mt_of_small_inv b t : mt_of_small b = Some t -> b = mt_u8 t.
Proof.
  unfold mt_of_small.
  repeat match goal with
         | |- context [b =? ?k] =>
             destruct (b =? k) eqn:?E; [intros H; inversion H; subst; cbn [mt_u8]; lia|]
         end.
  discriminate.
Qed.

Lemma mt_try_from_inv b t : mt_try_from b = Ok t -> b = mt_u8 t.
Proof.
  unfold mt_try_from. destruct (mt_of_small b) eqn:E; intros H; inversion H; subst.
  apply mt_of_small_inv. exact E.
Qed.

Lemma mt_of_small_none b : mt_of_small b = None <-> ~ (1 <= b <= 7).
Proof.
  unfold mt_of_small. split.
  - repeat match goal with
           | |- context [b =? ?k] => destruct (b =? k) eqn:?E; [discriminate|]
           end. lia.
  - intros H.
    repeat match goal with
           | |- context [b =? ?k] => destruct (b =? k) eqn:?E; [lia|]
           end. reflexivity.
Qed.

Lemma mt_try_from_answers b : answers (mt_try_from b) = true.
Proof. unfold mt_try_from. destruct (mt_of_small b); reflexivity. Qed.

Lemma str_from_utf8_answers v : answers (str_from_utf8 v) = true.
Proof. unfold str_from_utf8. destruct (utf8_valid v); reflexivity. Qed.

Lemma dhcp_decode_encode h rest : dhcp_wf h = true ->
  dhcp_from_bytes (dhcp_to_message h ++ rest) = Ok (h, rest).
Proof.
  destruct h as [op ht hl hp xid secs fl cip yip sip rip ch sn bf mt].
  unfold dhcp_wf, dhcp_to_message, dhcp_from_bytes, next_ipv4.
  cbn [h_op h_htype h_hlen h_hops h_xid h_secs h_flags h_cip h_yip h_sip h_rip h_chaddr
       h_sname h_bfile h_mt].
  intros W. split_wf.
  rewrite !Z.mod_small by lia.
  rewrite <- !app_assoc. cbn [app next_u8 rd bind].
  rewrite next_u32_be32 by lia. cbn [rd bind].
  rewrite next_u16_be16 by lia. cbn [rd bind].
  rewrite next_u8_be8 by lia. cbn [rd bind].
  do 4 (rewrite next_u32_be32 by lia; cbn [rd bind]).
  rewrite next_u16_be16 by lia. cbn [rd bind].
  rewrite next_u8_be8 by (pose proof (mt_range mt); lia). cbn [rd bind].
  rewrite mt_try_from_u8. cbn [bind].
  rewrite read_until_app by assumption. cbn [bind].
  unfold str_from_utf8.
  match goal with H : utf8_valid sn = true |- _ => rewrite H end. cbn [bind].
  rewrite read_until_app by assumption. cbn [bind].
  match goal with H : utf8_valid bf = true |- _ => rewrite H end. cbn [bind].
  reflexivity.
Qed.

Lemma str_from_utf8_ok v s : str_from_utf8 v = Ok s -> s = v /\ utf8_valid v = true.
Proof.
  unfold str_from_utf8. destruct (utf8_valid v); intros H; inversion H; auto.
Qed.

Lemma dhcp_encode_decode bs h rest : bytes bs = true ->
  dhcp_from_bytes bs = Ok (h, rest) ->
  bs = dhcp_to_message h ++ rest /\ dhcp_wf h = true /\ bytes rest = true.
Proof.
  unfold dhcp_from_bytes, next_ipv4. intros B H.
  do 13 rd_step B H.
  apply bind_ok_inv in H as [mt [E H]]. apply mt_try_from_inv in E. subst v11.
  until_step B H. apply bind_ok_inv in H as [sn [E H]]. apply str_from_utf8_ok in E as [-> U1].
  until_step B H. apply bind_ok_inv in H as [bf [E H]]. apply str_from_utf8_ok in E as [-> U2].
  inversion H; subst; clear H.
  split; [|split; [|exact B]].
  - unfold dhcp_to_message.
    cbn [h_op h_htype h_hlen h_hops h_xid h_secs h_flags h_cip h_yip h_sip h_rip h_chaddr
         h_sname h_bfile h_mt].
    unfold be8 at 1 2 3 4. rewrite <- !app_assoc. cbn [app]. reflexivity.
  - unfold dhcp_wf.
    cbn [h_op h_htype h_hlen h_hops h_xid h_secs h_flags h_cip h_yip h_sip h_rip h_chaddr
         h_sname h_bfile h_mt].
    rewrite R, R0, R1, R2, R3, R4, R5, R6, R7, R8, R9, R10, Bn, F, U1, Bn0, F0, U2.
    reflexivity.
Qed.

Lemma dhcp_answers bs : answers (dhcp_from_bytes bs) = true.
Proof.
  unfold dhcp_from_bytes. do 13 step_rd.
  apply bind_answers; [apply mt_try_from_answers | intros ? _].
  apply bind_answers; [apply read_until_answers | intros [? ?] _].
  apply bind_answers; [apply str_from_utf8_answers | intros ? _].
  apply bind_answers; [apply read_until_answers | intros [? ?] _].
  apply bind_answers; [apply str_from_utf8_answers | intros ? _].
  reflexivity.
Qed.

(* the 29 bytes that precede the message-type byte *)
Definition dhcp_fixed29 : list Z :=
  [1;1;6;0; 0;0;0;2; 0;0; 0; 0;0;0;0; 0;0;0;0; 0;0;0;0; 0;0;0;0; 0;0].

(* the repair is a map on results: the four panics become the two error values, nothing else changes *)
Definition soften {A} (r : result A) : result A :=
  match r with
  | Panic s => if (s =? 31) || (s =? 32) then Err 2 else if (s =? 33) || (s =? 34) then Err 3 else r
  | _ => r
  end.
Lemma soften_bind {A B} (r : result A) (f : A -> result B) :
  soften (bind r f) = bind (soften r) (fun x => soften (f x)).
Proof.
  destruct r as [a|e|s|]; cbn [bind soften]; try reflexivity.
  destruct ((s =? 31) || (s =? 32)); [reflexivity|]. destruct ((s =? 33) || (s =? 34)); reflexivity.
Qed.
Lemma soften_rd {A} (o : option A) : soften (rd o) = rd o.
Proof. destruct o; reflexivity. Qed.
Lemma soften_until d bs : soften (read_until d bs) = read_until d bs.
Proof. pose proof (read_until_no_panic d bs). destruct (read_until d bs); try reflexivity; discriminate. Qed.
Lemma soften_mt b : soften (match mt_try_from_orig b with Err _ => Panic 32 | r => r end) = mt_try_from b.
Proof.
  unfold mt_try_from_orig, mt_try_from. destruct (7 <? b) eqn:E.
  - replace (mt_of_small b) with (@None dhcp_mt) by (symmetry; apply mt_of_small_none; lia). reflexivity.
  - destruct (mt_of_small b); reflexivity.
Qed.
Lemma soften_str33 v : soften (str_from_utf8_orig 33 v) = str_from_utf8 v.
Proof. unfold str_from_utf8_orig, str_from_utf8. destruct (utf8_valid v); reflexivity. Qed.
Lemma soften_str34 v : soften (str_from_utf8_orig 34 v) = str_from_utf8 v.
Proof. unfold str_from_utf8_orig, str_from_utf8. destruct (utf8_valid v); reflexivity. Qed.
Lemma bind_ext {A B} (r : result A) (f g : A -> result B) : (forall x, f x = g x) -> bind r f = bind r g.
Proof. intros H. destruct r; cbn [bind]; auto. Qed.

Theorem dhcp_repair bs : soften (dhcp_from_bytes_orig bs) = dhcp_from_bytes bs.
Proof.
  unfold dhcp_from_bytes, dhcp_from_bytes_orig.
  repeat (rewrite soften_bind; rewrite ?soften_rd, ?soften_until, ?soften_mt, ?soften_str33, ?soften_str34;
          apply bind_ext; first [intros [? ?] | intros ?]).
  reflexivity.
Qed.

Lemma dhcp_orig_agrees bs :
  is_panic (dhcp_from_bytes_orig bs) = false -> dhcp_from_bytes bs = dhcp_from_bytes_orig bs.
Proof. intros H. rewrite <- dhcp_repair. destruct (dhcp_from_bytes_orig bs); try reflexivity; discriminate. Qed.

Lemma dhcp_orig_panic_now_error bs :
  is_panic (dhcp_from_bytes_orig bs) = true ->
  dhcp_from_bytes bs = Err 2 \/ dhcp_from_bytes bs = Err 3.
Proof.
  intros H. pose proof (answers_no_panic _ (dhcp_answers bs)) as T. rewrite <- (dhcp_repair bs) in T |- *.
  destruct (dhcp_from_bytes_orig bs) as [| |s|]; try discriminate. cbn [soften] in *.
  destruct ((s =? 31) || (s =? 32)); [auto|]. destruct ((s =? 33) || (s =? 34)); [auto | discriminate].
Qed.
