(* Facts about Model/IpGen.v: the availability abstraction, block / return / fetch
   specifications, panic freedom at both ends of the address space, the history
   invariant (no double allocation), and the no-ends constructor. *)
From Coq Require Import Sorted.
From Elvis Require Import Model.Base Model.IpGen Proofs.BaseFacts.
Local Open Scope Z_scope.

Definition inr (r : range) (a : Z) : Prop := rstart r <= a <= rend r.
Definition avail (g : gen) (a : Z) : Prop := exists r, In r g /\ inr r a.
Definition u32 (x : Z) : Prop := 0 <= x <= MAXIP.
Definition range_u32 (r : range) : Prop := u32 (rstart r) /\ u32 (rend r).
Definition gen_u32 (g : gen) : Prop := Forall range_u32 g.

Definition aligned (id m : Z) : Prop := id mod hostsize m = 0.
Definition net_last (n : net) : Z := net_id n + hostsize (net_bits n) - 1.
Definition in_net (n : net) (a : Z) : Prop := net_id n <= a <= net_last n.
Definition wf_net (n : net) : Prop :=
  0 <= net_bits n <= 32 /\ 0 <= net_id n /\ aligned (net_id n) (net_bits n) /\ net_last n <= MAXIP.

Lemma range_eqb_eq a b : range_eqb a b = true <-> a = b.
Proof.
  destruct a as [a1 a2], b as [b1 b2]; unfold range_eqb, rstart, rend; cbn [fst snd].
  rewrite andb_true_iff, !Z.eqb_eq. split.
  - intros [-> ->]; reflexivity.
  - intros H; inversion H; auto.
Qed.

Lemma range_eqb_neq a b : range_eqb a b = false <-> a <> b.
Proof.
  split.
  - intros H E. apply range_eqb_eq in E. congruence.
  - intros H. destruct (range_eqb a b) eqn:E; auto. apply range_eqb_eq in E. contradiction.
Qed.

Lemma In_set_insert r g x : In x (set_insert r g) <-> x = r \/ In x g.
Proof.
  assert (Hc : forall l, In x (r :: l) <-> x = r \/ In x l).
  { intros l. cbn [In]. split; intros [H|H]; auto. }
  induction g as [|y t IH]; cbn [set_insert]; [apply Hc|].
  destruct (range_ltb r y); [apply Hc|].
  destruct (range_eqb r y) eqn:E.
  - apply range_eqb_eq in E. subst y. cbn [In]. split; [auto|]. intros [H|H]; auto.
  - cbn [In]. rewrite IH. tauto.
Qed.

Lemma In_set_remove r g x : In x (set_remove r g) <-> In x g /\ x <> r.
Proof.
  unfold set_remove. rewrite filter_In, negb_true_iff, range_eqb_neq. reflexivity.
Qed.

(* strict sortedness = the BTreeSet representation invariant *)
Definition range_lt (a b : range) : Prop := range_ltb a b = true.
Definition sorted (g : gen) : Prop := StronglySorted range_lt g.

Lemma range_lt_trans a b c : range_lt a b -> range_lt b c -> range_lt a c.
Proof. unfold range_lt, range_ltb. lia. Qed.

Lemma range_trichotomy a b : range_ltb a b = false -> range_eqb a b = false -> range_lt b a.
Proof. unfold range_lt, range_ltb, range_eqb. lia. Qed.

Lemma sorted_insert r g : sorted g -> sorted (set_insert r g).
Proof.
  unfold sorted. induction 1 as [|y t Hs IH Hall]; cbn [set_insert].
  - constructor; constructor.
  - destruct (range_ltb r y) eqn:L.
    + constructor. { constructor; auto. }
      constructor; auto. eapply Forall_impl; [|exact Hall].
      intros z Hz. eapply range_lt_trans; eauto.
    + destruct (range_eqb r y) eqn:E. { constructor; auto. }
      constructor; auto.
      apply Forall_forall. intros z Hz. apply In_set_insert in Hz. destruct Hz as [->|Hz].
      * apply range_trichotomy; auto.
      * rewrite Forall_forall in Hall; auto.
Qed.

Lemma sorted_filter f g : sorted g -> sorted (filter f g).
Proof.
  unfold sorted. induction 1 as [|y t Hs IH Hall]; cbn [filter]. { constructor. }
  destruct (f y); auto. constructor; auto.
  apply Forall_forall. intros z Hz. apply filter_In in Hz. rewrite Forall_forall in Hall. apply Hall, Hz.
Qed.

Lemma add_m1 x : 0 < x <= MAXIP + 1 -> add x (-1) = Some (x - 1).
Proof. intros H. unfold add. replace (x + -1) with (x - 1) by lia.
  destruct ((0 <=? x - 1) && (x - 1 <=? MAXIP)) eqn:E; [reflexivity|lia]. Qed.
Lemma add_p1 x : -1 <= x < MAXIP -> add x 1 = Some (x + 1).
Proof. intros H. unfold add.
  destruct ((0 <=? x + 1) && (x + 1 <=? MAXIP)) eqn:E; [reflexivity|lia]. Qed.
Lemma add_p1_none x : MAXIP <= x -> add x 1 = None.
Proof. intros H. unfold add.
  destruct ((0 <=? x + 1) && (x + 1 <=? MAXIP)) eqn:E; [lia|reflexivity]. Qed.
Lemma add_m1_none x : x <= 0 -> add x (-1) = None.
Proof. intros H. unfold add.
  destruct ((0 <=? x + -1) && (x + -1 <=? MAXIP)) eqn:E; [lia|reflexivity]. Qed.

Lemma add_u32 x n s : add x n = Some s -> u32 s.
Proof.
  unfold add, u32. destruct ((0 <=? x + n) && (x + n <=? MAXIP)) eqn:E; [|discriminate].
  intros H; inversion H; subst. lia.
Qed.

(* the pieces one overlapping range leaves behind *)
Definition piece (rg av x : range) : Prop :=
  (rstart rg > 0 /\ x = (rstart av, rstart rg - 1) /\ rstart av <= rstart rg - 1) \/
  (rend rg < MAXIP /\ x = (rend rg + 1, rend av) /\ rend rg + 1 <= rend av).

Lemma In_ins_nonempty (p : range) g x :
  In x (if is_empty p then g else set_insert p g) <-> In x g \/ (x = p /\ rstart p <= rend p).
Proof.
  unfold is_empty. destruct (rend p <? rstart p) eqn:E.
  - intuition (try lia).
  - rewrite In_set_insert. intuition (try lia).
Qed.

Lemma split_one_spec rg av g : range_u32 rg ->
  exists g', split_one rg av g = Ok g' /\
    forall x, In x g' <-> (In x g /\ x <> av) \/ piece rg av x.
Proof.
  intros [[Hs1 Hs2] [He1 He2]]. unfold split_one, piece. unfold rstart, rend in *.
  destruct (fst rg >? 0) eqn:G1; destruct (snd rg <? MAXIP) eqn:G2.
  - rewrite add_m1 by lia. rewrite add_p1 by lia. cbn [bind].
    eexists; split; [reflexivity|]. intro x.
    rewrite In_ins_nonempty, In_ins_nonempty, In_set_remove. unfold rstart, rend; cbn [fst snd].
    intuition (try lia).
  - rewrite add_m1 by lia. cbn [bind].
    eexists; split; [reflexivity|]. intro x.
    rewrite In_ins_nonempty, In_set_remove. unfold rstart, rend; cbn [fst snd].
    intuition (try lia).
  - rewrite add_p1 by lia. cbn [bind].
    eexists; split; [reflexivity|]. intro x.
    rewrite In_ins_nonempty, In_set_remove. unfold rstart, rend; cbn [fst snd].
    intuition (try lia).
  - cbn [bind]. eexists; split; [reflexivity|]. intro x.
    rewrite In_set_remove. intuition (try lia).
Qed.

Lemma piece_no_overlap rg av x : piece rg av x -> overlaps x rg = false.
Proof.
  unfold piece, overlaps, rstart, rend. intros [[_ [-> _]]|[_ [-> _]]]; cbn [fst snd]; lia.
Qed.

Lemma split_all_spec rg : range_u32 rg -> forall ovl g,
  (forall av, In av ovl -> overlaps av rg = true) ->
  exists g', split_all rg ovl g = Ok g' /\
    forall x, In x g' <-> (In x g /\ ~ In x ovl) \/ (exists av, In av ovl /\ piece rg av x).
Proof.
  intros Hrg. induction ovl as [|av t IH]; intros g Hov; cbn [split_all].
  - eexists; split; [reflexivity|]. intro x. simpl. split.
    + intros H; left; auto.
    + intros [[H _]|[av [[] _]]]; auto.
  - destruct (split_one_spec rg av g Hrg) as [g1 [E1 H1]]. rewrite E1; cbn [bind].
    destruct (IH g1) as [g' [E' H']]. { intros; apply Hov; right; auto. }
    exists g'; split; [exact E'|]. intro x. rewrite H'. split.
    + intros [[Hx Hnt]|[av' [Hin Hp]]].
      * apply H1 in Hx. destruct Hx as [[Hg Hne]|Hp].
        -- left. split; auto. intros [->|Ht]; auto.
        -- right. exists av; split; [left; auto|auto].
      * right. exists av'; split; [right; auto|auto].
    + intros [[Hg Hn]|[av' [[->|Hin] Hp]]].
      * left. split.
        -- apply H1. left; split; auto. intros ->. apply Hn; left; auto.
        -- intro Ht. apply Hn; right; auto.
      * left. split. { apply H1; right; auto. }
        intro Ht. pose proof (piece_no_overlap _ _ _ Hp) as Hno.
        rewrite Hov in Hno by (right; auto). discriminate.
      * right. exists av'; auto.
Qed.

Lemma block_range_In g rg : range_u32 rg ->
  exists g', block_range g rg = Ok g' /\
    forall x, In x g' <->
      (In x g /\ contains rg x = false /\ overlaps x rg = false) \/
      (exists av, In av g /\ contains rg av = false /\ overlaps av rg = true /\ piece rg av x).
Proof.
  intros Hrg. unfold block_range.
  set (g1 := filter (fun av => negb (contains rg av)) g).
  set (ovl := filter (fun av => overlaps av rg) g1).
  destruct (split_all_spec rg Hrg ovl g1) as [g' [E H]].
  { intros av Hin. apply filter_In in Hin. tauto. }
  exists g'; split; [exact E|]. intro x. rewrite H. unfold ovl, g1. split.
  - intros [[Hg Hn]|[av [Hin Hp]]].
    + left. apply filter_In in Hg. destruct Hg as [Hg Hc]. apply negb_true_iff in Hc.
      repeat split; auto. destruct (overlaps x rg) eqn:O; auto.
      exfalso. apply Hn. apply filter_In; split; auto. apply filter_In; split; auto.
      apply negb_true_iff; auto.
    + right. exists av. apply filter_In in Hin. destruct Hin as [Hin Ho].
      apply filter_In in Hin. destruct Hin as [Hin Hc]. apply negb_true_iff in Hc. auto.
  - intros [[Hg [Hc Ho]]|[av [Hin [Hc [Ho Hp]]]]].
    + left. split.
      * apply filter_In; split; auto. apply negb_true_iff; auto.
      * intro Hf. apply filter_In in Hf. destruct Hf as [_ Hf]. congruence.
    + right. exists av. split; auto. apply filter_In; split; auto.
      apply filter_In; split; auto. apply negb_true_iff; auto.
Qed.

Lemma block_spec g rg : gen_u32 g -> range_u32 rg ->
  exists g', block_range g rg = Ok g' /\ gen_u32 g' /\
    forall a, avail g' a <-> avail g a /\ ~ inr rg a.
Proof.
  intros Hg Hrg. destruct (block_range_In g rg Hrg) as [g' [E H]].
  exists g'; split; [exact E|]. unfold gen_u32 in *. rewrite Forall_forall in Hg.
  destruct Hrg as [[Hs1 Hs2] [He1 He2]]. split.
  - apply Forall_forall. intros x Hx. apply H in Hx.
    destruct Hx as [[Hx _]|[av [Hin [_ [_ Hp]]]]]; auto.
    specialize (Hg av Hin). unfold range_u32, u32, piece, rstart, rend in *.
    destruct Hp as [[? [-> ?]]|[? [-> ?]]]; cbn [fst snd]; lia.
  - intro a. unfold avail, inr. split.
    + intros [x [Hx Ha]]. apply H in Hx. destruct Hx as [[Hx [Hc Ho]]|[av [Hin [Hc [Ho Hp]]]]].
      * split. { exists x; auto. }
        unfold overlaps, rstart, rend in *. lia.
      * unfold piece, overlaps, contains, rstart, rend in *.
        destruct Hp as [[? [-> ?]]|[? [-> ?]]]; cbn [fst snd] in Ha;
          (split; [exists av; split; [auto|lia]|lia]).
    + intros [[r [Hr Ha]] Hn]. specialize (Hg r Hr).
      unfold range_u32, u32, rstart, rend in *.
      destruct (contains rg r) eqn:Hc.
      { exfalso. apply Hn. unfold contains, rstart, rend in Hc. lia. }
      destruct (overlaps r rg) eqn:Ho.
      * assert (a < fst rg \/ snd rg < a) as [Hl|Hr'] by lia.
        -- exists (fst r, fst rg - 1). split; [|cbn [fst snd]; lia].
           apply H. right. exists r. repeat split; auto. left.
           unfold rstart, rend. repeat split; lia.
        -- exists (snd rg + 1, snd r). split; [|cbn [fst snd]; lia].
           apply H. right. exists r. repeat split; auto. right.
           unfold rstart, rend. repeat split; lia.
      * exists r. split; [|lia]. apply H. left. auto.
Qed.

Lemma return_spec g r a : avail (return_range g r) a <-> avail g a \/ inr r a.
Proof.
  unfold avail, return_range. split.
  - intros [x [Hx Ha]]. apply In_set_insert in Hx. destruct Hx as [->|Hx]; [right; auto|left; exists x; auto].
  - intros [[x [Hx Ha]]|Ha].
    + exists x; split; auto. apply In_set_insert; auto.
    + exists r; split; auto. apply In_set_insert; auto.
Qed.

Lemma return_u32 g r : gen_u32 g -> range_u32 r -> gen_u32 (return_range g r).
Proof.
  unfold gen_u32, return_range. rewrite !Forall_forall. intros Hg Hr x Hx.
  apply In_set_insert in Hx. destruct Hx as [->|Hx]; auto.
Qed.

Lemma split_one_sorted rg av g g' : sorted g -> split_one rg av g = Ok g' -> sorted g'.
Proof.
  assert (Hins : forall p h, sorted h -> sorted (if is_empty p then h else set_insert p h)).
  { intros p h H. destruct (is_empty p); [exact H | apply sorted_insert, H]. }
  intros Hs E. unfold split_one in E.
  apply bind_ok_inv in E. destruct E as (g1 & E1 & E). apply bind_ok_inv in E. destruct E as (g2 & E2 & [= <-]).
  assert (H1 : sorted g1).
  { destruct (rstart rg >? 0); [|injection E1 as <-; apply sorted_filter, Hs].
    destruct (add (rstart rg) (-1)); [|discriminate]. injection E1 as <-. apply Hins, sorted_filter, Hs. }
  destruct (rend rg <? MAXIP); [|injection E2 as <-; exact H1].
  destruct (add (rend rg) 1); [|discriminate]. injection E2 as <-. apply Hins, H1.
Qed.

Lemma split_all_sorted rg ovl : forall g g', sorted g -> split_all rg ovl g = Ok g' -> sorted g'.
Proof.
  induction ovl as [|av t IH]; intros g g' Hs E; cbn [split_all] in E; [injection E as <-; exact Hs|].
  apply bind_ok_inv in E. destruct E as (g1 & E1 & E). exact (IH g1 g' (split_one_sorted _ _ _ _ Hs E1) E).
Qed.

Lemma block_sorted g rg g' : sorted g -> block_range g rg = Ok g' -> sorted g'.
Proof. intros Hs E. exact (split_all_sorted _ _ _ _ (sorted_filter _ _ Hs) E). Qed.

Lemma hostsize_facts m : 0 <= m <= 32 ->
  1 <= hostsize m /\ exists K, 0 < K /\ MAXIP + 1 = hostsize m * K.
Proof.
  intros Hm. unfold hostsize. split.
  - assert (0 < 2 ^ (32 - m)) by (apply Z.pow_pos_nonneg; lia). lia.
  - exists (2 ^ m). split. { apply Z.pow_pos_nonneg; lia. }
    rewrite <- Z.pow_add_r by lia. replace (32 - m + m) with 32 by lia. reflexivity.
Qed.

Lemma hostsize_32 : hostsize 32 = 1.
Proof. reflexivity. Qed.

Lemma from_bitcount_range len : 0 <= len -> 0 <= from_bitcount len <= 32.
Proof. unfold from_bitcount. intros. destruct (len >? 32) eqn:E; lia. Qed.

Lemma aligned_mul S q : 0 < S -> (S * q) mod S = 0.
Proof. intros. rewrite Z.mul_comm. apply Z.mod_mul. lia. Qed.

Lemma aligned_next S ip id : 0 < S -> id mod S = 0 -> ip <= id -> ip mod S <> 0 ->
  ip - ip mod S + S <= id.
Proof.
  intros HS Hid Hle Hnz.
  pose proof (Z.div_mod ip S ltac:(lia)) as E1.
  pose proof (Z.div_mod id S ltac:(lia)) as E2.
  pose proof (Z.mod_pos_bound ip S HS) as B.
  rewrite Hid in E2.
  assert (ip / S < id / S) by nia.
  nia.
Qed.

Lemma net_new_wf ip m : u32 ip -> 0 <= m <= 32 ->
  wf_net (net_new ip m) /\ net_bits (net_new ip m) = m /\ in_net (net_new ip m) ip.
Proof.
  intros [Hi1 Hi2] Hm. destruct (hostsize_facts m Hm) as [HS [K [HK HE]]].
  unfold wf_net, in_net, net_last, aligned, net_new, net_id, net_bits; cbn [fst snd].
  set (S := hostsize m) in *.
  pose proof (Z.div_mod ip S ltac:(lia)) as E1.
  pose proof (Z.mod_pos_bound ip S ltac:(lia)) as B.
  assert (Hq : ip / S < K). { apply Z.div_lt_upper_bound; lia. }
  assert (Hq0 : 0 <= ip / S). { apply Z.div_pos; lia. }
  assert (Hid : ip - ip mod S = S * (ip / S)) by lia.
  rewrite Hid. rewrite aligned_mul by lia.
  assert (S * (ip / S) + S <= S * K) by nia.
  repeat split; try lia; try nia.
Qed.

Lemma net_new_short_wf ip len : u32 ip -> 0 <= len -> wf_net (net_new_short ip len).
Proof. intros Hi Hl. unfold net_new_short. apply net_new_wf; auto. apply from_bitcount_range; auto. Qed.

Lemma in_net_new_1 ip a : in_net (net_new_1 ip) a <-> a = ip.
Proof. unfold in_net, net_last, net_new_1, net_id, net_bits; cbn [fst snd]. rewrite hostsize_32. lia. Qed.

Lemma net_new_1_wf ip : u32 ip -> wf_net (net_new_1 ip) /\ (forall a, in_net (net_new_1 ip) a <-> a = ip).
Proof.
  intros [H1 H2]. split; [|exact (in_net_new_1 ip)].
  unfold wf_net, net_last, aligned, net_new_1, net_id, net_bits; cbn [fst snd]. rewrite hostsize_32, Z.mod_1_r. lia.
Qed.

Lemma broadcast_ok n : wf_net n -> net_broadcast n = Ok (net_last n).
Proof.
  intros [_ [_ [_ H]]]. unfold net_broadcast, net_last in *.
  destruct (net_id n + (hostsize (net_bits n) - 1) >? MAXIP) eqn:E; [lia|]. f_equal. lia.
Qed.

Lemma range_of_net_ok n : wf_net n -> range_of_net n = Ok (net_id n, net_last n).
Proof. intros H. unfold range_of_net. rewrite broadcast_ok by auto. reflexivity. Qed.

Lemma wf_net_range_u32 n : wf_net n -> range_u32 (net_id n, net_last n) /\ net_id n <= net_last n.
Proof.
  intros [Hm [H0 [_ Hl]]]. destruct (hostsize_facts _ Hm) as [HS _].
  unfold range_u32, u32, rstart, rend, net_last in *; cbn [fst snd]. lia.
Qed.

Lemma next_spec ip m : u32 ip -> 0 <= m <= 32 ->
  exists r, next ip m = Ok r /\
    match r with
    | Some n => wf_net n /\ net_bits n = m /\ ip <= net_id n /\
                (forall id', aligned id' m -> ip <= id' -> net_id n <= id')
    | None => forall id', aligned id' m -> ip <= id' -> MAXIP < id'
    end.
Proof.
  intros Hip Hm. destruct (net_new_wf ip m Hip Hm) as [Hwf [Hb Hin]].
  destruct (hostsize_facts m Hm) as [HS _].
  unfold next. destruct (net_id (net_new ip m) =? ip) eqn:E.
  - eexists; split; [reflexivity|]. split; [exact Hwf|]. split; [exact Hb|]. split; [lia|]. intros; lia.
  - rewrite broadcast_ok by auto. cbn [bind].
    assert (Hnz : ip mod hostsize m <> 0).
    { unfold net_new, net_id in E; cbn [fst] in E. lia. }
    assert (Hidv : net_id (net_new ip m) = ip - ip mod hostsize m) by reflexivity.
    assert (Hlast : net_last (net_new ip m) = ip - ip mod hostsize m + hostsize m - 1).
    { unfold net_last. rewrite Hb, Hidv. reflexivity. }
    destruct Hwf as [_ [Hge0 [Hal Hle]]].
    destruct (Z_lt_le_dec (net_last (net_new ip m)) MAXIP) as [Hlt|Hge].
    + rewrite add_p1 by (unfold in_net in Hin; destruct Hip; lia).
      eexists; split; [reflexivity|].
      assert (Hu : u32 (net_last (net_new ip m) + 1)) by (unfold u32, in_net in *; lia).
      destruct (net_new_wf _ m Hu Hm) as [Hwf' [Hb' Hin']].
      assert (Hid' : net_id (net_new (net_last (net_new ip m) + 1) m) = net_last (net_new ip m) + 1).
      { unfold net_new at 1, net_id; cbn [fst].
        assert ((net_last (net_new ip m) + 1) mod hostsize m = 0).
        { rewrite Hlast. unfold aligned in Hal. rewrite Hb, Hidv in Hal.
          replace (ip - ip mod hostsize m + hostsize m - 1 + 1) with
              ((ip - ip mod hostsize m) + 1 * hostsize m) by lia.
          rewrite Z.mod_add by lia. exact Hal. }
        lia. }
      split; [exact Hwf'|]. split; [exact Hb'|]. split.
      * rewrite Hid'. unfold in_net in Hin. lia.
      * intros id' Ha Hle'. rewrite Hid', Hlast.
        pose proof (aligned_next (hostsize m) ip id' ltac:(lia) Ha Hle' Hnz). lia.
    + rewrite add_p1_none by lia. eexists; split; [reflexivity|].
      intros id' Ha Hle'.
      pose proof (aligned_next (hostsize m) ip id' ltac:(lia) Ha Hle' Hnz). lia.
Qed.

Definition fits (av : range) (m id : Z) : Prop :=
  aligned id m /\ rstart av <= id /\ id + hostsize m - 1 <= rend av.

Lemma fetch_loop_spec g m : gen_u32 g -> 0 <= m <= 32 -> forall ranges,
  (forall av, In av ranges -> In av g) ->
  exists on g', fetch_loop ranges g m = Ok (on, g') /\
    match on with
    | Some n => wf_net n /\ net_bits n = m /\
                (exists av, In av ranges /\ rstart av <= net_id n /\ net_last n <= rend av) /\
                block_range g (net_id n, net_last n) = Ok g'
    | None => g' = g /\ forall av, In av ranges -> forall id, ~ fits av m id
    end.
Proof.
  intros Hg Hm. induction ranges as [|av t IH]; intros Hsub; cbn [fetch_loop].
  - exists None, g. split; [reflexivity|]. split; [reflexivity|]. intros av [].
  - assert (Hav : range_u32 av).
    { unfold gen_u32 in Hg. rewrite Forall_forall in Hg. apply Hg, Hsub. left; auto. }
    destruct (next_spec (rstart av) m (proj1 Hav) Hm) as [r [En Hr]]. rewrite En; cbn [bind].
    destruct (IH ltac:(intros; apply Hsub; right; auto)) as [on [g' [El Hl]]].
    (* a range that holds no aligned block passes the answer of the remaining ranges on *)
    assert (Hskip : (forall id, ~ fits av m id) ->
      match on with
      | Some n => wf_net n /\ net_bits n = m /\
                  (exists av', In av' (av :: t) /\ rstart av' <= net_id n /\ net_last n <= rend av') /\
                  block_range g (net_id n, net_last n) = Ok g'
      | None => g' = g /\ forall av', In av' (av :: t) -> forall id, ~ fits av' m id
      end).
    { intros Hno. destruct on as [n0|].
      - destruct Hl as [? [? [[av' [? ?]] ?]]]. split; [auto|]. split; [auto|]. split; [|auto].
        exists av'; split; [right; auto|auto].
      - destruct Hl as [-> Hno']. split; [reflexivity|]. intros av' [<-|Hin]; [exact Hno | apply Hno'; exact Hin]. }
    destruct r as [n|].
    + destruct Hr as [Hwf [Hb [Hge Hmin]]].
      rewrite range_of_net_ok by auto. cbn [bind].
      destruct (contains av (net_id n, net_last n)) eqn:Hc.
      * destruct (wf_net_range_u32 n Hwf) as [Hru _].
        destruct (block_spec g _ Hg Hru) as [gb [Eb _]]. rewrite Eb; cbn [bind].
        exists (Some n), gb. split; [reflexivity|].
        split; [exact Hwf|]. split; [exact Hb|]. split; [|exact Eb].
        exists av. unfold contains, rstart, rend in Hc; cbn [fst snd] in Hc.
        split; [left; auto|]. unfold rstart, rend. lia.
      * exists on, g'. split; [exact El|]. apply Hskip.
        intros id [Ha [H1 H2]]. specialize (Hmin id Ha H1).
        unfold contains, rstart, rend, net_last in *; cbn [fst snd] in Hc. rewrite Hb in Hc. lia.
    + exists on, g'. split; [exact El|]. apply Hskip.
      intros id [Ha [H1 H2]]. specialize (Hr id Ha H1).
      destruct Hav as [_ [_ Hhi]]. destruct (hostsize_facts m Hm) as [HS _]. lia.
Qed.

Lemma fetch_spec g m n g' : gen_u32 g -> 0 <= m <= 32 ->
  fetch_net g m = Ok (Some n, g') ->
  wf_net n /\ net_bits n = m /\ gen_u32 g' /\
  (forall a, in_net n a -> avail g a) /\
  (forall a, avail g' a <-> avail g a /\ ~ in_net n a).
Proof.
  intros Hg Hm E. unfold fetch_net in E.
  destruct (fetch_loop_spec g m Hg Hm g ltac:(auto)) as [on [g2 [E2 H]]].
  rewrite E2 in E. inversion E; subst on g2. clear E.
  destruct H as [Hwf [Hb [[av [Hin [H1 H2]]] Eb]]].
  destruct (wf_net_range_u32 n Hwf) as [Hru _].
  destruct (block_spec g _ Hg Hru) as [gb [Eb' [Hu Hs]]]. rewrite Eb in Eb'. inversion Eb'; subst gb.
  split; [exact Hwf|]. split; [exact Hb|]. split; [exact Hu|]. split.
  - intros a Ha. exists av. split; auto. unfold in_net, inr in *. lia.
  - intro a. exact (Hs a).
Qed.

Lemma fetch_total g m : gen_u32 g -> 0 <= m <= 32 -> exists on g', fetch_net g m = Ok (on, g').
Proof.
  intros Hg Hm. destruct (fetch_loop_spec g m Hg Hm g ltac:(auto)) as [on [g' [E _]]].
  exists on, g'. exact E.
Qed.

Lemma fetch_none_spec g m : gen_u32 g -> 0 <= m <= 32 ->
  forall g', fetch_net g m = Ok (None, g') <->
    (g' = g /\ forall av, In av g -> forall id, ~ fits av m id).
Proof.
  intros Hg Hm g'. destruct (fetch_loop_spec g m Hg Hm g ltac:(auto)) as [on [g2 [E H]]].
  unfold fetch_net. rewrite E. split.
  - intros Ei. inversion Ei; subst. exact H.
  - intros [-> Hno]. destruct on as [n|].
    + exfalso. destruct H as [Hwf [Hb [[av [Hin [H1 H2]]] _]]].
      apply (Hno av Hin (net_id n)). destruct Hwf as [_ [_ [Ha _]]].
      unfold fits, net_last in *. rewrite Hb in *. repeat split; auto; lia.
    + destruct H as [-> _]. reflexivity.
Qed.

Lemma fits_32 av id : fits av 32 id <-> inr av id.
Proof.
  unfold fits, aligned, inr. rewrite hostsize_32, Z.mod_1_r. lia.
Qed.

Lemma fetch_ip_spec g : gen_u32 g ->
  exists oa g', fetch_ip g = Ok (oa, g') /\
    match oa with
    | Some a => avail g a /\ gen_u32 g' /\ (forall b, avail g' b <-> avail g b /\ b <> a)
    | None => g' = g /\ forall a, ~ avail g a
    end.
Proof.
  intros Hg. unfold fetch_ip. change (from_bitcount 32) with 32.
  destruct (fetch_total g 32 Hg ltac:(lia)) as [on [g' E]]. rewrite E; cbn [bind fst snd].
  destruct on as [n|]; cbn [option_map].
  - exists (Some (net_id n)), g'. split; [reflexivity|].
    destruct (fetch_spec g 32 n g' Hg ltac:(lia) E) as [Hwf [Hb [Hu [Hin Hs]]]].
    assert (Hone : forall a, in_net n a <-> a = net_id n).
    { intro a. unfold in_net, net_last. rewrite Hb, hostsize_32. lia. }
    split; [apply Hin, Hone; reflexivity|]. split; [exact Hu|].
    intro b. rewrite (Hs b), (Hone b). reflexivity.
  - exists None, g'. split; [reflexivity|].
    apply (fetch_none_spec g 32 Hg ltac:(lia)) in E. destruct E as [-> Hno].
    split; auto. intros a [r [Hr Ha]]. apply (Hno r Hr a). apply fits_32; auto.
Qed.

(* the stated gap: an aligned free block spread over several stored ranges is not found *)
Lemma fetch_net_incomplete_witness :
  let g := return_range (return_range (return_range (return_range gen_none (8,8)) (9,9)) (10,10)) (11,11) in
  (forall a, 8 <= a <= 11 -> avail g a) /\ fetch_net g 30 = Ok (None, g).
Proof.
  cbv zeta. split; [|vm_compute; reflexivity].
  intros a Ha. exists (a, a). split; [|unfold inr, rstart, rend; cbn [fst snd]; lia].
  assert (a = 8 \/ a = 9 \/ a = 10 \/ a = 11) as [ -> | [ -> | [ -> | -> ] ] ] by lia; vm_compute; tauto.
Qed.

Lemma block_subnet_spec g n : gen_u32 g -> wf_net n ->
  exists g', block_subnet g n = Ok g' /\ gen_u32 g' /\ forall a, avail g' a <-> avail g a /\ ~ in_net n a.
Proof.
  intros Hg Hn. unfold block_subnet. rewrite range_of_net_ok by auto. cbn [bind].
  destruct (wf_net_range_u32 n Hn) as [Hr _].
  destruct (block_spec g _ Hg Hr) as [g' [E [Hu Hs]]]. exists g'. split; [exact E|]. split; [exact Hu|].
  intro a. exact (Hs a).
Qed.

Lemma return_subnet_spec g n : gen_u32 g -> wf_net n ->
  exists g', return_subnet g n = Ok g' /\ gen_u32 g' /\ forall a, avail g' a <-> avail g a \/ in_net n a.
Proof.
  intros Hg Hn. unfold return_subnet. rewrite range_of_net_ok by auto. cbn [bind].
  destruct (wf_net_range_u32 n Hn) as [Hr _].
  eexists. split; [reflexivity|]. split; [apply return_u32; auto|].
  intro a. exact (return_spec g _ a).
Qed.

Definition in_nets (l : list net) (a : Z) : Prop := exists n, In n l /\ in_net n a.
Definition in_onet (o : option net) (a : Z) : Prop :=
  match o with Some n => in_net n a | None => False end.
Definition nets_of (l : list (Z * Z)) : list net :=
  map (fun p => net_new (fst p) (from_bitcount (snd p))) l.

Lemma block_list_spec l : forall g, gen_u32 g -> Forall (fun p => u32 (fst p) /\ 0 <= snd p) l ->
  exists g', block_list g l = Ok g' /\ gen_u32 g' /\
    forall a, avail g' a <-> avail g a /\ ~ in_nets (nets_of l) a.
Proof.
  induction l as [|[ip len] t IH]; intros g Hg Hl; cbn [block_list].
  - exists g. split; [reflexivity|]. split; [auto|]. intro a. unfold in_nets. simpl.
    split; [intros H; split; [auto|intros [n [[] _]]]|tauto].
  - inversion Hl as [|? ? [Hi Hn] Ht]; subst. cbn [fst snd] in *.
    destruct (block_subnet_spec g (net_new ip (from_bitcount len)) Hg) as [g1 [E1 [Hu1 Hs1]]].
    { apply (net_new_short_wf ip len); auto. }
    rewrite E1; cbn [bind]. destruct (IH g1 Hu1 Ht) as [g' [E' [Hu' Hs']]].
    exists g'. split; [exact E'|]. split; [exact Hu'|]. intro a. rewrite Hs', Hs1.
    unfold in_nets, nets_of. cbn [map fst snd]. split.
    + intros [[Ha Hn1] Hn2]. split; auto. intros [n [[<-|Hin] Hina]]; [auto|]. apply Hn2. exists n; auto.
    + intros [Ha Hn']. split; [split; auto|].
      * intro Hx. apply Hn'. eexists; split; [left; reflexivity|exact Hx].
      * intros [n [Hin Hina]]. apply Hn'. exists n; split; [right; auto|auto].
Qed.

Lemma reserved_wf : Forall (fun p => u32 (fst p) /\ 0 <= snd p) reserved.
Proof. unfold reserved, u32. repeat constructor; cbn [fst snd]; vm_compute; congruence. Qed.

Lemma avail_none a : ~ avail gen_none a.
Proof. intros [r [[] _]]. Qed.

Lemma avail_new r a : avail (gen_new r) a <-> inr r a.
Proof. unfold gen_new. rewrite return_spec. pose proof (avail_none a). tauto. Qed.

Lemma gen_new_u32 r : range_u32 r -> gen_u32 (gen_new r).
Proof. intros. unfold gen_new. apply return_u32; auto. constructor. Qed.

Lemma new_sub_spec n : wf_net n ->
  exists g, new_sub n = Ok g /\ gen_u32 g /\ forall a, avail g a <-> in_net n a.
Proof.
  intros Hn. unfold new_sub. rewrite broadcast_ok by auto. cbn [bind].
  destruct (wf_net_range_u32 n Hn) as [Hr _].
  eexists. split; [reflexivity|]. split; [apply gen_new_u32; auto|]. intro a. rewrite avail_new. reflexivity.
Qed.

Lemma gen_all_spec : gen_u32 gen_all /\ forall a, avail gen_all a <-> u32 a.
Proof.
  split. { apply gen_new_u32. unfold range_u32, u32, rstart, rend, MAXIP; cbn [fst snd]. lia. }
  intro a. unfold gen_all. rewrite avail_new. reflexivity.
Qed.

Lemma no_ends_spec n : wf_net n ->
  exists g, new_sub_no_ends n = Ok g /\ gen_u32 g /\
    forall a, avail g a <-> net_id n < a < net_last n.
Proof.
  intros Hn. unfold new_sub_no_ends. rewrite broadcast_ok by auto. cbn [bind].
  eexists. split; [reflexivity|].
  destruct (wf_net_range_u32 n Hn) as [[[H1 H2] [H3 H4]] H5]. unfold rstart, rend in *; cbn [fst snd] in *.
  destruct (Z_lt_le_dec (net_id n) MAXIP) as [Hlt|Hge].
  - rewrite add_p1 by lia. destruct (Z_lt_le_dec 0 (net_last n)) as [Hp|Hz].
    + rewrite add_m1 by lia. split.
      * apply gen_new_u32. unfold range_u32, u32, rstart, rend; cbn [fst snd]. lia.
      * intro a. rewrite avail_new. unfold inr, rstart, rend; cbn [fst snd]. lia.
    + rewrite add_m1_none by lia. split; [constructor|]. intro a. pose proof (avail_none a). intuition (try lia).
  - rewrite add_p1_none by lia. split; [constructor|]. intro a. pose proof (avail_none a). intuition (try lia).
Qed.

Lemma no_ends_orig_offers_nothing n a : ~ avail (new_sub_no_ends_orig n) a.
Proof.
  unfold new_sub_no_ends_orig, add.
  destruct ((0 <=? net_id n + 1) && (net_id n + 1 <=? MAXIP)); [|apply avail_none].
  destruct ((0 <=? net_id n + -1) && (net_id n + -1 <=? MAXIP)); [|apply avail_none].
  rewrite avail_new. unfold inr, rstart, rend; cbn [fst snd]. lia.
Qed.

Lemma no_ends_orig_refuted :
  exists n a, wf_net n /\ net_id n < a < net_last n /\ ~ avail (new_sub_no_ends_orig n) a.
Proof.
  exists (net_new_short (ip4 10 0 0 0) 29), (ip4 10 0 0 1).
  split. { apply net_new_short_wf; [unfold u32; vm_compute; split; congruence|lia]. }
  split. { vm_compute. split; reflexivity. }
  apply no_ends_orig_offers_nothing.
Qed.

Lemma blocked_out_spec :
  exists g, blocked_out = Ok g /\ gen_u32 g /\
    forall a, avail g a <-> u32 a /\ ~ in_nets (nets_of reserved) a.
Proof.
  unfold blocked_out, block_reserved_ips. destruct gen_all_spec as [Hu Ha].
  destruct (block_list_spec reserved gen_all Hu reserved_wf) as [g [E [Hg Hs]]].
  exists g. split; [exact E|]. split; [exact Hg|]. intro a. rewrite Hs, Ha. reflexivity.
Qed.

Definition blocks_of (o : op) : list net :=
  match o with
  | OBlock ip len => [net_new_short ip len]
  | OBlockReserved => nets_of reserved
  | _ => []
  end.
Definition returns_of (o : op) : option net :=
  match o with
  | OReturn ip len => Some (net_new_short ip len)
  | OReturnIp ip => Some (net_new_1 ip)
  | _ => None
  end.
Definition fetched_of (r : out) : option net :=
  match r with
  | RNet (Some n) => Some n
  | RIp (Some a) => Some (net_new_1 a)
  | _ => None
  end.

Definition op_wf (o : op) : Prop :=
  match o with
  | OBlock ip len | OReturn ip len | OIsAvail ip len => u32 ip /\ 0 <= len
  | OReturnIp ip => u32 ip
  | OFetchNet len => 0 <= len
  | OFetchIp | OBlockReserved => True
  end.

(* bookkeeping of who holds what, driven only by the operations and the values handed out *)
Record ghost := { held : Z -> Prop; blocked : Z -> Prop; pool : Z -> Prop }.
Definition ghost0 (g : gen) : ghost :=
  {| held := fun _ => False; blocked := fun _ => False; pool := avail g |}.
Definition ghost_step (s : ghost) (o : op) (r : out) : ghost :=
  {| held := fun a => (held s a /\ ~ in_onet (returns_of o) a) \/ in_onet (fetched_of r) a;
     blocked := fun a => (blocked s a /\ ~ in_onet (returns_of o) a) \/ in_nets (blocks_of o) a;
     pool := fun a => pool s a \/ in_onet (returns_of o) a |}.

Fixpoint run (g : gen) (s : ghost) (ops : list op) : result (gen * ghost) :=
  match ops with
  | [] => Ok (g, s)
  | o :: t => do x <- apply_op g o; run (fst x) (ghost_step s o (snd x)) t
  end.

Definition Inv (g : gen) (s : ghost) : Prop :=
  gen_u32 g /\
  (forall a, avail g a -> ~ held s a /\ ~ blocked s a) /\
  (forall a, held s a -> pool s a) /\
  (forall a, avail g a -> pool s a) /\
  (forall a, pool s a -> avail g a \/ held s a \/ blocked s a).

Lemma in_net_dec n a : in_net n a \/ ~ in_net n a.
Proof. unfold in_net. lia. Qed.
Lemma in_onet_dec o a : in_onet o a \/ ~ in_onet o a.
Proof. destruct o; cbn [in_onet]; [apply in_net_dec|tauto]. Qed.
Lemma in_nets_dec l a : in_nets l a \/ ~ in_nets l a.
Proof.
  unfold in_nets. induction l as [|n t IH].
  - right. intros [n [[] _]].
  - destruct (in_net_dec n a) as [H|H]. { left. exists n; split; [left; auto|auto]. }
    destruct IH as [[n' [Hin Ha]]|IH]. { left. exists n'; split; [right; auto|auto]. }
    right. intros [n' [[<-|Hin] Ha]]; [auto|]. apply IH. exists n'; auto.
Qed.

Lemma in_nets_nil a : ~ in_nets [] a.
Proof. intros [n [[] _]]. Qed.

Lemma in_nets_one n a : in_nets [n] a <-> in_net n a.
Proof.
  split; [intros [n' [[<-|[]] H]]; exact H | intros H; exists n; split; [left; reflexivity | exact H]].
Qed.

Lemma apply_op_spec g o : gen_u32 g -> op_wf o ->
  exists g' r, apply_op g o = Ok (g', r) /\ gen_u32 g' /\
    (forall a, in_onet (fetched_of r) a -> avail g a) /\
    (forall a, avail g' a <->
       (avail g a /\ ~ in_nets (blocks_of o) a /\ ~ in_onet (fetched_of r) a) \/ in_onet (returns_of o) a) /\
    (returns_of o <> None -> fetched_of r = None /\ blocks_of o = []).
Proof.
  intros Hg Ho. destruct o as [ip len| |len|ip len|ip|ip len|]; cbn [apply_op op_wf] in *.
  - destruct Ho as [Hi Hl].
    destruct (block_subnet_spec g _ Hg (net_new_short_wf ip len Hi Hl)) as [g' [E [Hu Hs]]].
    rewrite E; cbn [bind]. exists g', RUnit. split; [reflexivity|]. split; [exact Hu|].
    cbn [fetched_of returns_of blocks_of in_onet]. split; [tauto|]. split; [|congruence].
    intro a. rewrite Hs, in_nets_one. tauto.
  - destruct (fetch_ip_spec g Hg) as [oa [g' [E H]]]. rewrite E; cbn [bind fst snd].
    exists g', (RIp oa). split; [reflexivity|]. destruct oa as [a0|]; cbn [fetched_of returns_of blocks_of in_onet].
    + destruct H as [Ha0 [Hu Hs]]. split; [exact Hu|]. split.
      { intros a Ha. apply in_net_new_1 in Ha. subst; auto. }
      split; [|congruence]. intro a. pose proof (in_nets_nil a). rewrite Hs, in_net_new_1. tauto.
    + destruct H as [-> Hno]. split; [exact Hg|]. split; [tauto|]. split; [|congruence].
      intro a. pose proof (in_nets_nil a). tauto.
  - pose proof (from_bitcount_range len Ho) as Hm.
    destruct (fetch_total g _ Hg Hm) as [on [g' E]]. rewrite E; cbn [bind fst snd].
    exists g', (RNet on). split; [reflexivity|]. destruct on as [n|]; cbn [fetched_of returns_of blocks_of in_onet].
    + destruct (fetch_spec g _ n g' Hg Hm E) as [Hwf [Hb [Hu [Hin Hs]]]].
      split; [exact Hu|]. split; [exact Hin|]. split; [|congruence].
      intro a. pose proof (in_nets_nil a). rewrite Hs. tauto.
    + apply (fetch_none_spec g _ Hg Hm) in E. destruct E as [-> _].
      split; [exact Hg|]. split; [tauto|]. split; [|congruence].
      intro a. pose proof (in_nets_nil a). tauto.
  - destruct Ho as [Hi Hl].
    destruct (return_subnet_spec g _ Hg (net_new_short_wf ip len Hi Hl)) as [g' [E [Hu Hs]]].
    rewrite E; cbn [bind]. exists g', RUnit. split; [reflexivity|]. split; [exact Hu|].
    cbn [fetched_of returns_of blocks_of in_onet]. split; [tauto|]. split; [|auto].
    intro a. pose proof (in_nets_nil a). rewrite Hs. tauto.
  - unfold return_ip. destruct (return_subnet_spec g _ Hg (proj1 (net_new_1_wf ip Ho))) as [g' [E [Hu Hs]]].
    rewrite E; cbn [bind]. exists g', RUnit. split; [reflexivity|]. split; [exact Hu|].
    cbn [fetched_of returns_of blocks_of in_onet]. split; [tauto|]. split; [|auto].
    intro a. pose proof (in_nets_nil a). rewrite Hs. tauto.
  - destruct Ho as [Hi Hl]. unfold is_available.
    rewrite range_of_net_ok by (apply net_new_short_wf; auto). cbn [bind].
    eexists g, _. split; [reflexivity|]. split; [exact Hg|].
    cbn [fetched_of returns_of blocks_of in_onet]. split; [tauto|]. split; [|congruence].
    intro a. pose proof (in_nets_nil a). tauto.
  - unfold block_reserved_ips.
    destruct (block_list_spec reserved g Hg reserved_wf) as [g' [E [Hu Hs]]].
    rewrite E; cbn [bind]. exists g', RUnit. split; [reflexivity|]. split; [exact Hu|].
    cbn [fetched_of returns_of blocks_of in_onet]. split; [tauto|]. split; [|congruence].
    intro a. rewrite Hs. tauto.
Qed.

Lemma Inv_init g : gen_u32 g -> Inv g (ghost0 g).
Proof. intros Hg. unfold Inv, ghost0; cbn [held blocked pool]. split; [exact Hg|]. split; [tauto|]. split; [tauto|]. split; [tauto|]. intros a Ha; left; exact Ha. Qed.

Lemma Inv_step g s o g' r : Inv g s -> op_wf o -> apply_op g o = Ok (g', r) -> Inv g' (ghost_step s o r).
Proof.
  intros [Hg [I1 [I2 [I3 I4]]]] Ho E.
  destruct (apply_op_spec g o Hg Ho) as [g2 [r2 [E2 [Hu [Hf [Hs Hx]]]]]].
  rewrite E in E2. inversion E2; subst g2 r2. clear E2.
  unfold Inv, ghost_step; cbn [held blocked pool].
  split; [exact Hu|]. split; [|split; [|split]].
  - intros a Ha. apply Hs in Ha. destruct Ha as [[Ha [Hnb Hnf]]|Hr].
    + destruct (I1 a Ha). tauto.
    + assert (Hne : returns_of o <> None) by (destruct (returns_of o); [congruence|destruct Hr]).
      destruct (Hx Hne) as [Ef Eb]. rewrite Ef, Eb. cbn [in_onet]. unfold in_nets.
      split; intros [[_ Hn]|Hn]; try tauto. destruct Hn as [n [[] _]].
  - intros a [[Hh _]|Hfa]; [left; auto|]. left. apply I3. auto.
  - intros a Ha. apply Hs in Ha. destruct Ha as [[Ha _]|Hr]; [left; auto|right; auto].
  - intros a [Hp|Hr]; [|left; apply Hs; right; auto].
    destruct (in_onet_dec (returns_of o) a) as [Hr|Hnr]; [left; apply Hs; right; auto|].
    destruct (I4 a Hp) as [Ha|[Hh|Hb]].
    + destruct (in_nets_dec (blocks_of o) a) as [Hb|Hnb]; [right; right; right; auto|].
      destruct (in_onet_dec (fetched_of r) a) as [Hfa|Hnf]; [right; left; right; auto|].
      left. apply Hs. left. auto.
    + right; left; left; auto.
    + right; right; left; auto.
Qed.

Lemma run_inv ops : forall g s, Inv g s -> Forall op_wf ops ->
  exists g' s', run g s ops = Ok (g', s') /\ Inv g' s'.
Proof.
  induction ops as [|o t IH]; intros g s HI Hw; cbn [run].
  - exists g, s. auto.
  - inversion Hw as [|? ? Ho Ht]; subst.
    destruct (apply_op_spec g o (proj1 HI) Ho) as [g1 [r1 [E1 _]]].
    rewrite E1; cbn [bind fst snd]. apply IH; auto. eapply Inv_step; eauto.
Qed.

Lemma no_double g0 ops : gen_u32 g0 -> Forall op_wf ops ->
  exists g s, run g0 (ghost0 g0) ops = Ok (g, s) /\ Inv g s /\
    forall o, op_wf o ->
      exists g' r, apply_op g o = Ok (g', r) /\
        (forall a, in_onet (fetched_of r) a -> pool s a /\ ~ held s a /\ ~ blocked s a) /\
        (forall a, in_onet (returns_of o) a -> avail g' a) /\
        (r = RIp None -> forall a, ~ avail g a).
Proof.
  intros Hg Hw. destruct (run_inv ops g0 (ghost0 g0) (Inv_init g0 Hg) Hw) as [g [s [E HI]]].
  exists g, s. split; [exact E|]. split; [exact HI|]. intros o Ho.
  destruct (apply_op_spec g o (proj1 HI) Ho) as [g' [r [E' [_ [Hf [Hs _]]]]]].
  exists g', r. split; [exact E'|]. split.
  { intros a Ha. destruct HI as [_ [I1 [_ [I3 _]]]]. destruct (I1 a (Hf a Ha)). auto. }
  split; [intros a Ha; apply Hs; right; exact Ha|].
  intros ->. destruct o; cbn [apply_op] in E';
    try (match type of E' with bind ?x _ = _ => destruct x; cbn [bind] in E'; discriminate || (inversion E') end; fail).
  destruct (fetch_ip_spec g (proj1 HI)) as [oa [g2 [E2 H2]]]. rewrite E2 in E'. cbn [bind fst snd] in E'.
  inversion E'; subst. destruct H2 as [_ H2]. exact H2.
Qed.

Lemma block_subnet_sorted g n g' : sorted g -> block_subnet g n = Ok g' -> sorted g'.
Proof. intros Hs E. apply bind_ok_inv in E. destruct E as (r & _ & E). exact (block_sorted g r g' Hs E). Qed.

Lemma return_subnet_sorted g n g' : sorted g -> return_subnet g n = Ok g' -> sorted g'.
Proof. intros Hs E. apply bind_ok_inv in E. destruct E as (r & _ & [= <-]). apply sorted_insert, Hs. Qed.

Lemma fetch_loop_sorted m ranges : forall g on g', sorted g -> fetch_loop ranges g m = Ok (on, g') -> sorted g'.
Proof.
  induction ranges as [|av t IH]; intros g on g' Hs E; cbn [fetch_loop] in E; [injection E as _ <-; exact Hs|].
  apply bind_ok_inv in E. destruct E as ([n|] & _ & E); [|exact (IH _ _ _ Hs E)].
  apply bind_ok_inv in E. destruct E as (rn & _ & E). destruct (contains av rn); [|exact (IH _ _ _ Hs E)].
  apply bind_ok_inv in E. destruct E as (gb & Eb & [= _ <-]). exact (block_sorted _ _ _ Hs Eb).
Qed.

Lemma block_list_sorted l : forall g g', sorted g -> block_list g l = Ok g' -> sorted g'.
Proof.
  induction l as [|[ip len] t IH]; intros g g' Hs E; cbn [block_list] in E; [injection E as <-; exact Hs|].
  apply bind_ok_inv in E. destruct E as (g1 & E1 & E). exact (IH g1 g' (block_subnet_sorted _ _ _ Hs E1) E).
Qed.

Lemma apply_op_sorted g o g' r : sorted g -> apply_op g o = Ok (g', r) -> sorted g'.
Proof.
  intros Hs E. destruct o; cbn [apply_op] in E; apply bind_ok_inv in E; destruct E as (x & E1 & [= <- _]).
  - exact (block_subnet_sorted _ _ _ Hs E1).
  - apply bind_ok_inv in E1. destruct E1 as ([on h] & E1 & [= <-]). exact (fetch_loop_sorted _ _ _ _ _ Hs E1).
  - destruct x as [on h]. exact (fetch_loop_sorted _ _ _ _ _ Hs E1).
  - exact (return_subnet_sorted _ _ _ Hs E1).
  - exact (return_subnet_sorted _ _ _ Hs E1).
  - exact Hs.
  - exact (block_list_sorted _ _ _ Hs E1).
Qed.

Definition ctor_wf (k : ctor) : Prop :=
  match k with
  | KNew s e => u32 s /\ u32 e
  | KSub ip len | KNoEnds ip len | KNoEndsOrig ip len => u32 ip /\ 0 <= len
  | KAll | KNone | KBlockedOut => True
  end.

Lemma build_ok k : ctor_wf k -> exists g0, build k = Ok g0 /\ gen_u32 g0.
Proof.
  destruct k as [s e|ip len|ip len|ip len| | |]; cbn [ctor_wf build].
  - intros [Hs He]. eexists; split; [reflexivity|]. apply gen_new_u32. split; auto.
  - intros [Hi Hl]. destruct (new_sub_spec _ (net_new_short_wf ip len Hi Hl)) as [g [E [Hu _]]]. eauto.
  - intros [Hi Hl]. destruct (no_ends_spec _ (net_new_short_wf ip len Hi Hl)) as [g [E [Hu _]]]. eauto.
  - intros _. eexists; split; [reflexivity|]. unfold new_sub_no_ends_orig.
    destruct (add (net_id (net_new_short ip len)) 1) eqn:E1; [|constructor].
    destruct (add (net_id (net_new_short ip len)) (-1)) eqn:E2; [|constructor].
    apply gen_new_u32. split; [eapply add_u32; eauto|eapply add_u32; eauto].
  - intros _. eexists; split; [reflexivity|]. apply gen_all_spec.
  - intros _. eexists; split; [reflexivity|]. constructor.
  - intros _. destruct blocked_out_spec as [g [E [Hu _]]]. eauto.
Qed.

Example wf_example : wf_net (net_new_short (ip4 10 0 0 0) 29) /\ gen_u32 (gen_new (0, MAXIP)) /\
  op_wf (OBlock 0 0) /\ op_wf (OReturn MAXIP 32) /\ ctor_wf (KNoEnds (ip4 10 0 0 0) 29).
Proof.
  split. { apply net_new_short_wf; [unfold u32; vm_compute; split; congruence|lia]. }
  split. { apply gen_all_spec. }
  unfold op_wf, ctor_wf, u32. vm_compute. intuition congruence.
Qed.
