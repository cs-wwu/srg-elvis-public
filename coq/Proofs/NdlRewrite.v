(* NDL parser model: the global rewrites of core_parser (CR removal, four spaces ->
   tab); what they return is clean; what they do on the renderings of a description. *)
From Elvis Require Import Model.Base Model.Ndl Proofs.NdlFacts Proofs.NdlRound.
Local Open Scope N_scope.

Lemma remove_cr_app a b : remove_cr (a ++ b) = remove_cr a ++ remove_cr b.
Proof.
  induction a as [|c a IH]; cbn [app remove_cr]; [reflexivity|].
  destruct (c =? c_cr); rewrite IH; reflexivity.
Qed.

Lemma remove_cr_id a : ~ In c_cr a -> remove_cr a = a.
Proof.
  induction a as [|c a IH]; intros H; cbn [remove_cr]; [reflexivity|].
  destruct (c =? c_cr) eqn:E.
  - apply N.eqb_eq in E. subst. exfalso. apply H. left. reflexivity.
  - rewrite IH; [reflexivity|]. intros Hi. apply H. right. exact Hi.
Qed.

(* CRLF line ends are invisible to the parser: for EVERY text *)
Lemma remove_cr_crlf t : remove_cr (crlf t) = remove_cr t.
Proof.
  induction t as [|c t IH]; cbn [crlf remove_cr]; [reflexivity|].
  destruct (c =? c_nl) eqn:E.
  - apply N.eqb_eq in E. subst c. cbn [remove_cr]. change (c_cr =? c_cr) with true.
    change (c_nl =? c_cr) with false. cbn iota. rewrite IH. reflexivity.
  - cbn [remove_cr]. destruct (c =? c_cr); rewrite IH; reflexivity.
Qed.

Lemma rewrite_crlf t : rewrite (crlf t) = rewrite t.
Proof. unfold rewrite. rewrite remove_cr_crlf. reflexivity. Qed.

Lemma sp4_nonspace c r : c <> c_sp -> sp4 (c :: r) = c :: sp4 r.
Proof.
  intros H. apply N.eqb_neq in H. cbn [sp4].
  destruct r as [|c2 [|c3 [|c4 r4]]]; try reflexivity. rewrite H. reflexivity.
Qed.

Lemma sp4_space_few r : (count_leading c_sp r < 3)%nat -> sp4 (c_sp :: r) = c_sp :: sp4 r.
Proof.
  intros H. cbn [sp4]. destruct r as [|c2 [|c3 [|c4 r4]]]; try reflexivity.
  change (c_sp =? c_sp) with true. cbn [andb count_leading] in *.
  destruct (c2 =? c_sp); [|reflexivity]. destruct (c3 =? c_sp); [|reflexivity].
  destruct (c4 =? c_sp); [lia|reflexivity].
Qed.

(* [norun4 k s]: no run of four spaces in s, s being preceded by k spaces *)
Lemma norun4_count s : forall k, norun4 k s = true -> (count_leading c_sp s <= 3 - k)%nat.
Proof.
  induction s as [|c s IH]; intros k H; cbn [norun4 count_leading] in *; [lia|].
  destruct (c =? c_sp); [|lia]. apply andb_prop in H. destruct H as [Hk H].
  apply Nat.ltb_lt in Hk. apply IH in H. lia.
Qed.

Lemma count_leading_app_other p a c b : c <> p -> count_leading p (a ++ c :: b) = count_leading p a.
Proof.
  intros Hc. apply N.eqb_neq in Hc. induction a as [|x a IH]; cbn [app count_leading].
  - rewrite Hc. reflexivity.
  - destruct (x =? p); [rewrite IH|]; reflexivity.
Qed.

Lemma sp4_norun_app a : forall k c b, norun4 k a = true -> c <> c_sp ->
  sp4 (a ++ c :: b) = a ++ c :: sp4 b.
Proof.
  induction a as [|x a IH]; intros k c b Hn Hc.
  - cbn [app]. apply sp4_nonspace. exact Hc.
  - cbn [app]. cbn [norun4] in Hn. destruct (x =? c_sp) eqn:Ex.
    + apply N.eqb_eq in Ex. subst x. apply andb_prop in Hn. destruct Hn as [_ Hn].
      rewrite sp4_space_few, (IH (S k) c b Hn Hc); [reflexivity|].
      rewrite count_leading_app_other by exact Hc. apply norun4_count in Hn. lia.
    + apply N.eqb_neq in Ex. rewrite sp4_nonspace by exact Ex.
      rewrite (IH 0%nat c b Hn Hc). reflexivity.
Qed.

Lemma sp4_spaces4 n c r : c <> c_sp -> sp4 (spaces4 n ++ c :: r) = tabs n ++ sp4 (c :: r).
Proof.
  intros Hc. unfold spaces4, tabs. induction n as [|n IH]; [reflexivity|].
  replace (4 * S n)%nat with (S (S (S (S (4 * n))))) by lia. cbn [repeat app].
  cbn [sp4]. change (c_sp =? c_sp) with true. cbn [andb]. rewrite IH. reflexivity.
Qed.

(* the separator character resets the run counter *)
Lemma norun4_app a : forall k c b, norun4 k a = true -> c <> c_sp -> norun4 0 b = true ->
  norun4 k (a ++ c :: b) = true.
Proof.
  induction a as [|x a IH]; intros k c b Ha Hc Hb.
  - cbn [app norun4]. apply N.eqb_neq in Hc. rewrite Hc. exact Hb.
  - cbn [app norun4] in *. destruct (x =? c_sp).
    + apply andb_prop in Ha. destruct Ha as [Hk Ha]. rewrite Hk. cbn [andb]. apply IH; assumption.
    + apply IH; assumption.
Qed.

Lemma norun4_mono s : forall k1 k2, (k1 <= k2)%nat -> norun4 k2 s = true -> norun4 k1 s = true.
Proof.
  induction s as [|c s IH]; intros k1 k2 Hk H; [reflexivity|]. cbn [norun4] in *.
  destruct (c =? c_sp).
  - apply andb_prop in H. destruct H as [H1 H2]. apply Nat.ltb_lt in H1.
    replace (Nat.ltb k1 3) with true by (symmetry; apply Nat.ltb_lt; lia). cbn [andb].
    apply (IH (S k1) (S k2)); [lia|exact H2].
  - exact H.
Qed.

Lemma norun4_app_l a : forall k b, norun4 k (a ++ b) = true -> norun4 k a = true.
Proof.
  induction a as [|x a IH]; intros k b H; [reflexivity|]. cbn [app norun4] in *.
  destruct (x =? c_sp).
  - apply andb_prop in H. destruct H as [H1 H2]. rewrite H1. cbn [andb]. exact (IH _ _ H2).
  - exact (IH _ _ H).
Qed.

Lemma norun4_app_r a : forall k b, norun4 k (a ++ b) = true -> norun4 0 b = true.
Proof.
  induction a as [|x a IH]; intros k b H.
  - cbn [app] in H. apply (norun4_mono b 0%nat k); [lia|exact H].
  - cbn [app norun4] in H. destruct (x =? c_sp).
    + apply andb_prop in H. destruct H as [_ H2]. exact (IH _ _ H2).
    + exact (IH _ _ H).
Qed.

Lemma norun4_tabs n k : norun4 k (tabs n) = true.
Proof. revert k. unfold tabs. induction n as [|n IH]; intros k; cbn [repeat norun4]; [reflexivity|].
  change (c_tab =? c_sp) with false. cbn iota. apply IH. Qed.

Lemma remove_cr_no_cr s : ~ In c_cr (remove_cr s).
Proof.
  induction s as [|c s IH]; cbn [remove_cr]; [intros []|].
  destruct (c =? c_cr) eqn:E; [exact IH|]. intros [H|H]; [|exact (IH H)].
  subst c. rewrite N.eqb_refl in E. discriminate.
Qed.

Lemma sp4_unfold c1 r1 :
  sp4 (c1 :: r1) =
  match r1 with
  | c2 :: c3 :: c4 :: r4 =>
    if (c1 =? c_sp) && (c2 =? c_sp) && (c3 =? c_sp) && (c4 =? c_sp) then c_tab :: sp4 r4 else c1 :: sp4 r1
  | _ => c1 :: sp4 r1
  end.
Proof. reflexivity. Qed.

Lemma sp4_in x : forall n s, (length s <= n)%nat -> In x (sp4 s) -> x = c_tab \/ In x s.
Proof.
  induction n as [|n IH]; intros s Hl H.
  - destruct s; [destruct H|cbn in Hl; lia].
  - destruct s as [|c1 r1]; [destruct H|]. rewrite sp4_unfold in H. cbn [length] in Hl.
    assert (K : In x (c1 :: sp4 r1) -> x = c_tab \/ In x (c1 :: r1)).
    { intros [Hx|Hx]; [right; left; exact Hx|].
      destruct (IH r1 ltac:(lia) Hx) as [Ht|Hi]; [left; exact Ht|right; right; exact Hi]. }
    destruct r1 as [|c2 [|c3 [|c4 r4]]]; try exact (K H).
    destruct ((c1 =? c_sp) && (c2 =? c_sp) && (c3 =? c_sp) && (c4 =? c_sp)); [|exact (K H)].
    destruct H as [Hx|Hx]; [left; symmetry; exact Hx|].
    cbn [length] in Hl. destruct (IH r4 ltac:(lia) Hx) as [Ht|Hi]; [left; exact Ht|].
    right. right. right. right. right. exact Hi.
Qed.

Lemma sp4_norun : forall n s k, (length s <= n)%nat ->
  (4 <= count_leading c_sp s \/ k + count_leading c_sp s <= 3)%nat -> norun4 k (sp4 s) = true.
Proof.
  induction n as [|n IH]; intros s k Hl Hk.
  - destruct s; [reflexivity|cbn in Hl; lia].
  - destruct s as [|c1 r1]; [reflexivity|]. cbn [length] in Hl.
    destruct (c1 =? c_sp) eqn:E1.
    + apply N.eqb_eq in E1. subst c1. cbn [count_leading] in Hk.
      change (c_sp =? c_sp) with true in Hk. cbn iota in Hk.
      destruct (Nat.le_gt_cases 3 (count_leading c_sp r1)) as [Hge|Hlt].
      * (* at least four spaces: a tab *)
        destruct r1 as [|c2 r2]; [cbn in Hge; lia|]. cbn [count_leading] in Hge.
        destruct (c2 =? c_sp) eqn:E2; [|lia].
        destruct r2 as [|c3 r3]; [cbn in Hge; lia|]. cbn [count_leading] in Hge.
        destruct (c3 =? c_sp) eqn:E3; [|lia].
        destruct r3 as [|c4 r4]; [cbn in Hge; lia|]. cbn [count_leading] in Hge.
        destruct (c4 =? c_sp) eqn:E4; [|lia].
        rewrite sp4_unfold. change (c_sp =? c_sp) with true. rewrite E2, E3, E4. cbn [andb].
        cbn [norun4]. change (c_tab =? c_sp) with false. cbn iota.
        cbn [length] in Hl. apply IH; [lia|]. lia.
      * (* fewer: the space stays *)
        rewrite sp4_space_few by exact Hlt.
        cbn [norun4]. change (c_sp =? c_sp) with true. cbn iota.
        replace (Nat.ltb k 3) with true by (symmetry; apply Nat.ltb_lt; lia). cbn [andb].
        apply IH; [lia|]. right. lia.
    + assert (Hne : c1 <> c_sp) by (apply N.eqb_neq; exact E1).
      rewrite sp4_nonspace by exact Hne. cbn [norun4]. rewrite E1. apply IH; [lia|]. lia.
Qed.

Lemma rewrite_clean txt : clean (rewrite txt).
Proof.
  unfold rewrite. split.
  - intros H. apply (sp4_in c_cr _ _ (Nat.le_refl _)) in H. destruct H as [H|H]; [discriminate H|].
    exact (remove_cr_no_cr _ H).
  - apply (sp4_norun _ _ 0%nat (Nat.le_refl _)). lia.
Qed.

Definition cargs (a : params) : Prop := Forall carg a /\ Forall parg a.

Lemma norun4_key k : head_not_ws k -> norun4 0 k = true -> norun4 1 k = true.
Proof.
  destruct k as [|c k]; [reflexivity|]. cbn [head_not_ws norun4]. intros Hw.
  destruct (c =? c_sp) eqn:E; [|auto].
  apply N.eqb_eq in E. subst c. discriminate Hw.
Qed.

Lemma render_args_norun a tail : cargs a -> norun4 0 tail = true ->
  norun4 0 (render_args a ++ c_rbr :: tail) = true.
Proof.
  intros [Hc Hp]. revert Hp. induction Hc as [|[k v] a [Hk Hv] Ha IH]; intros Hp Ht.
  - cbn [render_args flat_map app norun4]. exact Ht.
  - inversion Hp as [|? ? [(_ & _ & Hws) _] Hp']. subst.
    unfold render_args. cbn [flat_map]. fold (render_args a). rewrite <- app_assoc.
    rewrite render_arg_app. cbn [norun4]. change (c_sp =? c_sp) with true. cbn [Nat.ltb Nat.leb andb].
    cbn [fst snd] in *. destruct Hk as [_ Hk]. destruct Hv as [_ Hv].
    apply norun4_app; [apply norun4_key; assumption|discriminate|].
    cbn [norun4]. change (c_quote =? c_sp) with false. cbn iota.
    apply norun4_app; [exact Hv|discriminate|]. exact (IH Hp' Ht).
Qed.

Lemma render_sec_norun d a tail : cargs a -> norun4 0 tail = true ->
  norun4 0 (render_sec d a ++ c_nl :: tail) = true.
Proof.
  intros Ha Ht. unfold render_sec. cbn [app]. cbn [norun4]. change (c_lbr =? c_sp) with false. cbn iota.
  rewrite <- app_assoc. rewrite <- app_assoc. cbn [app].
  assert (H : norun4 0 (render_args a ++ c_rbr :: c_nl :: tail) = true).
  { apply render_args_norun; [exact Ha|]. cbn [norun4]. change (c_nl =? c_sp) with false. exact Ht. }
  destruct d; cbn; exact H.
Qed.

Lemma render_args_no_cr a : Forall carg a -> ~ In c_cr (render_args a).
Proof.
  intros H. apply render_args_notin; try discriminate. eapply Forall_impl; [|exact H].
  intros kv [[Hk _] [Hv _]]. split; assumption.
Qed.

Lemma render_sec_no_cr d a : Forall carg a -> ~ In c_cr (render_sec d a).
Proof.
  intros Ha. unfold render_sec. change (~ In c_cr ([c_lbr] ++ render_name d ++ render_args a ++ [c_rbr])).
  repeat apply not_in_app; [|destruct d| |]; try (apply notin_forallb; reflexivity).
  exact (render_args_no_cr a Ha).
Qed.

(* a line body: "[...]" text that is clean *)
Definition cbody (b : text) : Prop :=
  ~ In c_cr b /\ (forall tail, norun4 0 tail = true -> norun4 0 (b ++ c_nl :: tail) = true) /\
  (exists r, b = c_lbr :: r).

Lemma cbody_sec d a : cargs a -> cbody (render_sec d a).
Proof.
  intros Ha. split; [apply render_sec_no_cr; exact (proj1 Ha)|]. split.
  - intros tail Ht. apply render_sec_norun; assumption.
  - unfold render_sec. eauto.
Qed.

Lemma repeat_no_cr c n : c <> c_cr -> ~ In c_cr (repeat c n).
Proof. intros Hc H. apply repeat_spec in H. exact (Hc (eq_sym H)). Qed.

Lemma render_lines_no_cr ind l : (forall n, ~ In c_cr (ind n)) -> Forall (fun nb => cbody (snd nb)) l ->
  ~ In c_cr (render_lines ind l).
Proof.
  intros Hi. induction 1 as [|[n b] l (Hb & _) Hl IH]; [intros []|].
  unfold render_lines. cbn [flat_map fst snd]. fold (render_lines ind l).
  apply not_in_app; [|exact IH]. apply not_in_app; [apply Hi|].
  apply not_in_app; [exact Hb|]. intros [H|[]]. discriminate H.
Qed.

Lemma render_lines_norun l : Forall (fun nb => cbody (snd nb)) l ->
  norun4 0 (render_lines tabs l) = true.
Proof.
  induction 1 as [|[n b] l (_ & Hb & (r & Hr)) Hl IH]; [reflexivity|].
  unfold render_lines. cbn [flat_map fst snd]. fold (render_lines tabs l).
  cbn [snd] in Hr, Hb. repeat rewrite <- app_assoc. cbn [app]. subst b. cbn [app].
  apply norun4_app; [apply norun4_tabs|discriminate|].
  specialize (Hb _ IH). cbn [app norun4] in Hb. exact Hb.
Qed.

Lemma norun4_sp4 t : forall k, norun4 k t = true -> sp4 t = t.
Proof.
  induction t as [|c t IH]; intros k H; [reflexivity|]. cbn [norun4] in H.
  destruct (c =? c_sp) eqn:E.
  - apply N.eqb_eq in E. subst c. apply andb_prop in H. destruct H as [_ H].
    rewrite sp4_space_few, (IH _ H); [reflexivity|]. apply norun4_count in H. lia.
  - apply N.eqb_neq in E. rewrite sp4_nonspace by exact E. rewrite (IH _ H). reflexivity.
Qed.

Lemma sp4_render_lines4 l : Forall (fun nb => cbody (snd nb)) l ->
  sp4 (render_lines spaces4 l) = render_lines tabs l.
Proof.
  induction 1 as [|[n b] l (_ & Hb & (r & Hr)) Hl IH]; [reflexivity|].
  unfold render_lines. cbn [flat_map fst snd].
  fold (render_lines spaces4 l). fold (render_lines tabs l).
  cbn [snd] in Hr, Hb. repeat rewrite <- app_assoc. cbn [app]. subst b. cbn [app].
  rewrite sp4_spaces4 by discriminate. f_equal.
  specialize (Hb [] eq_refl). cbn [app norun4] in Hb.
  change (c_lbr =? c_sp) with false in Hb. cbn iota in Hb.
  rewrite sp4_nonspace by discriminate. f_equal.
  apply norun4_app_l in Hb.
  rewrite (sp4_norun_app r 0%nat c_nl _ Hb) by discriminate. rewrite IH. reflexivity.
Qed.

Lemma render_lines_app ind a b : render_lines ind (a ++ b) = render_lines ind a ++ render_lines ind b.
Proof. unfold render_lines. apply flat_map_app. Qed.

Lemma render_lines_cons n d a l :
  render_lines tabs ((n, render_sec d a) :: l) = render_line n d a ++ render_lines tabs l.
Proof. unfold render_lines, render_line. cbn [flat_map fst snd]. repeat rewrite <- app_assoc. reflexivity. Qed.

Lemma render_items_lines n l : flat_map (render_item n) l = render_lines tabs (item_lines n l).
Proof.
  induction l as [|i l IH]; [reflexivity|]. cbn [flat_map item_lines map].
  rewrite render_lines_cons, IH. reflexivity.
Qed.

Lemma render_networks_lines l :
  flat_map render_network l = render_lines tabs (flat_map network_lines l).
Proof.
  induction l as [|kn l IH]; [reflexivity|]. cbn [flat_map]. rewrite render_lines_app, <- IH.
  unfold network_lines. rewrite render_lines_cons, <- render_items_lines. reflexivity.
Qed.

Lemma render_machines_lines l :
  flat_map render_machine l = render_lines tabs (flat_map machine_lines l).
Proof.
  induction l as [|m l IH]; [reflexivity|]. cbn [flat_map]. rewrite render_lines_app, <- IH.
  unfold render_machine, machine_lines.
  repeat (rewrite ?render_lines_cons, ?render_lines_app). repeat rewrite <- render_items_lines.
  repeat rewrite <- app_assoc. reflexivity.
Qed.

Lemma render_as_lines s : render s = render_lines tabs (lines_of s).
Proof.
  unfold render, lines_of. repeat (rewrite ?render_lines_cons, ?render_lines_app).
  rewrite <- render_networks_lines, <- render_machines_lines. reflexivity.
Qed.

Definition citem (i : item) : Prop := cargs (it_opts i).
Definition cnetwork (kn : text * network) : Prop :=
  cargs (net_opts (snd kn)) /\ Forall citem (net_ips (snd kn)).
Definition cmachine (m : machine) : Prop :=
  cargs (m_opts m) /\ Forall citem (m_nets m) /\ Forall citem (m_protos m) /\ Forall citem (m_apps m).
Definition csim (s : sim) : Prop := Forall cnetwork (s_networks s) /\ Forall cmachine (s_machines s).

Lemma cargs_nil : cargs [].
Proof. split; constructor. Qed.

Lemma item_lines_clean n l : Forall citem l -> Forall (fun nb => cbody (snd nb)) (item_lines n l).
Proof.
  induction 1 as [|i l Hi Hl IH]; [constructor|]. cbn [item_lines map]. constructor; [|exact IH].
  cbn [snd]. apply cbody_sec. exact Hi.
Qed.

Lemma lines_of_clean s : csim s -> Forall (fun nb => cbody (snd nb)) (lines_of s).
Proof.
  intros [Hn Hm]. unfold lines_of. constructor; [apply cbody_sec, cargs_nil|].
  apply Forall_app. split.
  - induction Hn as [|kn l [Ha Hi] Hl IH]; [constructor|]. cbn [flat_map]. apply Forall_app. split; [|exact IH].
    unfold network_lines. constructor; [apply cbody_sec; exact Ha|apply item_lines_clean; exact Hi].
  - constructor; [apply cbody_sec, cargs_nil|].
    induction Hm as [|m l (Ha & H1 & H2 & H3) Hl IH]; [constructor|]. cbn [flat_map]. apply Forall_app.
    split; [|exact IH]. unfold machine_lines.
    constructor; [apply cbody_sec; exact Ha|].
    constructor; [apply cbody_sec, cargs_nil|]. apply Forall_app. split; [apply item_lines_clean; exact H1|].
    constructor; [apply cbody_sec, cargs_nil|]. apply Forall_app. split; [apply item_lines_clean; exact H2|].
    constructor; [apply cbody_sec, cargs_nil|]. apply item_lines_clean; exact H3.
Qed.

Lemma rewrite_render s : csim s -> rewrite (render s) = render s.
Proof.
  intros Hc. pose proof (lines_of_clean s Hc) as Hl. rewrite render_as_lines. unfold rewrite.
  rewrite remove_cr_id by (apply render_lines_no_cr; [intros n; apply repeat_no_cr; discriminate|exact Hl]).
  apply (norun4_sp4 _ 0%nat). apply render_lines_norun. exact Hl.
Qed.

Lemma rewrite_render4 s : csim s -> rewrite (render4 s) = render s.
Proof.
  intros Hc. pose proof (lines_of_clean s Hc) as Hl. rewrite render_as_lines. unfold rewrite, render4.
  rewrite remove_cr_id by (apply render_lines_no_cr; [intros n; apply repeat_no_cr; discriminate|exact Hl]).
  apply sp4_render_lines4. exact Hl.
Qed.
