(* C01 liveness: a flight of data segments, both ends.  The receiver takes a flight in order and
   answers each segment; the sender's retransmission queue shrinks by whole segments as the ACKs
   arrive; the half-round in which the ACKs travel restores quiescence. *)
From Elvis Require Import Model.Base Model.U32 Model.Tcb Model.TcpNet Proofs.U32Facts Proofs.TcbSafetyBase
  Proofs.TcbSafetySnd Proofs.TcbSafetySys Proofs.TcbLive Proofs.TcbLiveSys Proofs.TcbLiveWin Proofs.TcbHeap
  Proofs.TcbLiveMid.
From Coq Require Import Permutation.
Local Open Scope Z_scope.

Definition recv_step (t : tcb) (s : segment) : tcb :=
  let t1 := set_rcv_nxt (set_in_segs t []) (wadd (rcv_nxt t) (zlen (s_text s))) in
  let t2 := set_in_text t1 (in_text t ++ s_text s) in
  set_oneshot t2 (oneshot t ++ [ack_hdr t2]).
Definition recv_flight (t : tcb) (segs : list segment) : tcb := fold_left recv_step segs t.

(* fields that the arrival of data does not touch *)
Definition same_core (t t' : tcb) : Prop :=
  lport t' = lport t /\ rport t' = rport t /\ mtu t' = mtu t /\ st t' = st t /\
  snd_una t' = snd_una t /\ snd_nxt t' = snd_nxt t /\ snd_wnd t' = snd_wnd t /\ rcv_wnd t' = rcv_wnd t /\
  out_text t' = out_text t /\ retx t' = retx t /\ fin_pending t' = fin_pending t /\
  rto t' = rto t /\ time_wait t' = time_wait t.

Lemma same_core_refl t : same_core t t.
Proof. unfold same_core. auto 20. Qed.
Lemma same_core_trans a b c : same_core a b -> same_core b c -> same_core a c.
Proof. unfold same_core. intuition congruence. Qed.

Lemma recv_step_core t s : same_core t (recv_step t s).
Proof. unfold same_core, recv_step. tcb_simpl. auto 20. Qed.

(* the acknowledgment that answers segment s: ACK = end of s *)
Definition ackfor (b : Z) (s : segment) (h : header) : Prop :=
  ack_only h /\ h_seq h = b /\ h_wnd h = 65535 /\
  h_ack h = wadd (h_seq (s_hdr s)) (zlen (s_text s)).
Definition dupack (b R : Z) (h : header) : Prop :=
  ack_only h /\ h_seq h = b /\ h_wnd h = 65535 /\ h_ack h = R.

Lemma recv_flight_facts lp rp ackv : forall segs t,
  flight lp rp ackv (rcv_nxt t) segs -> rcv_wnd t = 65535 -> u32 (rcv_nxt t) ->
  let t' := recv_flight t segs in
  same_core t t' /\ rcv_nxt t' = wadd (rcv_nxt t) (flight_len segs) /\
  in_text t' = in_text t ++ flight_bytes segs /\
  (in_segs t = [] -> in_segs t' = []) /\
  exists acks, oneshot t' = oneshot t ++ acks /\ Forall2 (ackfor (snd_nxt t)) segs acks.
Proof.
  induction segs as [|s r IH]; intros t F Hw Hu; cbn [recv_flight fold_left].
  - splits; auto using same_core_refl.
    + change (flight_len []) with 0. symmetry. apply wadd_0_u32, Hu.
    + unfold flight_bytes. cbn. now rewrite app_nil_r.
    + exists []. rewrite app_nil_r. split; [reflexivity|constructor].
  - destruct F as (Fh & Fl & Fr).
    set (t1 := recv_step t s).
    assert (Hr1 : rcv_nxt t1 = wadd (rcv_nxt t) (zlen (s_text s))) by reflexivity.
    destruct (IH t1) as (C & Rn & It & Is & acks & Os & Fa).
    + rewrite Hr1. exact Fr.
    + exact Hw.
    + rewrite Hr1. apply wadd_u32.
    + fold (recv_flight t1 r) in *. splits.
      * eapply same_core_trans; [apply recv_step_core|exact C].
      * rewrite Rn, Hr1, wadd_wadd, flight_len_cons. reflexivity.
      * rewrite It. subst t1. unfold recv_step; tcb_simpl. unfold flight_bytes. cbn [map concat].
        now rewrite app_assoc.
      * intros _. apply Is. reflexivity.
      * eexists. split.
        -- rewrite Os. subst t1. unfold recv_step; tcb_simpl. rewrite <- app_assoc. reflexivity.
        -- cbn [app]. constructor; [|exact Fa].
           unfold ackfor. split; [apply ack_hdr_ack_only|].
           unfold ack_hdr; tcb_simpl. cbn. rewrite Fh, Hw. cbn. auto.
Qed.

Lemma feed_inorder lp rp ackv : forall segs ty,
  st ty = Established -> in_segs ty = [] -> rcv_wnd ty = 65535 -> u32 (rcv_nxt ty) ->
  flight lp rp ackv (rcv_nxt ty) segs -> mod_leq ackv (snd_una ty) = true ->
  zlen (in_text ty) + flight_len segs <= 65535 ->
  feed ty segs = Some (Live (recv_flight ty segs)).
Proof.
  induction segs as [|[h text] r IH]; intros ty Est Hs Hw Hu F Hleq Hroom; [reflexivity|].
  destruct F as (Fh & Fl & Fr). cbn [s_hdr s_text] in *.
  rewrite flight_len_cons in Hroom. cbn [s_text] in Hroom. pose proof (flight_len_nonneg r).
  rewrite (feed_cons ty _ (recv_step ty (mkSeg h text))).
  - change (recv_flight ty (mkSeg h text :: r)) with (recv_flight (recv_step ty (mkSeg h text)) r).
    apply IH; try assumption; try reflexivity.
    + apply wadd_u32.
    + unfold recv_step; tcb_simpl. rewrite zlen_app. lia.
  - destruct (arrives_fill_gen lp rp ackv ty (mkSeg h text) [] [] []) as (H' & Ea & _ & Hp); try assumption.
    + apply heap_ordered_nil.
    + constructor.
    + cbn [flight s_hdr s_text]. auto.
    + rewrite flight_len_cons. change (flight_len []) with 0. cbn [s_text]. lia.
    + constructor.
    + apply Permutation_nil in Hp. subst H'. exact Ea.
Qed.

(* u = SND.UNA, R = SND.NXT, b = RCV.NXT; segs = what is still in the retransmission queue *)
Definition sending (t : tcb) (u R b : Z) (segs : list segment) (ot : list Z) : Prop :=
  st t = Established /\ snd_una t = u /\ snd_nxt t = R /\ rcv_nxt t = b /\
  snd_wnd t = 65535 /\ rcv_wnd t = 65535 /\ out_text t = ot /\ oneshot t = [] /\
  retx t = map (fun s => mkTx s false) segs /\
  fin_pending t = false /\ in_segs t = [] /\ in_text t = [] /\ rto t = RTO /\ time_wait t = None /\
  u32 u /\ u32 b /\ 100 <= mtu t <= 65535 /\
  (exists lp rp ackv, flight lp rp ackv u segs) /\ wadd u (flight_len segs) = R /\ flight_len segs <= 65535.

Lemma sending_writer t R b ot : sending t R R b [] ot -> writer t R b ot.
Proof.
  intros (A1 & A2 & A3 & A4 & A5 & A6 & A7 & A8 & A9 & A10 & A11 & A12 & A13 & A14 & A15 & A16 & A17 & _).
  unfold writer. cbn [map] in A9. splits; auto; lia.
Qed.

(* ACKs whose values are segment boundaries of the outstanding flight, in non-decreasing order:
   each removes a (possibly empty) prefix [pre] of what is still queued *)
Inductive ack_chain (b : Z) : Z -> list segment -> list header -> Z -> list segment -> Prop :=
| ac_nil u segs : ack_chain b u segs [] u segs
| ac_cons u pre suf h hs u1 u' rest :
    ack_only h -> h_seq h = b -> h_wnd h = 65535 -> h_ack h = u1 -> u1 = wadd u (flight_len pre) ->
    ack_chain b u1 suf hs u' rest -> ack_chain b u (pre ++ suf) (h :: hs) u' rest.

Lemma ack_chain_app b u segs a1 u1 s1 a2 u2 s2 :
  ack_chain b u segs a1 u1 s1 -> ack_chain b u1 s1 a2 u2 s2 -> ack_chain b u segs (a1 ++ a2) u2 s2.
Proof. induction 1; intros Hc; cbn [app]; [exact Hc|]. econstructor; eauto. Qed.

Lemma ack_chain_ackfor b lp rp ackv suf : forall pre acks u, u32 u ->
  Forall2 (ackfor b) pre acks -> flight lp rp ackv u pre ->
  ack_chain b u (pre ++ suf) acks (wadd u (flight_len pre)) suf.
Proof.
  intros pre acks u Hu H. revert u Hu. induction H as [|s h r hs (Hh & Hs & Hw & Ha) _ IH]; intros u Hu F.
  - change (flight_len []) with 0. rewrite (wadd_0_u32 u Hu). constructor.
  - destruct F as (Fh & Fl & Fr). rewrite Fh in Ha. cbn [data_hdr hb_wnd hb_ack h_seq] in Ha.
    change ((s :: r) ++ suf) with ([s] ++ (r ++ suf)).
    assert (E1 : flight_len [s] = zlen (s_text s)) by (rewrite flight_len_cons; change (flight_len []) with 0; lia).
    econstructor; try eassumption; [now rewrite E1|].
    rewrite flight_len_cons, <- wadd_wadd. apply IH; [apply wadd_u32|exact Fr].
Qed.

Lemma ack_chain_dup b u segs : u32 u -> forall acks, Forall (dupack b u) acks -> ack_chain b u segs acks u segs.
Proof.
  intros Hu. induction 1 as [|h hs (Hh & Hs & Hw & Ha) _ IH]; [constructor|].
  apply (ac_cons b u [] segs h hs u); auto. change (flight_len []) with 0. symmetry. apply wadd_0_u32, Hu.
Qed.

Lemma ack_boundary tz u R b pre suf ot h :
  sending tz u R b (pre ++ suf) ot -> ack_only h -> h_seq h = b -> h_wnd h = 65535 ->
  h_ack h = wadd u (flight_len pre) ->
  exists tz', segment_arrives tz (mkSeg h []) = Ok (tz', AOk) /\
    sending tz' (wadd u (flight_len pre)) R b suf ot /\ mtu tz' = mtu tz.
Proof.
  intros HS Hh Hhs Hhw Hha.
  pose proof HS as (A1 & A2 & A3 & A4 & A5 & A6 & A7 & A8 & A9 & A10 & A11 & A12 & A13 & A14 & A15 & A16 & A17 & (lp & rp & ackv & F) & A19 & A20).
  destruct pre as [|p0 pre'].
  - change (flight_len []) with 0 in *. rewrite (wadd_0_u32 u A15) in *. cbn [app] in *.
    exists (set_in_segs tz []). split; [|split; [|reflexivity]].
    + apply ack_noop_arrives; try assumption.
      * now rewrite A1.
      * rewrite A4. exact A16.
      * congruence.
      * rewrite Hha, A2. apply mod_leq_refl.
    + assert (A18 : exists lp rp ackv, flight lp rp ackv u suf) by eauto.
      unfold sending in *. tcb_simpl. splits; auto; lia.
  - assert (Hne : p0 :: pre' <> []) by discriminate. set (pre := p0 :: pre') in *.
    destruct (flight_split lp rp ackv pre suf u A15 F) as [Fp Fs].
    destruct (ack_prefix_segs lp rp ackv tz h pre suf) as (w1 & w2 & Ea); try assumption;
      try (rewrite ?A2, ?A3, ?A4; assumption); try congruence.
    rewrite A2 in Ea. set (tz1 := set_snd_window _ _ _ _) in Ea.
    exists tz1. split; [exact Ea|]. split; [|reflexivity].
    unfold sending. subst tz1. tcb_simpl. rewrite flight_len_app in *.
    pose proof (flight_len_nonneg pre). pose proof (flight_len_nonneg suf).
    splits; auto; try apply wadd_u32; try lia.
    + exists lp, rp, ackv. exact Fs.
    + rewrite wadd_wadd. exact A19.
Qed.

Lemma feed_acks b R ot acks : forall tz u segs u' rest,
  sending tz u R b segs ot -> ack_chain b u segs acks u' rest ->
  exists tz', feed tz (map (fun h => mkSeg h []) acks) = Some (Live tz') /\
    sending tz' u' R b rest ot /\ mtu tz' = mtu tz.
Proof.
  intros tz u segs u' rest HS HC. revert tz HS.
  induction HC as [|u pre suf h hs u1 u' rest Hh Hs Hw Ha Hu1 _ IH]; intros tz HS.
  - exists tz. auto.
  - rewrite Hu1 in Ha. destruct (ack_boundary tz u R b pre suf ot h HS Hh Hs Hw Ha) as (tz1 & Ea & HS1 & M1).
    rewrite <- Hu1 in HS1.
    destruct (IH tz1 HS1) as (tz' & Ef & HS' & M'). exists tz'.
    cbn [map]. rewrite (feed_cons _ _ _ _ Ea). splits; auto; congruence.
Qed.

(* the receiver has taken everything up to R and owes the ACKs; the sender still has [segs] queued from u *)
Definition acking (t : tcb) (b u R : Z) (segs : list segment) : Prop :=
  st t = Established /\ snd_una t = b /\ snd_nxt t = b /\ rcv_nxt t = R /\
  snd_wnd t = 65535 /\ rcv_wnd t = 65535 /\ out_text t = [] /\ retx t = [] /\
  ack_chain b u segs (oneshot t) R [] /\
  fin_pending t = false /\ in_segs t = [] /\ in_text t = [] /\ rto t = RTO /\ time_wait t = None /\
  u32 b /\ u32 R /\ 100 <= mtu t <= 65535.

Lemma acking_of ty t' b r0 u R segs :
  quiet ty b r0 -> same_core ty t' -> rcv_nxt t' = R -> u32 R -> in_segs t' = [] ->
  ack_chain b u segs (oneshot t') R [] -> acking (set_in_text t' []) b u R segs.
Proof.
  intros (Q1 & Q2 & Q3 & Q4 & Q5 & Q6 & Q7 & Q8 & Q9 & Q10 & Q11 & Q12 & Q13 & Q14 & Q15 & Q16 & Q17)
    (_ & _ & Cm & Cst & Cun & Cnx & Csw & Crw & Cot & Crx & Cfp & Crto & Ctw) HR Hu Hs HC.
  unfold acking. tcb_simpl. splits; try congruence; try lia.
Qed.

(* what the sender emits while a flight is outstanding and nothing is left to segmentize: after
   the timeout, the flight again *)
Lemma flush2_sending t u R b segs : sending t u R b segs [] ->
  exists t', flush2 t = Some (t', segs) /\ sending t' u R b segs [] /\ mtu t' = mtu t.
Proof.
  intros HS.
  pose proof HS as (A1 & A2 & A3 & A4 & A5 & A6 & A7 & A8 & A9 & A10 & A11 & A12 & A13 & A14 & A15 & A16 & A17 & A18 & A19 & A20).
  eexists. split; [|split].
  - rewrite flush2_idle; try assumption; try lia; [|intros tw E; congruence]. unfold flushed, flush_out.
    rewrite A8, A9, A14, filter_needs_false, map_tseg_mk, reflag_map. cbn [map app option_map]. reflexivity.
  - unfold sending. tcb_simpl. splits; try assumption; try reflexivity; lia.
  - reflexivity.
Qed.

Lemma half_send_flight c s x tx ty a b r0 R segs ot tx' out t' bytes :
  end_of s x = ELive tx -> end_of s (other x) = ELive ty -> net_of s (other x) = [] -> panicked s = false ->
  quiet ty b r0 -> flush2 tx = Some (tx', out) -> sending tx' a R b segs ot -> mtu tx' = mtu tx ->
  feed ty (net_of s x ++ out) = Some (Live t') ->
  same_core ty t' -> rcv_nxt t' = R -> u32 R -> in_segs t' = [] -> in_text t' = bytes ->
  ack_chain b a segs (oneshot t') R [] ->
  let s' := fair_half c s x in
  exists tx2 ty2, end_of s' x = ELive tx2 /\ end_of s' (other x) = ELive ty2 /\
    net_of s' x = [] /\ net_of s' (other x) = [] /\ panicked s' = false /\
    (forall y, sub_of s' y = sub_of s y) /\ del_of s' x = del_of s x /\
    del_of s' (other x) = del_of s (other x) ++ chunk bytes /\
    sending tx2 a R b segs ot /\ acking ty2 b a R segs /\ mtu tx2 = mtu tx /\ mtu ty2 = mtu ty.
Proof.
  intros Ex Ey Ny Pn Qy Hfl HS Mx Hfeed Hc HR Hu Hs Hit HC s'.
  destruct (fair_half_live c s x tx ty tx' out (Live t') Ex Ey Hfl Hfeed)
    as (E1 & E2 & E3 & E4 & E5 & E6 & E7 & E8).
  fold s' in E1, E2, E3, E4, E5, E6, E7, E8. cbn [fed_end fed_tcb] in *.
  assert (Hitx : in_text tx' = []) by apply HS.
  rewrite Hitx, app_nil_r in E7. rewrite Hit in E8.
  exists (set_in_text tx' []), (set_in_text t' []). splits; try assumption; try congruence.
  - destruct HS as (B1 & B2 & B3 & B4 & B5 & B6 & B7 & B8 & B9 & B10 & B11 & B12 & B13 & B14 & B15 & B16 & B17 & B18 & B19 & B20).
    unfold sending. tcb_simpl. splits; auto; lia.
  - eapply acking_of; eassumption.
  - destruct Hc as (_ & _ & Cm & _). exact Cm.
Qed.

Lemma half_ack c s y ty tz u b R segs ot :
  end_of s y = ELive ty -> end_of s (other y) = ELive tz ->
  net_of s y = [] -> net_of s (other y) = [] -> panicked s = false ->
  acking ty b u R segs -> sending tz u R b segs ot ->
  let s' := fair_half c s y in
  exists ty' tz', end_of s' y = ELive ty' /\ end_of s' (other y) = ELive tz' /\
    net_of s' y = [] /\ net_of s' (other y) = [] /\ panicked s' = false /\
    (forall x, sub_of s' x = sub_of s x) /\ (forall x, del_of s' x = del_of s x) /\
    quiet ty' b R /\ writer tz' R b ot /\ mtu ty' = mtu ty /\ mtu tz' = mtu tz.
Proof.
  intros Ey Ez Ny Nz Pn
    (A1 & A2 & A3 & A4 & A5 & A6 & A7 & A8 & HC & A10 & A11 & A12 & A13 & A14 & A15 & A16 & A17) HS s'.
  destruct (feed_acks b R ot (oneshot ty) tz u segs R [] HS HC) as (tz' & Hfeed & HS' & M').
  pose proof (flush2_idle ty A7 A10 ltac:(lia) A13 ltac:(intros tw E; congruence)) as Hfl.
  unfold flushed, flush_out in Hfl.
  rewrite A8, A14 in Hfl. cbn [map filter app option_map] in Hfl. rewrite app_nil_r in Hfl.
  set (ty1 := set_time_wait _ _) in Hfl.
  destruct (fair_half_live c s y ty tz _ _ (Live tz') Ey Ez Hfl ltac:(rewrite Ny; exact Hfeed))
    as (E1 & E2 & E3 & E4 & E5 & E6 & E7 & E8).
  fold s' in E1, E2, E3, E4, E5, E6, E7, E8. cbn [fed_end fed_tcb] in *. tcb_simpl.
  pose proof (sending_writer tz' R b ot HS') as Wz.
  assert (Hiz : in_text tz' = []) by apply Wz.
  change (in_text ty1) with (in_text ty) in E7. rewrite A12, app_nil_r in E7. rewrite Hiz, app_nil_r in E8.
  exists (set_in_text ty1 []), (set_in_text tz' []). splits; try assumption; try congruence; try reflexivity; try exact M'.
  - intros x. destruct (side_cases y x) as [-> | ->]; assumption.
  - unfold quiet. subst ty1. tcb_simpl. splits; try assumption; try reflexivity; lia.
  - destruct Wz as (Z1 & Z2 & Z3 & Z4 & Z5 & Z6 & Z7 & Z8 & Z9 & Z10 & Z11 & Z12 & Z13 & Z14 & Z15 & Z16 & Z17).
    unfold writer. tcb_simpl. splits; auto; lia.
Qed.
