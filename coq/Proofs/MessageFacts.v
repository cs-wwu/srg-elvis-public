(* C07: refinement of every Message operation to plain byte lists. *)
From Elvis Require Import Model.Base Model.Message Proofs.ListFacts.
Local Open Scope N_scope.

Lemma uadd_ok : forall a b, a + b <= USIZE_MAX -> uadd a b = Ok (a + b).
Proof. intros a b H. unfold uadd. destruct (N.leb_spec (a + b) USIZE_MAX); [reflexivity|lia]. Qed.
Lemma uadd_panic : forall a b, USIZE_MAX < a + b -> uadd a b = Panic P_ADD.
Proof. intros a b H. unfold uadd. destruct (N.leb_spec (a + b) USIZE_MAX); [lia|reflexivity]. Qed.
Lemma usub_ok : forall a b, b <= a -> usub a b = Ok (a - b).
Proof. intros a b H. unfold usub. destruct (N.leb_spec b a); [reflexivity|lia]. Qed.
Lemma usub_panic : forall a b, a < b -> usub a b = Panic P_SUB.
Proof. intros a b H. unfold usub. destruct (N.leb_spec b a); [lia|reflexivity]. Qed.

Lemma blen_app : forall a b, blen (a ++ b) = blen a + blen b.
Proof. intros. unfold blen. rewrite app_length. lia. Qed.
Lemma blen_firstn : forall k l, k <= blen l -> blen (firstn (N.to_nat k) l) = k.
Proof. intros k l H. unfold blen in *. rewrite firstn_length. lia. Qed.
Lemma blen_skipn : forall k l, blen (skipn (N.to_nat k) l) = blen l - k.
Proof. intros k l. unfold blen in *. rewrite skipn_length. lia. Qed.
Lemma to_nat_blen : forall l, N.to_nat (blen l) = length l.
Proof. intros. unfold blen. lia. Qed.

Lemma chunk_bytes_len : forall c, WFchunk c -> blen (chunk_bytes c) = c_end c - c_start c.
Proof.
  intros c (H1 & H2 & H3). unfold chunk_bytes, blen in *.
  rewrite firstn_length, skipn_length. lia.
Qed.

Lemma chunk_len_ok : forall c, WFchunk c -> chunk_len c = Ok (c_end c - c_start c).
Proof. intros c (H1 & _). unfold chunk_len. now apply usub_ok. Qed.

Lemma chunk_len_ok' : forall c, WFchunk c -> chunk_len c = Ok (blen (chunk_bytes c)).
Proof. intros c H. rewrite chunk_bytes_len by assumption. now apply chunk_len_ok. Qed.

Lemma as_slice_ok : forall c, WFchunk c -> chunk_as_slice c = Ok (chunk_bytes c).
Proof.
  intros c (H1 & H2 & H3). unfold chunk_as_slice.
  destruct (N.ltb_spec (c_end c) (c_start c)); [lia|].
  destruct (N.ltb_spec (blen (c_buf c)) (c_end c)); [lia|reflexivity].
Qed.

Lemma chunk_new_wf : forall b, is_vec b -> WFchunk (chunk_new b) /\ chunk_bytes (chunk_new b) = b.
Proof.
  intros b H. unfold WFchunk, chunk_new, chunk_bytes; cbn [c_start c_end c_buf]. split.
  - unfold is_vec in *. lia.
  - cbn [N.to_nat skipn]. rewrite N.sub_0_r, to_nat_blen. apply firstn_all.
Qed.

Lemma set_start_ok : forall c k, WFchunk c -> k <= c_end c - c_start c ->
  WFchunk (set_start c (c_start c + k)) /\
  chunk_bytes (set_start c (c_start c + k)) = skipn (N.to_nat k) (chunk_bytes c).
Proof.
  intros c k (H1 & H2 & H3) Hk. split.
  - unfold WFchunk, set_start; cbn [c_start c_end c_buf]. repeat split; try assumption; lia.
  - unfold chunk_bytes, set_start; cbn [c_start c_end c_buf].
    rewrite skipn_firstn_comm, skipn_add.
    replace (N.to_nat (c_end c - (c_start c + k))) with (N.to_nat (c_end c - c_start c) - N.to_nat k)%nat by lia.
    replace (N.to_nat (c_start c + k)) with (N.to_nat (c_start c) + N.to_nat k)%nat by lia.
    reflexivity.
Qed.

Lemma set_end_ok : forall c k, WFchunk c -> k <= c_end c - c_start c ->
  WFchunk (set_end c (c_start c + k)) /\
  chunk_bytes (set_end c (c_start c + k)) = firstn (N.to_nat k) (chunk_bytes c).
Proof.
  intros c k (H1 & H2 & H3) Hk. split.
  - unfold WFchunk, set_end; cbn [c_start c_end c_buf]. repeat split; try assumption; lia.
  - unfold chunk_bytes, set_end; cbn [c_start c_end c_buf].
    rewrite firstn_firstn.
    replace (N.to_nat (c_start c + k - c_start c)) with (Nat.min (N.to_nat k) (N.to_nat (c_end c - c_start c))) by lia.
    reflexivity.
Qed.

Notation flat := (flat_map chunk_bytes).

Lemma flat_cons : forall c cs, flat (c :: cs) = chunk_bytes c ++ flat cs.
Proof. reflexivity. Qed.

Lemma uadd_start_ok : forall c k, WFchunk c -> k <= c_end c - c_start c ->
  uadd (c_start c) k = Ok (c_start c + k).
Proof. intros c k (H1 & H2 & H3) Hk. apply uadd_ok. unfold is_vec in *. lia. Qed.

(* a cursor n into the bytes of h :: t either passes the whole of h or stops inside it *)
Lemma flat_skipn_whole : forall h t n, WFchunk h -> c_end h - c_start h <= n ->
  skipn (N.to_nat n) (flat (h :: t)) = skipn (N.to_nat (n - (c_end h - c_start h))) (flat t).
Proof.
  intros h t n Hh Hn. pose proof (chunk_bytes_len h Hh) as Hl. unfold blen in Hl.
  rewrite flat_cons, skipn_app_ge by lia. f_equal. lia.
Qed.
Lemma flat_firstn_whole : forall h t n, WFchunk h -> c_end h - c_start h <= n ->
  firstn (N.to_nat n) (flat (h :: t)) = chunk_bytes h ++ firstn (N.to_nat (n - (c_end h - c_start h))) (flat t).
Proof.
  intros h t n Hh Hn. pose proof (chunk_bytes_len h Hh) as Hl. unfold blen in Hl.
  rewrite flat_cons, firstn_app_ge by lia. f_equal. f_equal. lia.
Qed.
Lemma flat_skipn_part : forall h t n, WFchunk h -> n <= c_end h - c_start h ->
  skipn (N.to_nat n) (flat (h :: t)) = skipn (N.to_nat n) (chunk_bytes h) ++ flat t.
Proof.
  intros h t n Hh Hn. pose proof (chunk_bytes_len h Hh) as Hl. unfold blen in Hl.
  rewrite flat_cons. apply skipn_app_le. lia.
Qed.
Lemma flat_firstn_part : forall h t n, WFchunk h -> n <= c_end h - c_start h ->
  firstn (N.to_nat n) (flat (h :: t)) = firstn (N.to_nat n) (chunk_bytes h).
Proof.
  intros h t n Hh Hn. pose proof (chunk_bytes_len h Hh) as Hl. unfold blen in Hl.
  rewrite flat_cons. apply firstn_app_le. lia.
Qed.

Lemma iter_ok : forall cs, Forall WFchunk cs -> chunks_iter cs = Ok (flat cs).
Proof.
  induction cs as [|c cs IH]; intros H; [reflexivity|].
  inversion H as [|? ? Hc Hcs]; subst. cbn [chunks_iter].
  rewrite as_slice_ok by assumption. cbn [bind]. rewrite IH by assumption. reflexivity.
Qed.

Lemma bytes_eqb_spec : forall a b, bytes_eqb a b = true <-> a = b.
Proof. apply (list_eqb_spec_gen bytes_eqb N.eqb N.eqb_eq); reflexivity. Qed.

Lemma drop_leading_ok : forall cs start, Forall WFchunk cs -> start <= blen (flat cs) ->
  exists cs' s', drop_leading cs start = Ok (cs', s') /\ Forall WFchunk cs' /\
    skipn (N.to_nat s') (flat cs') = skipn (N.to_nat start) (flat cs) /\
    match cs' with [] => s' = 0 | h :: _ => s' < c_end h - c_start h end.
Proof.
  induction cs as [|h t IH]; intros start Hwf Hle.
  - exists [], start. cbn in Hle. repeat split; try assumption. cbn [drop_leading]. lia.
  - inversion Hwf as [|? ? Hh Ht]; subst. cbn [drop_leading]. rewrite chunk_len_ok by assumption.
    cbn [bind]. pose proof (chunk_bytes_len h Hh) as Hl.
    rewrite flat_cons, blen_app in Hle.
    destruct (N.leb_spec (c_end h - c_start h) start) as [Hc|Hc].
    + rewrite usub_ok by assumption. cbn [bind].
      destruct (IH (start - (c_end h - c_start h)) Ht ltac:(lia)) as (cs' & s' & E & W & B & M).
      exists cs', s'. repeat split; try assumption.
      rewrite B, flat_skipn_whole by assumption. reflexivity.
    + exists (h :: t), start. repeat split; (assumption || reflexivity).
Qed.

Lemma bump_head_ok : forall cs s, Forall WFchunk cs ->
  match cs with [] => s = 0 | h :: _ => s < c_end h - c_start h end ->
  exists cs2, bump_head cs s = Ok cs2 /\ Forall WFchunk cs2 /\ flat cs2 = skipn (N.to_nat s) (flat cs).
Proof.
  intros [|h t] s Hwf Hs.
  - exists []. subst. repeat split; try assumption.
  - inversion Hwf as [|? ? Hh Ht]; subst. cbn [bump_head].
    rewrite uadd_start_ok by (assumption || lia). cbn [bind].
    destruct (set_start_ok h s Hh ltac:(lia)) as (W & B).
    exists (set_start h (c_start h + s) :: t). repeat split.
    + now constructor.
    + rewrite flat_skipn_part by (assumption || lia). rewrite flat_cons, B. reflexivity.
Qed.

Lemma trim_tail_ok : forall cs keep, Forall WFchunk cs -> keep <= blen (flat cs) ->
  exists cs' i, trim_tail cs keep = Ok (cs', i) /\ (i <= length cs')%nat /\
    Forall WFchunk (firstn i cs') /\ flat (firstn i cs') = firstn (N.to_nat keep) (flat cs).
Proof.
  induction cs as [|c t IH]; intros keep Hwf Hle.
  - exists [], 0%nat. cbn in Hle. repeat split; try constructor.
    cbn. now rewrite firstn_nil.
  - inversion Hwf as [|? ? Hc Ht]; subst. cbn [trim_tail]. rewrite chunk_len_ok by assumption.
    cbn [bind]. pose proof (chunk_bytes_len c Hc) as Hl.
    rewrite flat_cons, blen_app in Hle.
    destruct (N.leb_spec (c_end c - c_start c) keep) as [Hk|Hk].
    + rewrite usub_ok by assumption. cbn [bind].
      destruct (IH (keep - (c_end c - c_start c)) Ht ltac:(lia)) as (t' & i & E & Li & W & B).
      rewrite E. cbn [bind]. exists (c :: t'), (S i). repeat split.
      * cbn [length]. lia.
      * cbn [firstn]. now constructor.
      * cbn [firstn]. rewrite flat_firstn_whole by assumption. rewrite flat_cons, B. reflexivity.
    + rewrite uadd_start_ok by (assumption || lia). cbn [bind].
      destruct (set_end_ok c keep Hc ltac:(lia)) as (W & B).
      exists (set_end c (c_start c + keep) :: t), 1%nat. repeat split.
      * cbn [length]. lia.
      * cbn [firstn]. constructor; [assumption|constructor].
      * cbn [firstn]. rewrite flat_firstn_part by (assumption || lia). rewrite flat_cons, B. apply app_nil_r.
Qed.

Definition opt_len (len : option N) : N := match len with Some l => l | None => 0 end.
Definition new_len (m : msg) (start : N) (len : option N) : N :=
  match len with Some l => l | None => mlen m - start end.

Lemma slice_inner_ok : forall m start len, WF m -> start + opt_len len <= mlen m ->
  exists m', msg_slice_inner m start len = Ok m' /\ WF m' /\
    bytes_of m' = firstn (N.to_nat (new_len m start len)) (skipn (N.to_nat start) (bytes_of m)).
Proof.
  intros m start len (Hc & Hl & Hm) Hr. unfold msg_slice_inner. fold (opt_len len).
  rewrite uadd_ok by lia. cbn [bind].
  destruct (N.leb_spec (start + opt_len len) (mlen m)); [|lia]. cbn [negb].
  rewrite usub_ok by lia. cbn [bind].
  assert (Hn : (match len with Some l => l | None => mlen m - start end) = new_len m start len) by reflexivity.
  rewrite Hn. set (nl := new_len m start len).
  assert (Hnl : nl <= mlen m - start) by (subst nl; unfold new_len, opt_len in *; destruct len; lia).
  destruct (drop_leading_ok (chunks m) start Hc ltac:(unfold bytes_of in Hl; lia)) as (cs1 & s1 & E1 & W1 & B1 & M1).
  rewrite E1. cbn [bind].
  destruct (bump_head_ok cs1 s1 W1 M1) as (cs2 & E2 & W2 & B2). rewrite E2. cbn [bind].
  assert (B2' : flat cs2 = skipn (N.to_nat start) (bytes_of m)) by (rewrite B2, B1; reflexivity).
  destruct (trim_tail_ok cs2 nl W2) as (cs3 & i & E3 & Li & W3 & B3).
  { rewrite B2', blen_skipn. lia. }
  rewrite E3. cbn [bind]. unfold drain_from.
  destruct (Nat.ltb_spec (length cs3) i); [lia|]. cbn [bind].
  eexists. split; [reflexivity|]. unfold WF, bytes_of; cbn [chunks mlen].
  rewrite B3, B2'. repeat split; try assumption.
  - rewrite blen_firstn; [reflexivity|]. rewrite blen_skipn. fold (bytes_of m). lia.
  - lia.
Qed.

Lemma slice_inner_panic : forall m start len, mlen m < start + opt_len len ->
  exists s, msg_slice_inner m start len = Panic s.
Proof.
  intros m start len H. unfold msg_slice_inner. fold (opt_len len).
  destruct (N.le_gt_cases (start + opt_len len) USIZE_MAX) as [Ho|Ho].
  - rewrite uadd_ok by assumption. cbn [bind].
    destruct (N.leb_spec (start + opt_len len) (mlen m)); [lia|]. cbn [negb]. now eexists.
  - rewrite uadd_panic by assumption. now eexists.
Qed.

Lemma cut_loop_ok : forall cs n, Forall WFchunk cs -> n <= blen (flat cs) ->
  exists rest front, cut_loop cs n = Ok (rest, front) /\ Forall WFchunk rest /\ Forall WFchunk front /\
    flat front = firstn (N.to_nat n) (flat cs) /\ flat rest = skipn (N.to_nat n) (flat cs).
Proof.
  induction cs as [|h t IH]; intros n Hwf Hle.
  - exists [], []. cbn in Hle. cbn [cut_loop flat_map]. rewrite firstn_nil, skipn_nil.
    repeat split; constructor.
  - inversion Hwf as [|? ? Hh Ht]; subst. cbn [cut_loop]. rewrite chunk_len_ok by assumption.
    cbn [bind]. pose proof (chunk_bytes_len h Hh) as Hl.
    rewrite flat_cons, blen_app in Hle.
    destruct (N.leb_spec (c_end h - c_start h) n) as [Hk|Hk].
    + rewrite usub_ok by assumption. cbn [bind].
      destruct (IH (n - (c_end h - c_start h)) Ht ltac:(lia)) as (rest & front & E & Wr & Wf & Bf & Br).
      rewrite E. cbn [bind]. exists rest, (h :: front). repeat split; try assumption.
      * now constructor.
      * rewrite flat_firstn_whole by assumption. rewrite flat_cons, Bf. reflexivity.
      * rewrite Br, flat_skipn_whole by assumption. reflexivity.
    + destruct (set_start_ok h n Hh ltac:(lia)) as (Ws & Bs).
      destruct (set_end_ok h n Hh ltac:(lia)) as (We & Be).
      pose proof (flat_firstn_part h t n Hh ltac:(lia)) as Hfirst.
      pose proof (flat_skipn_part h t n Hh ltac:(lia)) as Hskip.
      destruct (N.ltb_spec 0 n) as [Hz|Hz].
      * rewrite uadd_start_ok by (assumption || lia). cbn [bind].
        exists (set_start h (c_start h + n) :: t), [set_end h (c_start h + n)].
        repeat split; try (now constructor).
        -- rewrite Hfirst, flat_cons, Be. apply app_nil_r.
        -- rewrite Hskip, flat_cons, Bs. reflexivity.
      * cbn [bind]. rewrite uadd_start_ok by (assumption || lia). cbn [bind].
        exists (set_start h (c_start h + n) :: t), [].
        repeat split; try (now constructor).
        -- assert (n = 0) by lia. subst n. reflexivity.
        -- rewrite Hskip, flat_cons, Bs. reflexivity.
Qed.

(* remove_front's loop is slice's first loop followed by the bump of the head *)
Lemma remove_loop_eq : forall cs n,
  remove_loop cs n = (do p <- drop_leading cs n; bump_head (fst p) (snd p)).
Proof.
  induction cs as [|h t IH]; intros n; cbn [remove_loop drop_leading]; [reflexivity|].
  destruct (chunk_len h) as [hl| | |]; cbn [bind]; try reflexivity.
  destruct (hl <=? n); [|reflexivity].
  destruct (usub n hl); cbn [bind]; try reflexivity. apply IH.
Qed.

Lemma remove_loop_ok : forall cs n, Forall WFchunk cs -> n <= blen (flat cs) ->
  exists rest, remove_loop cs n = Ok rest /\ Forall WFchunk rest /\
    flat rest = skipn (N.to_nat n) (flat cs).
Proof.
  intros cs n W L. rewrite remove_loop_eq.
  destruct (drop_leading_ok cs n W L) as (cs' & s' & -> & W' & B & M). cbn [bind fst snd].
  destruct (bump_head_ok cs' s' W' M) as (cs2 & -> & W2 & B2).
  exists cs2. split; [reflexivity|]. split; [exact W2|]. rewrite B2. exact B.
Qed.

Lemma cut_ok : forall m n, WF m -> n <= mlen m ->
  exists rest front, msg_cut m n = Ok (rest, front) /\ WF rest /\ WF front /\
    bytes_of front = firstn (N.to_nat n) (bytes_of m) /\
    bytes_of rest = skipn (N.to_nat n) (bytes_of m).
Proof.
  intros m n (Hc & Hl & Hm) Hn. unfold msg_cut.
  destruct (N.leb_spec n (mlen m)); [|lia]. cbn [negb].
  rewrite usub_ok by assumption. cbn [bind].
  destruct (cut_loop_ok (chunks m) n Hc ltac:(unfold bytes_of in Hl; lia)) as (rest & front & E & Wr & Wf & Bf & Br).
  rewrite E. cbn [bind]. do 2 eexists. split; [reflexivity|].
  unfold WF, bytes_of; cbn [chunks mlen]. rewrite Bf, Br. fold (bytes_of m).
  repeat split; try assumption; try lia.
  - rewrite blen_skipn. lia.
  - rewrite blen_firstn; lia.
Qed.

Lemma cut_panic : forall m n, mlen m < n -> msg_cut m n = Panic P_ASSERT_CUT.
Proof. intros m n H. unfold msg_cut. destruct (N.leb_spec n (mlen m)); [lia|reflexivity]. Qed.

Lemma remove_front_ok : forall m n, WF m -> n <= mlen m ->
  exists m', msg_remove_front m n = Ok m' /\ WF m' /\ bytes_of m' = skipn (N.to_nat n) (bytes_of m).
Proof.
  intros m n (Hc & Hl & Hm) Hn. unfold msg_remove_front.
  destruct (N.leb_spec n (mlen m)); [|lia]. cbn [negb].
  rewrite usub_ok by assumption. cbn [bind].
  destruct (remove_loop_ok (chunks m) n Hc ltac:(unfold bytes_of in Hl; lia)) as (rest & E & Wr & Br).
  rewrite E. cbn [bind]. eexists. split; [reflexivity|].
  unfold WF, bytes_of; cbn [chunks mlen]. rewrite Br. fold (bytes_of m).
  repeat split; try assumption; try lia. rewrite blen_skipn. lia.
Qed.

Lemma remove_front_panic : forall m n, mlen m < n -> msg_remove_front m n = Panic P_ASSERT_RF.
Proof. intros m n H. unfold msg_remove_front. destruct (N.leb_spec n (mlen m)); [lia|reflexivity]. Qed.

Lemma default_wf : WF msg_default /\ bytes_of msg_default = [].
Proof. unfold WF, msg_default, bytes_of; cbn. repeat split; try constructor; try lia. Qed.

Lemma new_ok : forall b, is_vec b -> exists m, msg_new b = Ok m /\ WF m /\ bytes_of m = b.
Proof.
  intros b H. destruct (chunk_new_wf b H) as (W & B). unfold msg_new.
  rewrite chunk_len_ok' by assumption. cbn [bind]. eexists. split; [reflexivity|].
  unfold WF, bytes_of; cbn [chunks mlen flat_map]. rewrite app_nil_r, B.
  repeat split; try assumption. now constructor.
Qed.

Lemma header_ok : forall m b, WF m -> is_vec b -> blen b + mlen m <= USIZE_MAX ->
  exists m', msg_header m b = Ok m' /\ WF m' /\ bytes_of m' = b ++ bytes_of m.
Proof.
  intros m b (Hc & Hl & Hm) Hb Hs. destruct (chunk_new_wf b Hb) as (W & B). unfold msg_header.
  rewrite chunk_len_ok' by assumption. cbn [bind]. rewrite B.
  rewrite uadd_ok by lia. cbn [bind]. eexists. split; [reflexivity|].
  unfold WF, bytes_of; cbn [chunks mlen flat_map]. rewrite B. fold (bytes_of m).
  repeat split; try (constructor; assumption); try lia. rewrite blen_app. lia.
Qed.

Lemma header_panic : forall m b, is_vec b -> USIZE_MAX < blen b + mlen m ->
  msg_header m b = Panic P_ADD.
Proof.
  intros m b Hb Hs. destruct (chunk_new_wf b Hb) as (W & B). unfold msg_header.
  rewrite chunk_len_ok' by assumption. cbn [bind]. rewrite B. now rewrite uadd_panic by lia.
Qed.

Lemma concat_ok : forall m o, WF m -> WF o -> mlen m + mlen o <= USIZE_MAX ->
  exists m', msg_concat m o = Ok m' /\ WF m' /\ bytes_of m' = bytes_of m ++ bytes_of o.
Proof.
  intros m o (Hc & Hl & Hm) (Hc' & Hl' & Hm') Hs. unfold msg_concat.
  rewrite uadd_ok by assumption. cbn [bind]. eexists. split; [reflexivity|].
  unfold WF, bytes_of; cbn [chunks mlen]. rewrite flat_map_app. fold (bytes_of m) (bytes_of o).
  repeat split; try lia.
  - apply Forall_app; now split.
  - rewrite blen_app. lia.
Qed.

Lemma concat_panic : forall m o, USIZE_MAX < mlen m + mlen o -> msg_concat m o = Panic P_ADD.
Proof. intros m o H. unfold msg_concat. now rewrite uadd_panic by assumption. Qed.

Lemma len_ok : forall m, WF m -> msg_len m = blen (bytes_of m).
Proof. intros m (_ & H & _). exact H. Qed.

Lemma is_empty_ok : forall m, WF m -> msg_is_empty m = true <-> bytes_of m = [].
Proof.
  intros m (_ & H & _). unfold msg_is_empty, msg_len. rewrite H, N.eqb_eq. unfold blen.
  destruct (bytes_of m); cbn [length]; split; intros; (reflexivity || discriminate || lia).
Qed.

Lemma msg_iter_ok : forall m, WF m -> msg_iter m = Ok (bytes_of m).
Proof. intros m (H & _). now apply iter_ok. Qed.

Lemma msg_to_vec_ok : forall m, WF m -> msg_to_vec m = Ok (bytes_of m).
Proof. exact msg_iter_ok. Qed.

Lemma msg_eq_ok : forall m1 m2, WF m1 -> WF m2 ->
  exists b, msg_eq m1 m2 = Ok b /\ (b = true <-> bytes_of m1 = bytes_of m2).
Proof.
  intros m1 m2 H1 H2. unfold msg_eq. rewrite !msg_iter_ok by assumption. cbn [bind].
  eexists. split; [reflexivity|]. apply bytes_eqb_spec.
Qed.
