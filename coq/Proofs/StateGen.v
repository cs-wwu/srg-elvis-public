(* Gen/StateGen.v is printed by tools/translate_state.py from state.rs and from every `match self.state` of tcb.rs
   (as tables state -> arm index).  Each stage of Model/Tcb.v is restated with the arm index as selector ([*_arm])
   and proved equal to the model function: moving a state between arms in tcb.rs breaks these proofs. *)
From Elvis Require Import Model.Base Model.U32 Model.Tcb Gen.StateGen.
Local Open Scope Z_scope.

Definition to_model (s : g_State) : state :=
  match s with
  | g_State_SynSent => SynSent
  | g_State_SynReceived => SynReceived
  | g_State_Established => Established
  | g_State_FinWait1 => FinWait1
  | g_State_FinWait2 => FinWait2
  | g_State_CloseWait => CloseWait
  | g_State_Closing => Closing
  | g_State_LastAck => LastAck
  | g_State_TimeWait => TimeWait
  end.
Definition of_model (s : state) : g_State :=
  match s with
  | SynSent => g_State_SynSent
  | SynReceived => g_State_SynReceived
  | Established => g_State_Established
  | FinWait1 => g_State_FinWait1
  | FinWait2 => g_State_FinWait2
  | CloseWait => g_State_CloseWait
  | Closing => g_State_Closing
  | LastAck => g_State_LastAck
  | TimeWait => g_State_TimeWait
  end.

(* #1 l.389: the sequence check is skipped in SYN-SENT only *)
Definition seq_bad_arm (k : Z) (t : tcb) (text_len : Z) (h : header) : bool :=
  match k with
  | 0 => false
  | _ => negb (is_seq_ok t text_len (h_seq h) (c_syn (h_ctl h)) (c_fin (h_ctl h)))
  end.
Lemma gen_ps_seq_check t text_len h :
  match st t with
  | SynSent => false
  | _ => negb (is_seq_ok t text_len (h_seq h) (c_syn (h_ctl h)) (c_fin (h_ctl h)))
  end = seq_bad_arm (g_Tcb_process_segment_m1 (of_model (st t))) t text_len h.
Proof. destruct (st t); reflexivity. Qed.

(* #2 l.405: the ACK stage, seven arms *)
Definition ps_ack_arm (k : Z) (t : tcb) (h : header) : tcb * option psr :=
  match k with
  | 0 =>
    if mod_bounded (snd_nxt t) CLt (h_ack h) CLeq (snd_iss t) then
      if c_rst (h_ctl h) then (t, Some PDiscard)
      else (enqueue t (rst_hdr t (h_ack h)), Some PInvalidAck)
    else if mod_bounded (snd_una t) CLt (h_ack h) CLeq (snd_nxt t) then
      if c_syn (h_ctl h)
      then (remove_acked (set_snd_una t (h_ack h)) (h_ack h), None)
      else (t, None)
    else (enqueue t (rst_hdr t (h_ack h)), Some PInvalidAck)
  | 1 =>
    if mod_bounded (snd_una t) CLt (h_ack h) CLeq (snd_nxt t) then
      let t1 := set_snd_window (set_st t Established) (h_wnd h) (h_seq h) (h_ack h) in
      let '(t2, r) := ack_est t1 h in
      match r with PSuccess => (t2, None) | other => (t2, Some other) end
    else (enqueue t (rst_hdr t (h_ack h)), None)
  | 2 =>
    let '(t2, r) := ack_est t h in
    match r with PSuccess => (t2, None) | other => (t2, Some other) end
  | 3 =>
    let '(t2, r) := ack_est t h in
    let t3 := if is_fin_acked t2 then set_st t2 FinWait2 else t2 in
    match r with PSuccess => (t3, None) | other => (t3, Some other) end
  | 4 =>
    let '(t2, r) := ack_est t h in
    let t3 := if is_fin_acked t2 then set_time_wait (set_st t2 TimeWait) (Some MSL2) else t2 in
    match r with PSuccess => (t3, None) | other => (t3, Some other) end
  | 5 =>
    let '(t2, r) := ack_est t h in
    if is_fin_acked t2 then (t2, Some PFinalizeClose)
    else match r with PSuccess => (t2, None) | other => (t2, Some other) end
  | _ =>
    if c_fin (h_ctl h) then
      let a := hb_wnd (hb_ack (hb t (snd_nxt t)) (wadd (h_seq h) 1)) (rcv_wnd t) in
      (set_time_wait (enqueue t a) (Some MSL2), None)
    else (t, None)
  end.
Lemma gen_ps_ack t h :
  ps_ack t h =
  if negb (c_ack (h_ctl h)) then (t, None) else ps_ack_arm (g_Tcb_process_segment_m2 (of_model (st t))) t h.
Proof. unfold ps_ack. destruct (negb (c_ack (h_ctl h))); [reflexivity|]. destruct (st t); reflexivity. Qed.

(* #3 l.516: the RST stage *)
Definition ps_rst_arm (k : Z) (t : tcb) (h : header) : option psr :=
  match k with
  | 0 => if h_seq h =? rcv_nxt t then Some PConnectionReset else Some PBlindReset
  | 1 => if listen_init t then Some PReturnToListen else Some PConnectionRefused
  | 2 => Some PConnectionReset
  | _ => Some PFinalizeClose
  end.
Lemma gen_ps_rst t h :
  ps_rst t h =
  if negb (c_rst (h_ctl h)) then None else ps_rst_arm (g_Tcb_process_segment_m3 (of_model (st t))) t h.
Proof. unfold ps_rst. destruct (negb (c_rst (h_ctl h))); [reflexivity|]. destruct (st t); reflexivity. Qed.

(* #4 l.545: the SYN stage *)
Definition ps_syn_arm (k : Z) (t : tcb) (h : header) : tcb * option psr :=
  match k with
  | 0 =>
    let t1 := set_snd_window (set_rcv_nxt (set_rcv_irs t (h_seq h)) (wadd (h_seq h) 1))
                             (h_wnd h) (h_seq h) (h_ack h) in
    if mod_gt (snd_una t1) (snd_iss t1) then
      let t2 := set_st t1 Established in
      (enqueue t2 (ack_hdr t2), None)
    else
      let t2 := set_st t1 SynReceived in
      (enqueue t2 (hb_wnd (hb_ack (hb_syn (hb t2 (snd_iss t2))) (rcv_nxt t2)) (rcv_wnd t2)), Some PSuccess)
  | _ => (enqueue t (ack_hdr t), Some PDiscard)
  end.
Lemma gen_ps_syn t h :
  ps_syn t h =
  if negb (c_syn (h_ctl h)) then (t, None) else ps_syn_arm (g_Tcb_process_segment_m4 (of_model (st t))) t h.
Proof. unfold ps_syn. destruct (negb (c_syn (h_ctl h))); [reflexivity|]. destruct (st t); reflexivity. Qed.

(* #5 l.600: segment text is taken in five states, ignored in the others *)
Definition ps_text_arm (k : Z) (t : tcb) (h : header) (text : list Z) : result tcb :=
  let text_len := zlen text in
  match k with
  | 0 =>
    if negb (is_in_rcv_window t (h_seq h) || is_in_rcv_window t (wadd (h_seq h) text_len))
    then Panic 2
    else
      let already := Z.min (wsub (wsub (rcv_nxt t) (h_seq h)) (b2z (c_syn (h_ctl h)))) text_len in
      let unreceived := text_len - already in
      if rcv_wnd t <? zlen (in_text t) then Panic 3
      else
        let space := rcv_wnd t - zlen (in_text t) in
        let accept := Z.min unreceived space in
        let t1 := set_rcv_nxt t (wadd (rcv_nxt t) accept) in
        let piece := firstn (Z.to_nat accept) (skipn (Z.to_nat already) text) in
        let t2 := set_in_text t1 (in_text t1 ++ piece) in
        Ok (enqueue t2 (ack_hdr t2))
  | _ => Ok t
  end.
Lemma gen_ps_text t h text :
  ps_text t h text =
  if zlen text =? 0 then Ok t else ps_text_arm (g_Tcb_process_segment_m5 (of_model (st t))) t h text.
Proof. unfold ps_text. destruct (zlen text =? 0); [reflexivity|]. destruct (st t); reflexivity. Qed.

(* #6 l.656: the FIN stage *)
Definition ps_fin_arm (k : Z) (t1 : tcb) : tcb :=
  match k with
  | 0 => set_st t1 CloseWait
  | 1 => if is_fin_acked t1 then set_time_wait (set_st t1 TimeWait) (Some MSL2) else set_st t1 Closing
  | 2 => set_rto (set_time_wait (set_st t1 TimeWait) (Some MSL2)) RTO
  | 3 => set_time_wait t1 (Some MSL2)
  | _ => t1
  end.
Definition ps_fin_pre (t : tcb) (h : header) (text_len : Z) : tcb :=
  if state_eqb (st t) SynSent then t else
  let last := wadd (h_seq h) text_len in
  if (rcv_nxt t =? last) || (rcv_nxt t =? wadd last 1) then
    let t' := set_rcv_nxt t (wadd last 1) in enqueue t' (ack_hdr t')
  else t.
Lemma gen_ps_fin t h text_len :
  ps_fin t h text_len =
  if negb (c_fin (h_ctl h)) then t else
  let t1 := ps_fin_pre t h text_len in
  ps_fin_arm (g_Tcb_process_segment_m6 (of_model (st t1))) t1.
Proof.
  unfold ps_fin. destruct (negb (c_fin (h_ctl h))); [reflexivity|].
  fold (ps_fin_pre t h text_len). cbv zeta. destruct (st (ps_fin_pre t h text_len)); reflexivity.
Qed.
