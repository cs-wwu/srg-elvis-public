(* Specifications of the circular comparison primitives. *)
From Elvis Require Import Model.Base Model.U32.
Local Open Scope Z_scope.
Ltac Zify.zify_post_hook ::= Z.div_mod_to_equations.

Lemma wrap_spec x : wrap x = x mod M32.
Proof.
  unfold wrap, M32.
  destruct ((0 <=? x) && _) eqn:E1; [lia|].
  destruct ((4294967296 <=? x) && _) eqn:E2; [lia|].
  destruct ((- (4294967296) <=? x) && _) eqn:E3; [lia|].
  reflexivity.
Qed.
Lemma wadd_spec a b : wadd a b = (a + b) mod M32.
Proof. apply wrap_spec. Qed.
Lemma wsub_spec a b : wsub a b = (a - b) mod M32.
Proof. apply wrap_spec. Qed.
Lemma wsub_diag x : wsub x x = 0.
Proof. rewrite wsub_spec, Z.sub_diag. reflexivity. Qed.
Lemma wadd_0_u32 a : u32 a -> wadd a 0 = a.
Proof. intros H. rewrite wadd_spec, Z.add_0_r. apply Z.mod_small. exact H. Qed.

Ltac u32_unfold :=
  unfold mod_geq, mod_gt, mod_leq, mod_lt, mod_bounded in *;
  rewrite ?wadd_spec, ?wsub_spec in *;
  unfold cmp_offset, u32, M32, H31 in *.

(* mod_lt is the mathematical circular order for pairs less than 2^31 apart *)
Lemma mod_lt_spec a d : u32 a -> 0 < d < H31 ->
  mod_lt a (wadd a d) = true /\ mod_lt (wadd a d) a = false.
Proof. u32_unfold. intros Ha Hd. split; lia. Qed.

Lemma mod_lt_irrefl a : mod_lt a a = false.
Proof. u32_unfold. rewrite Z.sub_diag. reflexivity. Qed.

(* exactly 2^31 apart: neither is before the other (stated, not hidden) *)
Lemma mod_lt_antipode a : u32 a ->
  mod_lt a (wadd a H31) = false /\ mod_lt (wadd a H31) a = false.
Proof. u32_unfold. intros Ha. split; lia. Qed.

Lemma mod_lt_asym a b : u32 a -> u32 b -> mod_lt a b = true -> mod_lt b a = false.
Proof. u32_unfold. intros Ha Hb. lia. Qed.

Lemma mod_lt_total a b : u32 a -> u32 b -> a <> b -> wsub b a <> H31 ->
  mod_lt a b = true \/ mod_lt b a = true.
Proof. u32_unfold. intros Ha Hb Hn Hh. lia. Qed.

Lemma mod_leq_spec a b : mod_leq a b = ((a =? b) || mod_lt a b).
Proof. reflexivity. Qed.
Lemma mod_geq_spec a b : mod_geq a b = ((a =? b) || mod_lt b a).
Proof. reflexivity. Qed.
Lemma mod_gt_spec a b : mod_gt a b = mod_lt b a.
Proof. reflexivity. Qed.

Lemma mod_leq_dist a d : u32 a -> 0 <= d < H31 ->
  mod_leq a (wadd a d) = true /\ mod_geq (wadd a d) a = true.
Proof.
  intros Ha Hd. unfold mod_leq, mod_geq.
  destruct (Z.eq_dec d 0) as [->|Hn].
  - rewrite wadd_0_u32 by assumption. rewrite Z.eqb_refl. auto.
  - destruct (mod_lt_spec a d Ha ltac:(lia)) as [H1 _]. rewrite H1, !orb_true_r. auto.
Qed.
Lemma mod_leq_dist_neg a d : u32 a -> 0 < d < H31 ->
  mod_leq (wadd a d) a = false /\ mod_geq a (wadd a d) = false.
Proof.
  intros Ha Hd. unfold mod_leq, mod_geq.
  destruct (mod_lt_spec a d Ha Hd) as [_ H2]. rewrite H2.
  assert (E: (wadd a d =? a) = false) by (u32_unfold; lia).
  rewrite E. rewrite Z.eqb_sym in E. rewrite E. auto.
Qed.

Lemma mod_leq_geq_swap a b : mod_leq a b = mod_geq b a.
Proof. unfold mod_leq, mod_geq. rewrite (Z.eqb_sym b a). reflexivity. Qed.
Lemma mod_lt_leq a b : mod_lt a b = true -> mod_leq a b = true.
Proof. unfold mod_leq. intros ->. apply orb_true_r. Qed.
Lemma mod_leq_not_gt a b : u32 a -> u32 b -> mod_leq a b = true -> mod_gt a b = false.
Proof. unfold mod_leq, mod_gt. u32_unfold. intros Ha Hb H. lia. Qed.

(* The pre-fix formulas: equal to the fixed ones except exactly 2^31-1 apart,
   where they contradict the strict order (the defect repaired by the fix). *)
Lemma mod_leq_orig_agrees a b : u32 a -> u32 b -> wsub b a <> H31 - 1 ->
  mod_leq_orig a b = mod_leq a b.
Proof.
  unfold mod_leq_orig, mod_leq. u32_unfold. intros Ha Hb Hd.
  destruct (a =? b) eqn:E; cbn [orb].
  - lia.
  - destruct (2147483648 <? (a - b) mod 4294967296) eqn:E1; lia.
Qed.
Lemma mod_leq_orig_differs a : u32 a ->
  mod_lt a (wadd a (H31 - 1)) = true /\ mod_leq_orig a (wadd a (H31 - 1)) = false.
Proof. unfold mod_leq_orig. u32_unfold. intros Ha. split; lia. Qed.
Lemma mod_geq_orig_agrees a b : u32 a -> u32 b -> wsub a b <> H31 - 1 ->
  mod_geq_orig a b = mod_geq a b.
Proof.
  unfold mod_geq_orig, mod_geq. u32_unfold. intros Ha Hb Hd.
  destruct (a =? b) eqn:E; cbn [orb].
  - lia.
  - destruct (2147483648 <? (b - a) mod 4294967296) eqn:E1; lia.
Qed.

(* every comparison reads differences only, and a common shift cancels in a difference *)
Lemma wadd_wadd a d e : wadd (wadd a d) e = wadd a (d + e).
Proof. rewrite !wadd_spec. rewrite Zplus_mod_idemp_l. f_equal. lia. Qed.
Lemma wadd_swap a d k : wadd (wadd a d) k = wadd (wadd a k) d.
Proof. rewrite !wadd_spec, !Zplus_mod_idemp_l. f_equal. lia. Qed.
Lemma wsub_shift a b d : wsub (wadd a d) (wadd b d) = wsub a b.
Proof. rewrite !wadd_spec, !wsub_spec, Zminus_mod_idemp_l, Zminus_mod_idemp_r. f_equal. lia. Qed.
Lemma wsub_wadd_l a d k : wsub (wadd a d) k = wadd (wsub a k) d.
Proof. rewrite !wadd_spec, !wsub_spec, Zminus_mod_idemp_l, Zplus_mod_idemp_l. f_equal. lia. Qed.

Lemma wsub_wsub_r b a k : wsub b (wsub a k) = wadd (wsub b a) k.
Proof. rewrite !wsub_spec, wadd_spec, Zminus_mod_idemp_r, Zplus_mod_idemp_l. f_equal. lia. Qed.
Lemma wsub_wadd_wsub c k a j : wsub (wadd c k) (wsub a j) = wadd (wsub c a) (k + j).
Proof. rewrite !wsub_spec, !wadd_spec, Zminus_mod_idemp_l, Zminus_mod_idemp_r, Zplus_mod_idemp_l. f_equal. lia. Qed.

Lemma mod_lt_shift a b d : mod_lt (wadd a d) (wadd b d) = mod_lt a b.
Proof. unfold mod_lt. rewrite wsub_shift. reflexivity. Qed.
Lemma mod_gt_shift a b d : mod_gt (wadd a d) (wadd b d) = mod_gt a b.
Proof. apply mod_lt_shift. Qed.

Lemma eqb_shift a b d : u32 a -> u32 b -> (wadd a d =? wadd b d) = (a =? b).
Proof. u32_unfold. intros Ha Hb. lia. Qed.
Lemma mod_leq_shift a b d : u32 a -> u32 b -> mod_leq (wadd a d) (wadd b d) = mod_leq a b.
Proof. intros. unfold mod_leq. rewrite eqb_shift, mod_lt_shift by assumption. reflexivity. Qed.
Lemma mod_geq_shift a b d : u32 a -> u32 b -> mod_geq (wadd a d) (wadd b d) = mod_geq a b.
Proof. intros. unfold mod_geq. rewrite eqb_shift, mod_lt_shift by assumption. reflexivity. Qed.

Lemma wadd_u32 a b : u32 (wadd a b).
Proof. u32_unfold. lia. Qed.
Lemma wsub_u32 a b : u32 (wsub a b).
Proof. u32_unfold. lia. Qed.

(* mod_bounded is cyclic betweenness: b lies on the clockwise arc from a to c.
   off = distance from the (adjusted) lower bound to b, len = arc length. *)
Definition on_arc (a : Z) (ab : modcmp) (b : Z) (bc : modcmp) (c : Z) : bool :=
  let a' := wsub a (cmp_offset ab) in
  let c' := wadd c (cmp_offset bc) in
  (0 <? wsub b a') && (wsub b a' <? wsub c' a').

(* the offsets play no part: on three numbers in range the three disjuncts of
   mod_bounded say that b comes strictly before c on the way round from a *)
Lemma bounded_core a b c : u32 a -> u32 b -> u32 c ->
  ((a <? b) && (b <? c) && (a <? c)) || ((a <? b) && (c <? b) && (c <? a)) || ((b <? a) && (b <? c) && (c <? a))
  = (0 <? wsub b a) && (wsub b a <? wsub c a).
Proof. rewrite !wsub_spec. unfold u32, M32. intros. lia. Qed.

Lemma mod_bounded_spec a ab b bc c : u32 a -> u32 b -> u32 c ->
  mod_bounded a ab b bc c = on_arc a ab b bc c.
Proof.
  intros Ha Hb Hc. unfold mod_bounded, on_arc. cbv zeta.
  apply bounded_core; [apply wsub_u32 | exact Hb | apply wadd_u32].
Qed.

Lemma on_arc_shift a ab b bc c d :
  on_arc (wadd a d) ab (wadd b d) bc (wadd c d) = on_arc a ab b bc c.
Proof.
  unfold on_arc. cbv zeta.
  rewrite (wsub_wadd_l a d (cmp_offset ab)), (wadd_swap c d), !wsub_shift. reflexivity.
Qed.

Lemma mod_bounded_shift a ab b bc c d : u32 a -> u32 b -> u32 c ->
  mod_bounded (wadd a d) ab (wadd b d) bc (wadd c d) = mod_bounded a ab b bc c.
Proof.
  intros Ha Hb Hc.
  rewrite !mod_bounded_spec by (try assumption; apply wadd_u32).
  apply on_arc_shift.
Qed.

(* the readable form for arcs shorter than 2^31 that do not degenerate *)
Lemma mod_bounded_arc a ab b bc c : u32 a -> u32 b -> u32 c ->
  0 < wsub c a < H31 ->
  mod_bounded a ab b bc c =
    ((match ab with CLt => 0 <? wsub b a | CLeq => true end) &&
     (match bc with CLt => wsub b a <? wsub c a | CLeq => wsub b a <=? wsub c a end)).
Proof.
  intros Ha Hb Hc Hlen. rewrite mod_bounded_spec by assumption. unfold on_arc. cbv zeta.
  rewrite wsub_wsub_r, wsub_wadd_wsub.
  (* only the two distances from a matter *)
  pose proof (wsub_u32 b a) as Hx. revert Hlen Hx.
  generalize (wsub c a) (wsub b a). intros y x Hlen Hx.
  rewrite !wadd_spec. unfold u32, M32, H31 in *.
  destruct ab, bc; cbn [cmp_offset]; lia.
Qed.
