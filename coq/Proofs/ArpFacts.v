(* ARP codec: round trips and totality. *)
From Elvis Require Import Proofs.BaseFacts Model.Base Model.AppBytes Model.Arp Proofs.AppBytesFacts.
Local Open Scope Z_scope.

Lemma oper_dec_enc o :
  (if oper_u16 o =? 1 then Ok Request else if oper_u16 o =? 2 then Ok Reply else Err 2) = Ok o.
Proof. destruct o; reflexivity. Qed.

Lemma oper_range o : 0 <= oper_u16 o < 65536.
Proof. destruct o; cbn [oper_u16]; lia. Qed.

(* decode after encode, for every representable packet: MACs come back mod 2^48 *)
Lemma arp_decode_encode_repr h rest : arp_repr h = true ->
  arp_from_bytes (arp_build h ++ rest) = Ok (arp_trunc h, rest).
Proof.
  destruct h as [ht pt hl pl op sm si tm ti].
  unfold arp_repr, arp_trunc, arp_build, arp_from_bytes, next_ipv4.
  cbn [a_htype a_ptype a_hlen a_plen a_oper a_smac a_sip a_tmac a_tip].
  intros W.
  split_wf.
  rewrite <- !app_assoc.
  rewrite next_u16_be16 by lia. cbn [rd bind].
  rewrite next_u16_be16 by lia. cbn [rd bind].
  rewrite next_u8_be8 by lia. cbn [rd bind].
  rewrite next_u8_be8 by lia. cbn [rd bind].
  rewrite next_u16_be16 by apply oper_range. cbn [rd bind].
  rewrite oper_dec_enc. cbn [bind].
  rewrite next_u48_be48_mod by lia. cbn [rd bind].
  rewrite next_u32_be32 by lia. cbn [rd bind].
  rewrite next_u48_be48_mod by lia. cbn [rd bind].
  rewrite next_u32_be32 by lia. cbn [rd bind].
  reflexivity.
Qed.

Lemma arp_trunc_wf h : arp_wf h = true -> arp_trunc h = h.
Proof.
  destruct h as [ht pt hl pl op sm si tm ti]. unfold arp_wf, arp_trunc.
  cbn [a_htype a_ptype a_hlen a_plen a_oper a_smac a_sip a_tmac a_tip].
  intros W. apply andb_prop in W as [W W2]. apply andb_prop in W as [_ W1].
  apply rng_iff in W1, W2. rewrite !Z.mod_small by lia. reflexivity.
Qed.

Lemma arp_decode_encode h rest : arp_wf h = true ->
  arp_from_bytes (arp_build h ++ rest) = Ok (h, rest).
Proof.
  intros W. pose proof W as W'. unfold arp_wf in W'.
  apply andb_prop in W' as [W' _]. apply andb_prop in W' as [R _].
  rewrite (arp_decode_encode_repr h rest R), (arp_trunc_wf h W). reflexivity.
Qed.

Lemma arp_encode_decode bs h rest : bytes bs = true ->
  arp_from_bytes bs = Ok (h, rest) ->
  bs = arp_build h ++ rest /\ arp_wf h = true /\ bytes rest = true.
Proof.
  unfold arp_from_bytes, next_ipv4. intros B H.
  do 5 rd_step B H. apply bind_ok_inv in H as [o [E6 H]]. do 4 rd_step B H.
  inversion H; subst; clear H.
  assert (Eop : v3 = oper_u16 o).
  { destruct (v3 =? 1) eqn:O1; [inversion E6; subst; cbn; lia|].
    destruct (v3 =? 2) eqn:O2; [inversion E6; subst; cbn; lia|]. discriminate. }
  subst v3. split; [|split; [|exact B]].
  - unfold arp_build. cbn [a_htype a_ptype a_hlen a_plen a_oper a_smac a_sip a_tmac a_tip].
    rewrite <- !app_assoc. reflexivity.
  - unfold arp_wf, arp_repr. cbn [a_htype a_ptype a_hlen a_plen a_oper a_smac a_sip a_tmac a_tip].
    repeat match goal with H : rng _ _ = true |- _ => apply rng_iff in H end. unfold rng. lia.
Qed.

Lemma arp_build_length h : length (arp_build h) = 28%nat.
Proof. reflexivity. Qed.

Lemma arp_answers bs : answers (arp_from_bytes bs) = true.
Proof.
  unfold arp_from_bytes. do 5 step_rd.
  apply bind_answers;
    [destruct (_ =? 1); [reflexivity|]; destruct (_ =? 2); reflexivity | intros o _].
  do 4 step_rd. reflexivity.
Qed.
