(* C01 liveness: a flight of which any part was lost (any number of drops at any positions), or whose
   ACKs were lost, is repaired by the retransmission timeout within two loss-free rounds. *)
From Elvis Require Import Model.Base Model.U32 Model.Tcb Model.TcpNet Proofs.U32Facts Proofs.TcbSafetySnd
  Proofs.TcbSafetySys Proofs.TcbLive Proofs.TcbLiveSys Proofs.TcbLiveThm Proofs.TcbLiveWin Proofs.TcbLiveWinSys
  Proofs.TcbLiveWinRound Proofs.TcbLiveMidSys.
Local Open Scope Z_scope.

(* x has the flight got ++ more outstanding and nothing of it acknowledged; the peer has received and read
   exactly got; net, any sublist of more, is still in the network *)
Definition Outstanding (c : config) (x : side) (s : sys) (p q R lp rp : Z) (got more net : list segment) : Prop :=
  exists tx ty, end_of s x = ELive tx /\ end_of s (other x) = ELive ty /\
    sending tx p R q (got ++ more) [] /\ flight lp rp q p (got ++ more) /\ got ++ more <> [] /\
    quiet ty q (wadd p (flight_len got)) /\ mtu tx = mtu_of c x /\ mtu ty = mtu_of c (other x) /\
    net_of s x = net /\ sublist net more /\ net_of s (other x) = [] /\ panicked s = false.

(* drop the last in-flight segment, j times *)
Fixpoint drops (x : side) (len j : nat) : list label :=
  match j with
  | O => []
  | Datatypes.S j' => LDrop x (len - 1) :: drops x (len - 1) j'
  end.

Definition is_drop (x : side) (l : label) : Prop := exists i, l = LDrop x i.

(* x has the flight got ++ more outstanding, the peer has taken exactly got, and any sublist of more is
   still in the network: after x's half-round the peer has all of it and owes an ack_chain *)
Lemma half_send_any c s x tx ty a b R lp rp got more :
  end_of s x = ELive tx -> end_of s (other x) = ELive ty ->
  sublist (net_of s x) more -> net_of s (other x) = [] -> panicked s = false ->
  sending tx a R b (got ++ more) [] -> flight lp rp b a (got ++ more) -> got ++ more <> [] ->
  quiet ty b (wadd a (flight_len got)) ->
  let s' := fair_half c s x in
  exists tx' ty', end_of s' x = ELive tx' /\ end_of s' (other x) = ELive ty' /\
    net_of s' x = [] /\ net_of s' (other x) = [] /\ panicked s' = false /\
    (forall y, sub_of s' y = sub_of s y) /\ del_of s' x = del_of s x /\
    del_of s' (other x) = del_of s (other x) ++ chunk (flight_bytes more) /\
    sending tx' a R b (got ++ more) [] /\ acking ty' b a R (got ++ more) /\
    mtu tx' = mtu tx /\ mtu ty' = mtu ty.
Proof.
  intros Ex Ey Hsub Ny Pn HS F Hne Qy s'.
  pose proof HS as (_ & _ & _ & _ & _ & _ & _ & _ & _ & _ & _ & _ & _ & _ & A15 & _ & _ & _ & A19 & A20).
  destruct (flush2_sending tx a R b _ HS) as (tx' & Hfl & HS' & Mx).
  pose proof (flight_len_nonneg got). pose proof (flight_len_nonneg more).
  destruct (feed_lossy lp rp b ty a got more (net_of s x)) as (t' & acks & Hfeed & (C & Rn & It & Os) & Hs' & Hc);
    try assumption; try apply Qy.
  { rewrite (quiet_una Qy). apply mod_leq_refl. }
  { rewrite (quiet_in_text Qy). rewrite flight_len_app in A20. cbn. lia. }
  rewrite (quiet_nxt Qy), A19 in Hc. rewrite (quiet_oneshot Qy) in Os. rewrite (quiet_in_text Qy) in It. cbn [app] in Os, It.
  assert (HR : rcv_nxt t' = R) by (rewrite Rn, (quiet_rcv Qy), wadd_wadd, <- flight_len_app; exact A19).
  apply (half_send_flight c s x tx ty a b _ R (got ++ more) [] tx' _ t' (flight_bytes more)
           Ex Ey Ny Pn Qy Hfl HS' Mx Hfeed); try assumption.
  - rewrite <- A19. apply wadd_u32.
  - rewrite Os. exact Hc.
Qed.

Section LossRound.
  Variable c : config.

  Lemma ldrop_step s x i n : panicked s = false -> net_of s x = n -> n <> [] ->
    fst (sys_step c s (LDrop x i)) = set_net s x (remove_nth n (Nat.modulo i (length n))).
  Proof.
    intros Pn Hn Hne. unfold sys_step. rewrite Pn, Hn. destruct n; [congruence|reflexivity].
  Qed.

  Lemma lemit_step s x t t1 segs : panicked s = false -> end_of s x = ELive t ->
    tcb_segments t = Ok (t1, segs) ->
    fst (sys_step c s (LEmit x)) = set_net (set_end s x (ELive t1)) x (net_of s x ++ segs).
  Proof.
    intros Pn El Es. unfold sys_step. rewrite Pn, El. rewrite (emit_eval s x t t1 segs El Es). reflexivity.
  Qed.

  Lemma emit_inflight s x p q bytes : WriterState c x s p q bytes -> 0 < zlen bytes <= 65535 ->
    let s' := fst (sys_step c s (LEmit x)) in
    exists lp rp segs, Outstanding c x s' p q (wadd p (zlen bytes)) lp rp [] segs segs /\
      flight_bytes segs = bytes /\ (forall y, sub_of s' y = sub_of s y) /\ (forall y, del_of s' y = del_of s y).
  Proof.
    intros (tx & ty & Ex & Ey & Wx & Qy & Mx & My & Nx & Ny & Pn) Hn s'.
    pose proof Wx as (W1 & W2 & W3 & W4 & W5 & W6 & W7 & W8 & W9 & W10 & W11 & W12 & W13 & W14 & W15 & W16 & W17).
    destruct (segments_flight tx bytes W1 W9 W8 W7 W10 W5 W6 ltac:(congruence) ltac:(rewrite W3; exact W15) W17 ltac:(lia))
      as (segs & E1 & F & B & Hne).
    cbv zeta in E1, B. replace (Z.min (zlen bytes) 65535) with (zlen bytes) in E1, B by lia.
    unfold zlen in B at 1. rewrite Nat2Z.id, firstn_all in B.
    assert (Hsk : skipn (Z.to_nat (zlen bytes)) bytes = []) by (unfold zlen; rewrite Nat2Z.id; apply skipn_all).
    rewrite Hsk in E1. set (tx1 := set_rto _ RTO) in E1.
    subst s'. rewrite (lemit_step s x tx tx1 segs Pn Ex E1). rewrite Nx. cbn [app].
    rewrite W3, W4 in F.
    assert (Hfl : flight_len segs = zlen bytes) by (unfold flight_len; now rewrite B).
    exists (lport tx), (rport tx), segs. splits.
    - exists tx1, ty. cbn [app]. change (flight_len []) with 0. rewrite (wadd_0_u32 p W15). sysr. splits; auto using sublist_refl.
      + unfold sending. subst tx1. tcb_simpl. splits; try assumption; try reflexivity; try congruence; try lia.
        all: try (exists (lport tx), (rport tx), q; exact F).
        all: try (now rewrite Hfl).
    - exact B.
    - intros y. sysr; first [reflexivity|assumption].
    - intros y. sysr; first [reflexivity|assumption].
  Qed.

  Lemma send_emit_inflight s a b x bytes :
    Quiescent c s a b -> 0 < zlen bytes <= 65535 ->
    let p := sel x a b in
    let q := sel x b a in
    let s1 := run c s [LSend x bytes; LEmit x] in
    exists lp rp segs, Outstanding c x s1 p q (wadd p (zlen bytes)) lp rp [] segs segs /\
      flight_bytes segs = bytes /\
      sub_of s1 x = sub_of s x ++ bytes /\ sub_of s1 (other x) = sub_of s (other x) /\
      (forall y, del_of s1 y = del_of s y).
  Proof.
    intros HQ Hn p q s1.
    destruct (quiescent_at c s a b x HQ) as (tx & ty & Ex & Ey & Qx & Qy & Mx & My & Nx & Ny & Pn).
    fold p q in Qx, Qy.
    assert (Est : st tx = Established) by apply Qx.
    set (s0 := fst (sys_step c s (LSend x bytes))).
    assert (E0 : s0 = set_end (set_sub s x (sub_of s x ++ bytes)) x (ELive (tcb_send tx bytes)))
      by (apply (send_step c s x tx Pn Ex Est)).
    assert (HW0 : WriterState c x s0 p q bytes).
    { rewrite E0. exists (tcb_send tx bytes), ty. sysr. splits; auto.
      - apply writer_of_quiet, Qx.
      - unfold tcb_send. rewrite Est. cbn [accepts_send]. exact Mx. }
    destruct (emit_inflight s0 x p q bytes HW0 Hn) as (lp & rp & segs & HI1 & HB & S1 & D1).
    cbv zeta in *. change (fst (sys_step c s0 (LEmit x))) with s1 in *.
    exists lp, rp, segs. splits; auto.
    - rewrite S1, E0. now sysr.
    - rewrite S1, E0. now sysr.
    - intros y. rewrite D1, E0. now sysr.
  Qed.

  Lemma sel_after x (a b : Z) n :
    sel x (wadd (sel x a b) n) (sel x b a) = sel x (wadd a n) a /\
    sel x (sel x b a) (wadd (sel x a b) n) = sel x b (wadd b n).
  Proof. destruct x; split; reflexivity. Qed.

  Lemma drop_outstanding s x p q R lp rp got more net i :
    Outstanding c x s p q R lp rp got more net ->
    let s' := fst (sys_step c s (LDrop x i)) in
    (exists net', Outstanding c x s' p q R lp rp got more net') /\
    (forall y, sub_of s' y = sub_of s y) /\ (forall y, del_of s' y = del_of s y).
  Proof.
    intros (tx & ty & Ex & Ey & HS & F & Hne & Qy & Mx & My & Nx & Hsub & Ny & Pn) s'.
    destruct net as [|e r] eqn:En.
    - assert (E : s' = s) by (subst s'; unfold sys_step; rewrite Pn, Nx; reflexivity).
      rewrite E. split; [|auto]. exists [], tx, ty. splits; auto.
    - assert (E : s' = set_net s x (remove_nth (e :: r) (Nat.modulo i (length (e :: r)))))
        by (apply (ldrop_step s x i (e :: r) Pn Nx); discriminate).
      rewrite E. split; [|split; intros y; sysr; reflexivity].
      exists (remove_nth (e :: r) (Nat.modulo i (length (e :: r)))), tx, ty. sysr.
      splits; auto. eapply sublist_trans; [apply sublist_remove_nth|exact Hsub].
  Qed.

  Theorem outstanding_recover s x p q R lp rp got more net :
    Outstanding c x s p q R lp rp got more net ->
    let s' := fair_rounds 2 c s in
    Quiescent c s' (sel x R q) (sel x q R) /\
    (forall y, sub_of s' y = sub_of s y) /\ del_of s' x = del_of s x /\
    delivered s' (other x) = delivered s (other x) ++ flight_bytes more.
  Proof.
    intros (tx & ty & Ex & Ey & HS & F & Hne & Qy & Mx & My & Nx & Hsub & Ny & Pn) s'. rewrite <- Nx in Hsub.
    destruct (recover_after_send c x s tx ty q _ p q R (got ++ more) (chunk (flight_bytes more))
                Ex ltac:(apply HS) Ey Qy Ny Mx My
                (half_send_any c s x tx ty p q R lp rp got more Ex Ey Hsub Ny Pn HS F Hne Qy))
      as (HQ & S1 & D1 & D2).
    subst s'. splits; auto. unfold delivered. rewrite D2, concat_app. f_equal.
    destruct (flight_bytes more); cbn [chunk concat]; now rewrite ?app_nil_r.
  Qed.

  Lemma drops_outstanding x p q R lp rp got more : forall ls s net, Forall (is_drop x) ls ->
    Outstanding c x s p q R lp rp got more net ->
    let s' := run c s ls in
    (exists net', Outstanding c x s' p q R lp rp got more net') /\
    (forall y, sub_of s' y = sub_of s y) /\ (forall y, del_of s' y = del_of s y).
  Proof.
    induction ls as [|l ls IH]; intros s net HF HO s'; [subst s'; cbn [run fold_left]; eauto|].
    inversion HF as [|? ? (i & ->) HF']; subst.
    destruct (drop_outstanding s x p q R lp rp got more net i HO) as ((net1 & HO1) & S1 & D1).
    destruct (IH _ net1 HF' HO1) as (HO2 & S2 & D2). cbv zeta in *.
    split; [exact HO2|]. split; intros y; [rewrite <- S1|rewrite <- D1]; [apply S2|apply D2].
  Qed.

  Theorem loss_recovery s a b x bytes ls :
    Quiescent c s a b -> 0 < zlen bytes <= 65535 -> Forall (is_drop x) ls ->
    let n := zlen bytes in
    let s' := run c (run c s [LSend x bytes; LEmit x]) (ls ++ [LFair 2]) in
    Quiescent c s' (sel x (wadd a n) a) (sel x b (wadd b n)) /\
    sub_of s' x = sub_of s x ++ bytes /\ sub_of s' (other x) = sub_of s (other x) /\
    delivered s' (other x) = delivered s (other x) ++ bytes /\ delivered s' x = delivered s x.
  Proof.
    intros HQ Hn HF n s'.
    destruct (send_emit_inflight s a b x bytes HQ Hn) as (lp & rp & segs & HO1 & HB & S1 & S1' & D1).
    cbv zeta in *. set (s1 := run c s [LSend x bytes; LEmit x]) in *.
    set (p := sel x a b) in *. set (q := sel x b a) in *.
    destruct (drops_outstanding x p q (wadd p n) lp rp [] segs ls s1 segs HF HO1) as ((net2 & HO2) & S2 & D2).
    cbv zeta in *. subst s'. rewrite run_app. set (s2 := run c s1 ls) in *.
    assert (Pn2 : panicked s2 = false) by (destruct HO2 as (? & ? & H); apply H).
    cbn [run fold_left]. rewrite (fairk c s2 2 Pn2).
    destruct (outstanding_recover s2 x p q (wadd p n) lp rp [] segs net2 HO2) as (HQ' & S3 & D3 & D4).
    cbv zeta in *.
    destruct (sel_after x a b n) as [Esel1 Esel2]. fold p q in Esel1, Esel2. rewrite Esel1, Esel2 in HQ'.
    split; [exact HQ'|].
    rewrite !S3, !S2, S1, S1', D4, HB. unfold delivered. rewrite D3, !D2, !D1. auto.
  Qed.
End LossRound.

Lemma drops_is_drop x : forall j len, Forall (is_drop x) (drops x len j).
Proof. induction j as [|j IH]; intros len; constructor; [eexists; reflexivity|apply IH]. Qed.
