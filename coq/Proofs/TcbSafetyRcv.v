(* Preservation of the endpoint invariant by the stages of process_segment:
   the ACK stage as a frame, the text stage and the FIN stage. *)
From Elvis Require Import Model.Base Model.U32 Model.Tcb
  Proofs.U32Facts Proofs.TcbSafetyDefs Proofs.TcbSafetyBase Proofs.TcbSafetySnd.
Local Open Scope Z_scope.

Lemma in_window_spec t x : u32 (rcv_nxt t) -> u32 x -> rcv_wnd t = 65535 ->
  is_in_rcv_window t x = (wsub (wadd x 1) (rcv_nxt t) <=? 65535).
Proof.
  intros Hr Hx Hw. rewrite is_in_rcv_window_spec by (try assumption; lia). rewrite Hw.
  f_equal. rewrite !wsub_spec, wadd_spec. unfold u32, M32 in *. lia.
Qed.

(* the true distance between an accepted segment and RCV.NXT *)
Lemma true_distance base rn sq : u32 rn -> u32 sq ->
  wsub rn base <= SEQ_BOUND + 1 -> wsub sq base <= SEQ_BOUND + 1 ->
  mod_gt sq rn = false ->
  wsub rn sq = wsub rn base - wsub sq base /\ wsub sq base <= wsub rn base.
Proof.
  unfold mod_gt, mod_lt. rewrite !wsub_spec. unfold u32, M32, H31, SEQ_BOUND.
  intros Hr Hs H1 H2 H3. split; lia.
Qed.

Definition stage_ok (t t' : tcb) : Prop :=
  snd_frame t t' /\ in_segs t' = in_segs t /\ in_text t' = in_text t /\
  rcv_irs t' = rcv_irs t /\ rcv_nxt t' = rcv_nxt t /\
  (forall P : segment -> Prop, Forall P (map t_seg (retx t)) -> Forall P (map t_seg (retx t'))) /\
  (Forall plain_hdr (oneshot t) -> Forall plain_hdr (oneshot t')).

Lemma stage_ok_refl t : stage_ok t t.
Proof. unfold stage_ok. splits; auto. apply snd_frame_refl. Qed.

Lemma stage_ok_trans a b c : stage_ok a b -> stage_ok b c -> stage_ok a c.
Proof.
  intros (F1 & A1 & A2 & A3 & A4 & A5 & A6) (F2 & B1 & B2 & B3 & B4 & B5 & B6).
  unfold stage_ok. splits; try congruence; auto.
  eapply snd_frame_trans; eassumption.
Qed.

Lemma stage_enqueue t h : plain_hdr h -> stage_ok t (enqueue t h).
Proof.
  intros Hp. rewrite enqueue_plain by assumption.
  unfold stage_ok, snd_frame; tcb_simpl. splits; auto.
  intros Ho. apply Forall_snoc; assumption.
Qed.

Lemma stage_remove_acked t a : stage_ok t (remove_acked (set_snd_una t a) a).
Proof.
  unfold remove_acked, stage_ok, snd_frame; tcb_simpl. splits; auto.
  intros P. apply Forall_map_filter.
Qed.

Lemma stage_set_window t w a b : stage_ok t (set_snd_window t w a b).
Proof. unfold stage_ok, snd_frame; tcb_simpl. splits; auto. Qed.

Lemma stage_set_st t s : closed_state s = closed_state (st t) -> stage_ok t (set_st t s).
Proof. intros H. unfold stage_ok, snd_frame; tcb_simpl. splits; auto. Qed.

Lemma stage_set_tw t x : stage_ok t (set_time_wait t x).
Proof. unfold stage_ok, snd_frame; tcb_simpl. splits; auto. Qed.

Lemma stage_set_rto t x : stage_ok t (set_rto t x).
Proof. unfold stage_ok, snd_frame; tcb_simpl. splits; auto. Qed.

Lemma stage_ok_rcv_same t t' :
  stage_ok t t' -> fin_consumed (st t') = fin_consumed (st t) ->
  state_eqb (st t') SynSent = state_eqb (st t) SynSent -> rcv_same t t'.
Proof. intros (F & A1 & A2 & A3 & A4 & _) H1 H2. unfold rcv_same. auto 10. Qed.

Lemma ack_edge_props a b : ack_edge a b = true ->
  fin_consumed b = fin_consumed a /\ state_eqb b SynSent = state_eqb a SynSent /\
  closed_state b = closed_state a.
Proof. destruct a, b; cbn; intros H; try discriminate H; auto. Qed.

Lemma ps_ack_stage t h : stage_ok t (fst (ps_ack t h)).
Proof.
  apply (ack_steps_rel h stage_ok); [apply stage_ok_refl|apply stage_ok_trans| |apply ps_ack_steps].
  intros a b [].
  - apply stage_enqueue, ack_hdr_plain.
  - apply stage_enqueue, rst_hdr_plain.
  - apply stage_enqueue, tw_ack_plain.
  - apply stage_remove_acked.
  - apply stage_set_window.
  - apply stage_set_st. apply ack_edge_props. assumption.
  - apply stage_set_tw.
Qed.

(* stages that may move RCV.NXT / in_text: everything but the receive variables *)
Definition rstage_ok (t t' : tcb) : Prop :=
  snd_frame t t' /\ in_segs t' = in_segs t /\
  (forall P : segment -> Prop, Forall P (map t_seg (retx t)) -> Forall P (map t_seg (retx t'))) /\
  (Forall plain_hdr (oneshot t) -> Forall plain_hdr (oneshot t')).

Lemma stage_rstage t t' : stage_ok t t' -> rstage_ok t t'.
Proof. intros (F & A1 & A2 & A3 & A4 & A5 & A6). unfold rstage_ok. auto. Qed.
Lemma rstage_ok_refl t : rstage_ok t t.
Proof. apply stage_rstage, stage_ok_refl. Qed.
Lemma rstage_ok_trans a b c : rstage_ok a b -> rstage_ok b c -> rstage_ok a c.
Proof.
  intros (F1 & A1 & A5 & A6) (F2 & B1 & B5 & B6).
  unfold rstage_ok. splits; try congruence; auto.
  eapply snd_frame_trans; eassumption.
Qed.
Lemma rstage_set_rcv_nxt t x : rstage_ok t (set_rcv_nxt t x).
Proof. unfold rstage_ok, snd_frame; tcb_simpl. splits; auto. Qed.
Lemma rstage_set_in_text t x : rstage_ok t (set_in_text t x).
Proof. unfold rstage_ok, snd_frame; tcb_simpl. splits; auto. Qed.
Lemma rstage_ok_snd iss m S t t' : rstage_ok t t' -> SndInv iss m S t -> SndInv iss m S t'.
Proof.
  intros (F & A1 & A5 & A6) HI.
  eapply SndInv_frame; [exact F|exact HI| |].
  - apply A5, HI.
  - apply A6, HI.
Qed.

Lemma stage_ok_snd iss m S t t' : stage_ok t t' -> SndInv iss m S t -> SndInv iss m S t'.
Proof. intros H. apply rstage_ok_snd, stage_rstage, H. Qed.

Lemma text_core_inv pv D t h text :
  pv_wf pv -> RcvInv pv D t -> state_eqb (st t) SynSent = false -> fin_consumed (st t) = false ->
  rcv_wnd t = 65535 -> text <> [] -> seg_inv pv (mkSeg h text) ->
  mod_gt (h_seq h) (rcv_nxt t) = false ->
  (is_in_rcv_window t (h_seq h) || is_in_rcv_window t (wadd (h_seq h) (zlen text))) = true ->
  exists t', text_core t h text = Ok t' /\ RcvInv pv D t' /\ rstage_ok t t' /\ st t' = st t.
Proof.
  intros (Hu & Hl & Hb & Hfz) (R1 & R2 & R3) Hss Hfc Hw Hne (T & _ & _) W1 Hassert.
  rewrite Hss in R3. destruct R3 as (R3 & R4 & R5 & R6 & R7).
  destruct (T Hne) as (Tsyn & Tfin & Tu & Tlen & Tok & Tlim). tcb_simpl.
  unfold rcv_n in *. rewrite Hfc in *. cbn [b2z] in *. rewrite Z.sub_0_r in *.
  set (base := pv_base pv) in *. set (rn := rcv_nxt t) in *. set (sq := h_seq h) in *.
  set (n := wsub rn base) in *. set (off := wsub sq base) in *.
  pose proof (zlen_nonneg text) as Hlen0.
  assert (Hlen1 : 0 < zlen text).
  { destruct text; [congruence|]. rewrite zlen_cons. pose proof (zlen_nonneg text). lia. }
  pose proof (wsub_u32 sq base) as Hoffu. fold off in Hoffu. unfold u32 in Hoffu.
  destruct (true_distance base rn sq R4 Tu) as [Hd Hle]; fold n off; try assumption;
    [unfold u32 in *; lia|unfold u32 in *; lia|].
  fold n off in Hd, Hle.
  unfold text_core. fold rn sq.
  rewrite Hassert. cbn [negb]. rewrite Tsyn. cbn [b2z].
  replace (wsub (wsub rn sq) 0) with (n - off)
    by (rewrite Hd, wsub_spec; unfold u32, M32, SEQ_BOUND in *; lia).
  rewrite Hw. replace (65535 <? zlen (in_text t)) with false by lia.
  set (already := Z.min (n - off) (zlen text)).
  set (accept := Z.min (zlen text - already) (65535 - zlen (in_text t))).
  set (piece := firstn (Z.to_nat accept) (skipn (Z.to_nat already) text)).
  assert (Hacc : 0 <= accept /\ accept <= zlen text - already /\ n + accept <= pv_lim pv).
  { subst accept already. lia. }
  assert (Hpiece : firstn (Z.to_nat n) (pv_sub pv) ++ piece = firstn (Z.to_nat (n + accept)) (pv_sub pv)).
  { destruct (Z.eq_dec accept 0) as [E0|Hn0].
    - subst piece. rewrite E0, Z.add_0_r. cbn [Z.to_nat firstn]. apply app_nil_r.
    - assert (Eal : already = n - off) by (subst accept already; lia).
      subst piece. rewrite Tok.
      rewrite slice_of_slice.
      + replace (Z.to_nat off + Z.to_nat already)%nat with (Z.to_nat n) by lia.
        rewrite firstn_app_slice. f_equal. lia.
      + unfold zlen in *. lia.
      + unfold zlen in *. lia. }
  eexists. split; [reflexivity|].
  rewrite enqueue_plain by apply ack_hdr_plain.
  split; [|split].
  - unfold RcvInv, rcv_n; tcb_simpl. rewrite Hss, Hfc. cbn [b2z]. rewrite Z.sub_0_r.
    fold base rn.
    assert (En : wsub (wadd rn accept) base = n + accept).
    { assert (Hn : n = (rn - base) mod M32) by (subst n; apply wsub_spec).
      rewrite !wsub_spec, wadd_spec.
      clear - Hn R5 R4 Hacc Hl Hb. unfold u32, M32, SEQ_BOUND in *. lia. }
    rewrite En. splits; try assumption.
    + rewrite zlen_app. subst piece. rewrite zlen_firstn. lia.
    + apply wadd_u32.
    + lia.
    + lia.
    + rewrite app_assoc, R6. exact Hpiece.
    + discriminate.
  - unfold rstage_ok, snd_frame; tcb_simpl. splits; auto.
    intros Ho. apply Forall_snoc; [assumption|apply ack_hdr_plain].
  - reflexivity.
Qed.

Lemma ps_text_inv pv D t h text :
  pv_wf pv -> RcvInv pv D t -> state_eqb (st t) SynSent = false -> rcv_wnd t = 65535 ->
  seg_inv pv (mkSeg h text) ->
  (text <> [] -> fin_consumed (st t) = false ->
     mod_gt (h_seq h) (rcv_nxt t) = false /\
     (is_in_rcv_window t (h_seq h) || is_in_rcv_window t (wadd (h_seq h) (zlen text))) = true) ->
  exists t', ps_text t h text = Ok t' /\ RcvInv pv D t' /\ rstage_ok t t' /\ st t' = st t /\
             (text = [] -> t' = t).
Proof.
  intros Hwf HR Hss Hw Hseg Hfacts. rewrite ps_text_unfold.
  destruct (zlen text =? 0) eqn:Ez.
  { exists t. splits; auto. apply rstage_ok_refl. }
  assert (Hne : text <> []) by (intros ->; discriminate Ez).
  assert (Hcore : fin_consumed (st t) = false ->
    exists t', text_core t h text = Ok t' /\ RcvInv pv D t' /\ rstage_ok t t' /\ st t' = st t /\
               (text = [] -> t' = t)).
  { intros Hfc. destruct (Hfacts Hne Hfc) as [W1 W2].
    destruct (text_core_inv pv D t h text Hwf HR Hss Hfc Hw Hne Hseg W1 W2) as (t' & E & A & B & C).
    exists t'. splits; auto. intros; congruence. }
  destruct (st t) eqn:Est; try (cbn in Hss; discriminate Hss); try (apply Hcore; reflexivity);
    (exists t; splits; auto using rstage_ok_refl; intros; congruence).
Qed.

Lemma ps_fin_nofin t h len : c_fin (h_ctl h) = false -> ps_fin t h len = t.
Proof. intros H. unfold ps_fin. now rewrite H. Qed.

Lemma ps_fin_inv pv D t h :
  pv_wf pv -> RcvInv pv D t -> state_eqb (st t) SynSent = false ->
  c_fin (h_ctl h) = true -> pv_frozen pv = true ->
  h_seq h = wadd (pv_base pv) (zlen (pv_sub pv)) ->
  (fin_consumed (st t) = false -> mod_gt (h_seq h) (rcv_nxt t) = false) ->
  RcvInv pv D (ps_fin t h 0) /\ rstage_ok t (ps_fin t h 0).
Proof.
  intros (Hu & Hl & Hb & Hfz) (R1 & R2 & R3) Hss Hfin Hfr Hseq Hgt.
  rewrite Hss in R3. destruct R3 as (R3 & R4 & R5 & R6 & R7).
  specialize (Hfz Hfr).
  unfold ps_fin. rewrite Hfin, Hss. cbn [negb].
  set (base := pv_base pv) in *. set (rn := rcv_nxt t) in *. set (F := zlen (pv_sub pv)) in *.
  assert (Hsu : u32 (h_seq h)) by (rewrite Hseq; apply wadd_u32).
  rewrite (wadd_0_u32 _ Hsu).
  pose proof (zlen_nonneg (pv_sub pv)) as HF0. fold F in HF0.
  assert (Hoff : wsub (h_seq h) base = F).
  { rewrite Hseq, wsub_spec, wadd_spec. unfold u32, M32, SEQ_BOUND in *. lia. }
  (* in both cases RCV.NXT moves to (or stays at) FIN+1 *)
  assert (Hcond : ((rn =? h_seq h) || (rn =? wadd (h_seq h) 1)) = true /\
                  wsub (wadd (h_seq h) 1) base = F + 1 /\
                  (fin_consumed (st t) = false -> wsub rn base = F)).
  { unfold rcv_n in *. fold base rn in R5, R7 |- *.
    destruct (fin_consumed (st t)) eqn:Efc.
    - destruct (R7 eq_refl) as [_ Hn]. cbn [b2z] in *.
      assert (E : rn = wadd (h_seq h) 1).
      { rewrite Hseq, !wadd_spec. rewrite wsub_spec in Hn. unfold u32, M32, SEQ_BOUND in *. lia. }
      split; [rewrite <- E, Z.eqb_refl; apply orb_true_r|].
      split; [|discriminate]. rewrite <- E. lia.
    - cbn [b2z] in *.
      destruct (true_distance base rn (h_seq h) R4 Hsu) as [Hd Hle];
        [unfold u32 in *; lia|rewrite Hoff; lia|apply Hgt; reflexivity|].
      rewrite Hoff in Hle.
      assert (E : rn = h_seq h).
      { rewrite Hseq, wadd_spec. rewrite wsub_spec in Hle, R5. unfold u32, M32, SEQ_BOUND in *. lia. }
      split; [rewrite E, Z.eqb_refl; reflexivity|].
      split; [|intros _; rewrite E; exact Hoff].
      rewrite Hseq, wsub_spec, !wadd_spec. unfold u32, M32, SEQ_BOUND in *. lia. }
  destruct Hcond as (Hc & Hn1 & Hn0). rewrite Hc.
  set (t0 := set_rcv_nxt t (wadd (h_seq h) 1)).
  rewrite (enqueue_plain t0) by apply ack_hdr_plain.
  set (t1 := set_oneshot t0 _).
  assert (S1 : st t1 = st t) by reflexivity.
  assert (RS1 : rstage_ok t t1).
  { subst t1 t0.
    unfold rstage_ok, snd_frame; tcb_simpl. splits; auto.
    intros Ho. apply Forall_snoc; [assumption|apply ack_hdr_plain]. }
  (* any final state s' with the FIN consumed and the same closedness is fine *)
  assert (Hfinal : forall t', rstage_ok t1 t' -> in_text t' = in_text t -> rcv_irs t' = rcv_irs t ->
     rcv_nxt t' = wadd (h_seq h) 1 -> fin_consumed (st t') = true ->
     RcvInv pv D t' /\ rstage_ok t t').
  { intros t' RS' E1 E2 E3 E4. split; [|eapply rstage_ok_trans; eassumption].
    destruct RS' as (_ & Eseg & _). destruct RS1 as (_ & Eseg1 & _).
    assert (Hns : state_eqb (st t') SynSent = false) by (destruct (st t'); try discriminate E4; reflexivity).
    unfold RcvInv, rcv_n. rewrite Eseg, Eseg1, E1, E2, E3, E4, Hns. fold base. rewrite Hn1. cbn [b2z].
    replace (F + 1 - 1) with F by lia.
    assert (HnF : rcv_n pv t = F).
    { unfold rcv_n. fold base rn. destruct (fin_consumed (st t)) eqn:Efc.
      - destruct (R7 eq_refl) as [_ Hn]. unfold rcv_n in Hn. rewrite Efc in Hn. exact Hn.
      - cbn [b2z]. rewrite (Hn0 eq_refl). lia. }
    rewrite HnF in R6.
    splits; try assumption; try lia; auto. apply wadd_u32. }
  rewrite S1.
  destruct (st t) eqn:Est; try (cbn in Hss; discriminate Hss).
  - (* SynReceived *) apply Hfinal; try reflexivity. apply stage_rstage, stage_set_st. rewrite S1. reflexivity.
  - (* Established *) apply Hfinal; try reflexivity. apply stage_rstage, stage_set_st. rewrite S1. reflexivity.
  - (* FinWait1 *)
    destruct (is_fin_acked t1); apply Hfinal; try reflexivity.
    + eapply rstage_ok_trans; apply stage_rstage; [apply (stage_set_st t1 TimeWait); rewrite S1; reflexivity|apply stage_set_tw].
    + apply stage_rstage, stage_set_st. rewrite S1. reflexivity.
  - (* FinWait2 *)
    apply Hfinal; try reflexivity.
    eapply rstage_ok_trans; [apply stage_rstage, (stage_set_st t1 TimeWait); rewrite S1; reflexivity|].
    eapply rstage_ok_trans; apply stage_rstage; [apply stage_set_tw|apply stage_set_rto].
  - (* CloseWait *) apply Hfinal; try reflexivity; [apply rstage_ok_refl|cbn [set_time_wait st]; rewrite S1; reflexivity].
  - (* Closing *) apply Hfinal; try reflexivity; [apply rstage_ok_refl|cbn [set_time_wait st]; rewrite S1; reflexivity].
  - (* LastAck *) apply Hfinal; try reflexivity; [apply rstage_ok_refl|cbn [set_time_wait st]; rewrite S1; reflexivity].
  - (* TimeWait *) apply Hfinal; try reflexivity; [apply stage_rstage, stage_set_tw|cbn [set_time_wait st]; rewrite S1; reflexivity].
Qed.
