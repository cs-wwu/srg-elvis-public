(* C12 equivariance, part 5: observables.  The ISN-relative normal form of a
   system state (every sequence field replaced by its offset from the ISN of
   the space it lives in) is THE SAME in the run with ISNs (a, b) and in the
   run with ISNs (a + dA, b + dB); likewise for every emitted segment. *)
From Elvis Require Import Model.Base Model.U32 Model.Tcb Model.TcpNet
  Proofs.U32Facts Proofs.TcbShift Proofs.TcbShiftInv Proofs.TcbShiftOps Proofs.TcbShiftNet.
Local Open Scope Z_scope.

(* iS = ISN of the sender's space (seq), iK = ISN of the receiver's space (ack) *)
Definition nz_hdr (iS iK : Z) (h : header) : header :=
  mkHdr (h_sport h) (h_dport h) (wsub (h_seq h) iS)
        (if c_ack (h_ctl h) then wsub (h_ack h) iK else h_ack h)
        (h_ctl h) (h_wnd h) (h_urg h).
Definition nz_seg (iS iK : Z) (s : segment) : segment := mkSeg (nz_hdr iS iK (s_hdr s)) (s_text s).
Definition nz_tx (iS iK : Z) (x : transmit) : transmit := mkTx (nz_seg iS iK (t_seg x)) (t_needs x).

(* everything of a TCB except SND.WL2 (never observable: it only gates the
   update of SND.WND) and, in SynSent, the still-raw RCV.IRS/RCV.NXT/SND.WL1 *)
Record tview := mkView {
  w_lport : Z; w_rport : Z; w_mtu : Z; w_listen : bool; w_st : state;
  w_una : Z; w_nxt : Z; w_swnd : Z;
  w_rcv : option (Z * Z * Z);     (* RCV.IRS, RCV.NXT, SND.WL1 relative to the peer's ISN *)
  w_rwnd : Z;
  w_out : list Z; w_retx : list transmit; w_oneshot : list header; w_fin : bool;
  w_in_segs : list segment; w_in_text : list Z; w_rto : Z; w_tw : option Z }.

Definition nz_tcb (iO iP : Z) (t : tcb) : tview :=
  mkView (lport t) (rport t) (mtu t) (listen_init t) (st t)
         (wsub (snd_una t) iO) (wsub (snd_nxt t) iO) (snd_wnd t)
         (if is_synsent (st t) then None
          else Some (wsub (rcv_irs t) iP, wsub (rcv_nxt t) iP, wsub (snd_wl1 t) iP))
         (rcv_wnd t)
         (out_text t) (map (nz_tx iO iP) (retx t)) (map (nz_hdr iO iP) (oneshot t)) (fin_pending t)
         (map (nz_seg iP iO) (in_segs t)) (in_text t) (rto t) (time_wait t).

Inductive eview := VClosed | VListen | VLive (v : tview) | VDead.
Definition nz_end (iO iP : Z) (e : endpoint) : eview :=
  match e with
  | EClosed => VClosed | EListen => VListen | EDead => VDead
  | ELive t => VLive (nz_tcb iO iP t)
  end.

Record sview := mkSview {
  y_endA : eview; y_endB : eview;
  y_netA : list segment; y_netB : list segment;
  y_subA : list Z; y_subB : list Z;
  y_delA : list (list Z); y_delB : list (list Z);
  y_pan : bool }.
Definition nz_sys (c : config) (s : sys) : sview :=
  mkSview (nz_end (issA c) (issB c) (endA s)) (nz_end (issB c) (issA c) (endB s))
          (map (nz_seg (issA c) (issB c)) (netA s)) (map (nz_seg (issB c) (issA c)) (netB s))
          (subA s) (subB s) (delA s) (delB s) (panicked s).

Definition nz_obs_side (c : config) (x : side) (o : obs) : obs :=
  let iO := iss_of c x in let iP := iss_of c (other x) in
  match o with
  | OTick segs r => OTick (map (nz_seg iO iP) segs) r
  | OEmit segs => OEmit (map (nz_seg iO iP) segs)
  | OListenResp h => OListenResp (nz_hdr iO iP h)
  | OClosedResp h => OClosedResp (nz_hdr iO iP h)
  | other => other
  end.
Definition nz_obs (c : config) (l : label) (o : obs) : obs := nz_obs_side c (obs_side l) o.
Fixpoint nz_obs_list (c : config) (ls : list label) (os : list obs) : list obs :=
  match ls, os with
  | l :: ls', o :: os' => nz_obs c l o :: nz_obs_list c ls' os'
  | _, _ => []
  end.

Lemma nz_hdr_sh iS iK dS dK h : nz_hdr (wadd iS dS) (wadd iK dK) (sh_hdr dS dK h) = nz_hdr iS iK h.
Proof.
  unfold nz_hdr, sh_hdr. cbn [h_sport h_dport h_seq h_ack h_ctl h_wnd h_urg].
  rewrite wsub_shift. destruct (c_ack (h_ctl h)); [rewrite wsub_shift|]; reflexivity.
Qed.
Lemma nz_seg_sh iS iK dS dK s : nz_seg (wadd iS dS) (wadd iK dK) (sh_seg dS dK s) = nz_seg iS iK s.
Proof. unfold nz_seg, sh_seg. cbn [s_hdr s_text]. rewrite nz_hdr_sh. reflexivity. Qed.
Lemma nz_tx_sh iS iK dS dK x : nz_tx (wadd iS dS) (wadd iK dK) (sh_tx dS dK x) = nz_tx iS iK x.
Proof. unfold nz_tx, sh_tx. cbn [t_seg t_needs]. rewrite nz_seg_sh. reflexivity. Qed.

Lemma map_nz_seg_sh iS iK dS dK l :
  map (nz_seg (wadd iS dS) (wadd iK dK)) (map (sh_seg dS dK) l) = map (nz_seg iS iK) l.
Proof. rewrite map_map. apply map_ext. intros a. apply nz_seg_sh. Qed.

Lemma nz_tcb_rel dO dP iO iP t t' : trel dO dP t t' ->
  nz_tcb (wadd iO dO) (wadd iP dP) t' = nz_tcb iO iP t.
Proof.
  intros (g & -> & Hv). unfold nz_tcb. tcb_cbn.
  rewrite !wsub_shift.
  rewrite !map_map.
  rewrite (map_ext _ (nz_tx iO iP)) by (intros a; apply nz_tx_sh).
  rewrite (map_ext (fun x => nz_hdr (wadd iO dO) (wadd iP dP) (sh_hdr dO dP x)) (nz_hdr iO iP))
    by (intros a; apply nz_hdr_sh).
  rewrite (map_ext (fun x => nz_seg (wadd iP dP) (wadd iO dO) (sh_seg dP dO x)) (nz_seg iP iO))
    by (intros a; apply nz_seg_sh).
  destruct (is_synsent (st t)) eqn:E; [reflexivity|].
  destruct (Hv E) as [[-> ->] ->]. rewrite !wsub_shift. reflexivity.
Qed.

Lemma nz_end_rel dO dP iO iP e e' : erel dO dP e e' ->
  nz_end (wadd iO dO) (wadd iP dP) e' = nz_end iO iP e.
Proof.
  destruct e, e'; cbn [erel nz_end]; try contradiction; try reflexivity.
  intros H. rewrite (nz_tcb_rel _ _ _ _ _ _ H). reflexivity.
Qed.

Theorem nz_sys_rel dA dB c s s' : srel dA dB s s' -> nz_sys (shift_cfg dA dB c) s' = nz_sys c s.
Proof.
  intros []. unfold nz_sys, shift_cfg. cbn [issA issB].
  rewrite (nz_end_rel _ _ _ _ _ _ r_endA), (nz_end_rel _ _ _ _ _ _ r_endB).
  rewrite r_netA, r_netB, !map_nz_seg_sh, r_subA, r_subB, r_delA, r_delB, r_pan. reflexivity.
Qed.

Lemma nz_obs_shift dA dB c l o : nz_obs (shift_cfg dA dB c) l (shift_obs dA dB l o) = nz_obs c l o.
Proof.
  unfold nz_obs, shift_obs, nz_obs_side, shift_obs_side.
  rewrite !cfg_iss.
  destruct o; try reflexivity; cbn.
  - rewrite map_nz_seg_sh. reflexivity.
  - rewrite map_nz_seg_sh. reflexivity.
  - rewrite nz_hdr_sh. reflexivity.
  - rewrite nz_hdr_sh. reflexivity.
Qed.

Lemma obs_side_shift_label dA dB l : obs_side (shift_label dA dB l) = obs_side l.
Proof. destruct l; reflexivity. Qed.

Lemma nz_obs_list_shift dA dB c ls : forall os,
  nz_obs_list (shift_cfg dA dB c) (map (shift_label dA dB) ls) (shift_obs_list dA dB ls os) =
  nz_obs_list c ls os.
Proof.
  induction ls as [|l r IH]; intros [|o os]; cbn [map shift_obs_list nz_obs_list]; try reflexivity.
  rewrite IH. f_equal. unfold nz_obs at 1. rewrite obs_side_shift_label. apply nz_obs_shift.
Qed.

Definition closed_label (l : label) : bool := match l with LInject _ _ => false | _ => true end.
Lemma shift_label_closed dA dB ls : forallb closed_label ls = true -> map (shift_label dA dB) ls = ls.
Proof.
  induction ls as [|l r IH]; cbn [forallb map]; [reflexivity|].
  intros H. apply andb_true_iff in H. destruct H as [H1 H2]. rewrite (IH H2).
  destruct l; try reflexivity. discriminate H1.
Qed.

Definition ep_state (e : endpoint) : option (option state) :=
  match e with EClosed => None | EListen => Some None | EDead => Some None | ELive t => Some (Some (st t)) end.

Lemma srel_observables dA dB c s s' : srel dA dB s s' ->
  nz_sys (shift_cfg dA dB c) s' = nz_sys c s /\
  (forall x, delivered s' x = delivered s x /\ sub_of s' x = sub_of s x /\
             ep_state (end_of s' x) = ep_state (end_of s x) /\
             net_of s' x = map (sh_seg (dsh dA dB x) (dsh dA dB (other x))) (net_of s x)) /\
  panicked s' = panicked s.
Proof.
  intros A. split; [apply nz_sys_rel; exact A|]. split; [|apply A].
  intros x. unfold delivered. rewrite (srel_del _ _ _ _ x A), (srel_sub _ _ _ _ x A), (srel_net _ _ _ _ x A).
  repeat split.
  pose proof (srel_end _ _ _ _ x A) as He.
  destruct (end_of s x), (end_of s' x); cbn [erel] in He; try contradiction; try reflexivity.
  cbn [ep_state]. rewrite (trel_st _ _ _ _ He). reflexivity.
Qed.
