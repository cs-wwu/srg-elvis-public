(* C01 liveness: out-of-order arrival, TCB level.  Segments beyond RCV.NXT are parked in the
   reassembly heap; old data is acknowledged while segments are parked; when the missing segment
   arrives the heap is drained in sequence order (uses the heap-order theorems of TcbHeap.v). *)
From Elvis Require Import Model.Base Model.U32 Model.Tcb Model.TcpNet Proofs.U32Facts Proofs.TcbSafetyBase
  Proofs.TcbSafetySnd Proofs.TcbSafetyRcv Proofs.TcbLive Proofs.TcbLiveWin
  Proofs.TcbLiveClose2 Proofs.TcbHeap.
From Coq Require Import Permutation.
Local Open Scope Z_scope.

Definition pstep_in (t : tcb) (s : segment) : tcb :=
  let t1 := set_rcv_nxt t (wadd (rcv_nxt t) (zlen (s_text s))) in
  let t2 := set_in_text t1 (in_text t ++ s_text s) in
  set_oneshot t2 (oneshot t ++ [ack_hdr t2]).
Definition pstep_old (t : tcb) : tcb := set_oneshot t (oneshot t ++ [ack_hdr t]).

Lemma process_inorder t h text :
  st t = Established -> rcv_wnd t = 65535 -> u32 (rcv_nxt t) ->
  ack_only h -> h_seq h = rcv_nxt t -> mod_leq (h_ack h) (snd_una t) = true ->
  0 < zlen text -> zlen (in_text t) + zlen text <= 65535 ->
  process_segment t (mkSeg h text) = Ok (pstep_in t (mkSeg h text), PSuccess).
Proof.
  intros Est Hw Hu Hh Hseq Hleq Hlen Hspace.
  assert (Hwin : is_in_rcv_window t (h_seq h) = true).
  { rewrite Hseq. apply (in_window_at_nxt t); assumption. }
  rewrite ps_est_noadvance; try assumption.
  - rewrite ps_text_unfold. replace (zlen text =? 0) with false by lia.
    rewrite Est. unfold text_core. rewrite Hwin. cbn [orb negb].
    destruct Hh as (_ & _ & Hsy & _). rewrite Hsy. cbn [b2z].
    rewrite Hseq, wsub_diag. rewrite Hw. pose proof (zlen_nonneg (in_text t)).
    replace (65535 <? zlen (in_text t)) with false by lia.
    replace (wsub 0 0) with 0 by reflexivity.
    replace (Z.min 0 (zlen text)) with 0 by lia.
    replace (zlen text - 0) with (zlen text) by lia.
    replace (Z.min (zlen text) (65535 - zlen (in_text t))) with (zlen text) by lia.
    cbn [Z.to_nat skipn]. unfold zlen at 3. rewrite Nat2Z.id, firstn_all.
    rewrite enqueue_plain by apply ack_hdr_plain. reflexivity.
  - unfold is_seq_ok. cbn [b2z]. rewrite !Z.add_0_r.
    replace (zlen text =? 0) with false by lia. rewrite Hw. cbn [Z.eqb]. rewrite Hwin. reflexivity.
Qed.

Lemma process_old t h text d :
  st t = Established -> rcv_wnd t = 65535 -> u32 (rcv_nxt t) ->
  ack_only h -> u32 (h_seq h) -> 0 <= d -> wadd (h_seq h) (zlen text + d) = rcv_nxt t ->
  mod_leq (h_ack h) (snd_una t) = true ->
  0 < zlen text -> zlen text + d <= 65535 -> zlen (in_text t) <= 65535 ->
  exists r, process_segment t (mkSeg h text) = Ok (pstep_old t, r) /\ should_delete r = false.
Proof.
  intros Est Hw Hu Hh Hsu Hd Hseq Hleq Hlen Hroom Hspace. set (n := zlen text) in *.
  destruct (Z.eq_dec d 0) as [-> | Hd0].
  - rewrite Z.add_0_r in Hseq. exists PSuccess. split; [|reflexivity].
    assert (Hdd : wsub (rcv_nxt t) (h_seq h) = n).
    { rewrite <- Hseq, wsub_spec, wadd_spec. unfold u32, M32 in *. lia. }
    assert (Hw2 : is_in_rcv_window t (wsub (wadd (h_seq h) n) 1) = true).
    { rewrite in_window_spec by (try assumption; apply wsub_u32).
      rewrite Hseq. rewrite !wsub_spec, !wadd_spec. unfold u32, M32 in *. lia. }
    assert (Hw3 : is_in_rcv_window t (wadd (h_seq h) n) = true).
    { rewrite Hseq. apply (in_window_at_nxt t); assumption. }
    rewrite ps_est_noadvance; try assumption.
    + rewrite ps_text_unfold. fold n. replace (n =? 0) with false by lia.
      rewrite Est. unfold text_core. fold n. rewrite Hw3, orb_true_r. cbn [negb].
      destruct Hh as (_ & _ & Hsy & _). rewrite Hsy. cbn [b2z]. rewrite Hdd.
      replace (wsub n 0) with n by (rewrite wsub_spec; unfold M32; lia).
      rewrite Hw. pose proof (zlen_nonneg (in_text t)).
      replace (65535 <? zlen (in_text t)) with false by lia.
      replace (Z.min n n) with n by lia. replace (n - n) with 0 by lia.
      replace (Z.min 0 (65535 - zlen (in_text t))) with 0 by lia.
      cbn [Z.to_nat firstn]. rewrite enqueue_plain by apply ack_hdr_plain.
      f_equal. f_equal. unfold pstep_old. tcb_eq.
      * apply wadd_0_u32, Hu.
      * f_equal. f_equal. unfold ack_hdr. tcb_simpl. now rewrite (wadd_0_u32 _ Hu).
      * apply app_nil_r.
    + unfold is_seq_ok. cbn [b2z]. rewrite !Z.add_0_r. fold n.
      replace (n =? 0) with false by lia. rewrite Hw. cbn [Z.eqb]. rewrite Hw2. apply orb_true_r.
  - exists PDiscard. split; [|reflexivity].
    unfold process_segment. tcb_simpl. rewrite Est.
    destruct Hh as (Ha & Hr & Hsy & Hf). rewrite Hsy, Hf.
    assert (Hbad : is_seq_ok t n (h_seq h) false false = false).
    { unfold is_seq_ok. cbn [b2z]. rewrite !Z.add_0_r. replace (n =? 0) with false by lia.
      rewrite Hw. cbn [Z.eqb].
      rewrite !in_window_spec by (try assumption; try apply wsub_u32; try apply wadd_u32).
      rewrite <- Hseq. rewrite !wsub_spec, !wadd_spec. unfold u32, M32 in *. lia. }
    fold n. rewrite Hbad. cbn [negb].
    rewrite enqueue_plain by apply ack_hdr_plain. reflexivity.
Qed.

Lemma heap_pop_some v : v <> [] -> exists m rest, heap_pop v = Some (m, rest).
Proof.
  intros H. destruct (heap_pop v) as [[m rest]|] eqn:E; [eauto|]. apply heap_pop_none in E. congruence.
Qed.

(* s starts after base, at most 65535 bytes further *)
Definition beyond (base : Z) (s : segment) : Prop :=
  0 < seg_key base s <= 65535.

Lemma beyond_in_range base s : beyond base s -> in_range base s.
Proof. unfold beyond, in_range, H31. lia. Qed.

Lemma beyond_mod_gt base s : u32 base -> beyond base s -> mod_gt (h_seq (s_hdr s)) base = true.
Proof.
  unfold beyond, seg_key, mod_gt, mod_lt. rewrite !wsub_spec. unfold u32, M32, H31. intros Hu H. lia.
Qed.

(* a flight starting at base: the head is at key 0, the rest strictly beyond *)
Lemma flight_keys lp rp ackv : forall q a off, u32 a -> 0 <= off -> off + flight_len q <= 65535 ->
  flight lp rp ackv (wadd a off) q ->
  Forall (fun e => off <= seg_key a e < off + flight_len q) q.
Proof.
  induction q as [|s r IH]; intros a off Hu H0 Hroom F; [constructor|].
  destruct F as (Fh & Fl & Fr). rewrite flight_len_cons in *. pose proof (flight_len_nonneg r).
  constructor.
  - unfold seg_key. rewrite Fh. cbn [data_hdr hb_wnd hb_ack h_seq].
    rewrite wsub_spec, wadd_spec. unfold u32, M32 in *. lia.
  - rewrite wadd_wadd in Fr. specialize (IH a (off + zlen (s_text s)) Hu ltac:(lia) ltac:(lia) Fr).
    eapply Forall_impl; [|exact IH]. intros e He. cbv beta in *. lia.
Qed.

Lemma flight_head_key lp rp ackv a s r : flight lp rp ackv a (s :: r) -> seg_key a s = 0.
Proof.
  intros (Fh & _). unfold seg_key. rewrite Fh. cbn [data_hdr hb_wnd hb_ack h_seq]. apply wsub_diag.
Qed.

Lemma flight_tail_beyond lp rp ackv a s r : u32 a -> flight_len (s :: r) <= 65535 ->
  flight lp rp ackv a (s :: r) -> Forall (beyond a) r.
Proof.
  intros Hu Hroom (Fh & Fl & Fr). rewrite flight_len_cons in Hroom. pose proof (flight_len_nonneg r).
  pose proof (flight_keys lp rp ackv r a (zlen (s_text s)) Hu ltac:(lia) ltac:(lia) Fr) as Hk.
  eapply Forall_impl; [|exact Hk]. intros e He. unfold beyond. cbv beta in He. lia.
Qed.

Lemma arrives_parked t e H :
  state_eqb (st t) SynSent = false -> in_segs t = H -> u32 (rcv_nxt t) ->
  heap_ordered H -> Forall (beyond (rcv_nxt t)) (e :: H) ->
  segment_arrives t e = Ok (set_in_segs t (heap_push H e), AOk) /\
  heap_ordered (heap_push H e) /\ Permutation (e :: H) (heap_push H e).
Proof.
  intros Hss Hs Hu Hord Hb.
  assert (Hr : Forall (in_range (rcv_nxt t)) (e :: H)).
  { eapply Forall_impl; [|exact Hb]. intros a. apply beyond_in_range. }
  destruct (heap_push_ordered (rcv_nxt t) H e Hr Hord) as [Ho Hp].
  split; [|split; assumption].
  destruct (heap_push H e) as [|top rest] eqn:Ev.
  { apply Permutation_length in Hp. cbn in Hp. lia. }
  apply (arrives_park t e (top :: rest) top); try assumption.
  - now rewrite Hs.
  - reflexivity.
  - apply beyond_mod_gt; [assumption|].
    rewrite Forall_forall in Hb. apply Hb. eapply Permutation_in; [symmetry; exact Hp|left; reflexivity].
Qed.

Lemma arrives_old_parked t h text d H :
  st t = Established -> in_segs t = H -> rcv_wnd t = 65535 -> u32 (rcv_nxt t) ->
  heap_ordered H -> Forall (beyond (rcv_nxt t)) H ->
  ack_only h -> u32 (h_seq h) -> 0 <= d -> wadd (h_seq h) (zlen text + d) = rcv_nxt t ->
  mod_leq (h_ack h) (snd_una t) = true ->
  0 < zlen text -> zlen text + d <= 65535 -> zlen (in_text t) <= 65535 ->
  exists H', segment_arrives t (mkSeg h text) = Ok (pstep_old (set_in_segs t H'), AOk) /\
    heap_ordered H' /\ Permutation H H'.
Proof.
  intros Est Hs Hw Hu Hord Hb Hh Hsu Hd Hseq Hleq Hlen Hroom Hspace.
  set (e := mkSeg h text). set (rn := rcv_nxt t) in *.
  (* the key of e, taken from a base below everything *)
  set (base := h_seq h).
  assert (Hke : seg_key base e = 0) by (unfold seg_key, base, e; cbn; apply wsub_diag).
  assert (Hkrn : wsub rn base = zlen text + d).
  { unfold base. rewrite <- Hseq, wsub_spec, wadd_spec. unfold u32, M32 in *. lia. }
  assert (HkH : Forall (fun a => zlen text + d < seg_key base a < H31) H).
  { eapply Forall_impl; [|exact Hb]. intros a Ha. unfold beyond, seg_key in *.
    rewrite !wsub_spec in *. unfold u32, M32, H31 in *. lia. }
  assert (Hr : Forall (in_range base) (e :: H)).
  { constructor; [unfold in_range, H31; lia|]. eapply Forall_impl; [|exact HkH]. intros a Ha. cbv beta in Ha. unfold in_range. lia. }
  destruct (heap_push_ordered base H e Hr Hord) as [Ho Hp].
  set (v := heap_push H e) in *.
  assert (Hvne : v <> []) by (intros E; rewrite E in Hp; apply Permutation_length in Hp; cbn in Hp; lia).
  destruct (heap_pop_some v Hvne) as (m & rest & Epop).
  assert (Hrv : Forall (in_range base) v) by (eapply Permutation_Forall; [exact Hp|exact Hr]).
  destruct (heap_pop_ordered base v m rest Hrv Ho Epop) as (Hmin & Hperm & Hordr).
  (* the popped element is e *)
  assert (Em : m = e).
  { assert (Hin : In m (e :: H)).
    { eapply Permutation_in; [symmetry; exact Hp|]. eapply Permutation_in; [symmetry; exact Hperm|left; reflexivity]. }
    destruct Hin as [<-|Hin]; [reflexivity|]. exfalso.
    assert (Hein : In e v) by (eapply Permutation_in; [exact Hp|left; reflexivity]).
    destruct (Hmin e Hein) as [_ Hle]. rewrite Forall_forall in HkH. specialize (HkH m Hin).
    pose proof (zlen_nonneg text). lia. }
  subst m.
  assert (HpermH : Permutation H rest).
  { apply (Permutation_cons_inv (a := e)). eapply Permutation_trans; [exact Hp|exact Hperm]. }
  exists rest. split; [|split; assumption].
  destruct (process_old (set_in_segs t rest) h text d Est Hw Hu Hh Hsu Hd Hseq Hleq Hlen Hroom Hspace)
    as (r & Eproc & Hnd).
  unfold segment_arrives. rewrite Hs. fold e v.
  assert (Hlenv : exists f, length v = Datatypes.S f).
  { destruct v; [congruence|eexists; reflexivity]. }
  destruct Hlenv as [f Ef]. rewrite Ef.
  remember (Datatypes.S f) as f1 eqn:Ef1.
  cbn [arrives_loop]. tcb_simpl. rewrite (heap_peek_pop v e rest Epop). rewrite Est. cbn [state_eqb negb andb].
  assert (Hgt : mod_gt (h_seq (s_hdr e)) (rcv_nxt t) = false).
  { unfold e; cbn [s_hdr]. unfold mod_gt, mod_lt. fold rn. fold base.
    rewrite wsub_spec in *. unfold u32, M32, H31 in *. lia. }
  rewrite Hgt, Epop. cbn iota beta.
  assert (E1 : set_in_segs (set_in_segs t v) rest = set_in_segs t rest) by reflexivity.
  rewrite E1. fold e in Eproc. rewrite Eproc, Hnd. subst f1.
  cbn [arrives_loop]. unfold pstep_old; tcb_simpl.
  destruct rest as [|top rest'] eqn:Erest; [reflexivity|]. cbn [heap_peek].
  rewrite Est. cbn [state_eqb negb andb].
  assert (Htop : mod_gt (h_seq (s_hdr top)) (rcv_nxt t) = true).
  { apply beyond_mod_gt; [assumption|]. rewrite Forall_forall in Hb. apply Hb.
    eapply Permutation_in; [symmetry; exact HpermH|left; reflexivity]. }
  rewrite Htop. reflexivity.
Qed.

Definition drain_result (t : tcb) (q : list segment) : tcb := fold_left pstep_in q (set_in_segs t []).

Lemma pstep_in_in_segs t s : in_segs (pstep_in t s) = in_segs t.
Proof. reflexivity. Qed.

(* e lies more than n and at most 65535 bytes beyond base *)
Definition past (base n : Z) (e : segment) : Prop := n < seg_key base e <= 65535.

Lemma past_shift base n d e : u32 base -> 0 <= d -> d <= n -> past base n e -> past (wadd base d) (n - d) e.
Proof.
  unfold past, seg_key. rewrite !wsub_spec, wadd_spec. unfold u32, M32. intros Hu Hd Hdn H. lia.
Qed.

Lemma drain_heap_gen lp rp ackv : forall q t H rest fuel,
  st t = Established -> rcv_wnd t = 65535 -> u32 (rcv_nxt t) -> mod_leq ackv (snd_una t) = true ->
  in_segs t = H -> heap_ordered H -> Permutation H (q ++ rest) ->
  flight lp rp ackv (rcv_nxt t) q -> zlen (in_text t) + flight_len q <= 65535 ->
  Forall (past (rcv_nxt t) (flight_len q)) rest ->
  (length H < fuel)%nat ->
  exists H', arrives_loop fuel t = Ok (set_in_segs (drain_result t q) H', AOk) /\
             heap_ordered H' /\ Permutation rest H'.
Proof.
  induction q as [|s0 q' IH]; intros t H rest fuel Est Hw Hu Hleq Hs Hord Hperm F Hroom Hrest Hfuel.
  - (* the run is exhausted: the heap is empty or its top lies beyond RCV.NXT *)
    cbn [app] in Hperm. exists H. split; [|split; [exact Hord|now apply Permutation_sym]].
    destruct fuel as [|f]; [lia|]. cbn [arrives_loop]. rewrite Hs.
    assert (Et : set_in_segs (drain_result t []) H = t) by (unfold drain_result; cbn [fold_left]; tcb_eq; now rewrite Hs).
    rewrite Et.
    destruct H as [|top r]; [reflexivity|]. cbn [heap_peek].
    rewrite Est. cbn [state_eqb negb andb].
    assert (Hin : In top rest) by (eapply Permutation_in; [exact Hperm|left; reflexivity]).
    rewrite Forall_forall in Hrest. specialize (Hrest top Hin).
    assert (Hb : beyond (rcv_nxt t) top).
    { unfold past, beyond in *. change (flight_len []) with 0 in Hrest. lia. }
    rewrite (beyond_mod_gt _ _ Hu Hb). reflexivity.
  - set (rn := rcv_nxt t) in *.
    pose proof (zlen_nonneg (in_text t)) as Hit0.
    assert (Hkeys : Forall (fun e => 0 <= seg_key rn e < 0 + flight_len (s0 :: q')) (s0 :: q')).
    { apply (flight_keys lp rp ackv (s0 :: q') rn 0 Hu ltac:(lia) ltac:(lia)).
      now rewrite (wadd_0_u32 rn Hu). }
    assert (Hr : Forall (in_range rn) H).
    { eapply Permutation_Forall; [symmetry; exact Hperm|]. apply Forall_app. split.
      - eapply Forall_impl; [|exact Hkeys]. intros e He. cbv beta in He. unfold in_range, H31. lia.
      - eapply Forall_impl; [|exact Hrest]. intros e He. unfold past in He. unfold in_range, H31. lia. }
    assert (Hne : H <> []).
    { intros ->. apply Permutation_nil in Hperm. discriminate. }
    destruct (heap_pop_some H Hne) as (m & rest0 & Epop).
    destruct (heap_pop_ordered rn H m rest0 Hr Hord Epop) as (Hmin & Hp2 & Hordr).
    assert (Hk0 : seg_key rn s0 = 0) by (apply (flight_head_key lp rp ackv rn s0 q' F)).
    assert (Htail : Forall (beyond rn) q') by (apply (flight_tail_beyond lp rp ackv rn s0 q' Hu ltac:(lia) F)).
    assert (Em : m = s0).
    { assert (Hin : In m ((s0 :: q') ++ rest)).
      { eapply Permutation_in; [exact Hperm|]. eapply Permutation_in; [symmetry; exact Hp2|left; reflexivity]. }
      cbn [app] in Hin. destruct Hin as [<-|Hin]; [reflexivity|]. exfalso.
      assert (Hs0in : In s0 H) by (eapply Permutation_in; [symmetry; exact Hperm|left; reflexivity]).
      destruct (Hmin s0 Hs0in) as [_ Hle].
      apply in_app_or in Hin. destruct Hin as [Hin|Hin].
      - rewrite Forall_forall in Htail. specialize (Htail m Hin). unfold beyond in Htail. lia.
      - rewrite Forall_forall in Hrest. specialize (Hrest m Hin). unfold past in Hrest.
        pose proof (flight_len_nonneg (s0 :: q')). lia. }
    subst m.
    assert (Hprest : Permutation rest0 (q' ++ rest)).
    { apply (Permutation_cons_inv (a := s0)). eapply Permutation_trans; [symmetry; exact Hp2|exact Hperm]. }
    destruct F as (Fh & Fl & Fr). rewrite flight_len_cons in Hroom, Hrest. pose proof (flight_len_nonneg q').
    destruct fuel as [|f]; [lia|]. cbn [arrives_loop]. rewrite Hs.
    rewrite (heap_peek_pop H s0 rest0 Epop). rewrite Est. cbn [state_eqb negb andb].
    assert (Hgt : mod_gt (h_seq (s_hdr s0)) (rcv_nxt t) = false).
    { rewrite Fh. cbn [data_hdr hb_wnd hb_ack h_seq]. apply mod_gt_refl_false. }
    rewrite Hgt, Epop. cbn iota beta.
    destruct s0 as [h text]. cbn [s_hdr s_text] in *.
    assert (Hao : ack_only h) by (rewrite Fh; apply data_hdr_ack_only).
    assert (Hsq : h_seq h = rcv_nxt t) by (rewrite Fh; reflexivity).
    assert (Hak : mod_leq (h_ack h) (snd_una t) = true) by (rewrite Fh; exact Hleq).
    assert (Hsp : zlen (in_text (set_in_segs t rest0)) + zlen text <= 65535) by (cbn [set_in_segs in_text]; lia).
    rewrite (process_inorder (set_in_segs t rest0) h text Est Hw Hu Hao Hsq Hak (proj1 Fl) Hsp).
    cbn [should_delete].
    set (t1 := pstep_in (set_in_segs t rest0) (mkSeg h text)).
    assert (P1 : u32 (rcv_nxt t1)) by (subst t1; unfold pstep_in; tcb_simpl; apply wadd_u32).
    assert (P3 : zlen (in_text t1) + flight_len q' <= 65535)
      by (subst t1; unfold pstep_in; tcb_simpl; rewrite zlen_app; lia).
    assert (P4 : (length rest0 < f)%nat) by (apply Permutation_length in Hp2; cbn [length] in Hp2; lia).
    assert (P5 : Forall (past (rcv_nxt t1) (flight_len q')) rest).
    { subst t1; unfold pstep_in; tcb_simpl. fold rn.
      eapply Forall_impl; [|exact Hrest]. intros e He.
      replace (flight_len q') with (zlen text + flight_len q' - zlen text) by lia.
      apply past_shift; try assumption; lia. }
    destruct (IH t1 rest0 rest f Est Hw P1 Hleq eq_refl Hordr Hprest Fr P3 P5 P4) as (H' & E & Ho & Hp).
    exists H'. split; [|split; assumption]. rewrite E. reflexivity.
Qed.

Lemma arrives_fill_gen lp rp ackv t s0 q' rest H :
  st t = Established -> rcv_wnd t = 65535 -> u32 (rcv_nxt t) -> mod_leq ackv (snd_una t) = true ->
  in_segs t = H -> heap_ordered H -> Permutation H (q' ++ rest) ->
  flight lp rp ackv (rcv_nxt t) (s0 :: q') -> zlen (in_text t) + flight_len (s0 :: q') <= 65535 ->
  Forall (past (rcv_nxt t) (flight_len (s0 :: q'))) rest ->
  exists H', segment_arrives t s0 = Ok (set_in_segs (drain_result t (s0 :: q')) H', AOk) /\
             heap_ordered H' /\ Permutation rest H'.
Proof.
  intros Est Hw Hu Hleq Hs Hord Hperm F Hroom Hrest. set (rn := rcv_nxt t) in *.
  pose proof (zlen_nonneg (in_text t)) as Hit0.
  assert (Hkeys : Forall (fun e => 0 <= seg_key rn e < 0 + flight_len (s0 :: q')) (s0 :: q')).
  { apply (flight_keys lp rp ackv (s0 :: q') rn 0 Hu ltac:(lia) ltac:(lia)).
    now rewrite (wadd_0_u32 rn Hu). }
  assert (Hr : Forall (in_range rn) (s0 :: H)).
  { eapply Permutation_Forall; [apply perm_skip; symmetry; exact Hperm|].
    change (s0 :: q' ++ rest) with ((s0 :: q') ++ rest). apply Forall_app. split.
    - eapply Forall_impl; [|exact Hkeys]. intros e He. cbv beta in He. unfold in_range, H31. lia.
    - eapply Forall_impl; [|exact Hrest]. intros e He. unfold past in He. unfold in_range, H31. lia. }
  destruct (heap_push_ordered rn H s0 Hr Hord) as [Ho Hp].
  unfold segment_arrives. rewrite Hs.
  destruct (drain_heap_gen lp rp ackv (s0 :: q') (set_in_segs t (heap_push H s0)) (heap_push H s0) rest
              (Datatypes.S (length (heap_push H s0)))) as (H' & E & Ho' & Hp'); try assumption; try reflexivity.
  - eapply Permutation_trans; [symmetry; exact Hp|]. cbn [app]. apply perm_skip. exact Hperm.
  - lia.
  - exists H'. split; [|split; assumption]. rewrite E. f_equal.
Qed.
