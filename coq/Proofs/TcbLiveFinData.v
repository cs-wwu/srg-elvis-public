(* C03 (c), liveness side: close() while written data is still queued.  segments() first cuts the
   queued text into a flight and only then appends the FIN, sequenced right after the last byte. *)
From Elvis Require Import Model.Base Model.U32 Model.Tcb Model.TcpNet Proofs.TcbSafetySnd
  Proofs.TcbLive Proofs.TcbLiveWin.
Local Open Scope Z_scope.

(* the FIN segments() queues: seq = sq, ack = ackv, window 65535 *)
Definition fin_hdr (lp rp sq ackv : Z) : header :=
  mkHdr lp rp sq ackv (mkCtl false true false false false true) 65535 0.

Lemma close_with_text t : st t = Established -> out_text t <> [] ->
  tcb_close t = (set_st (set_fin_pending t true) FinWait1, CloseOk).
Proof.
  intros Est Hne. unfold tcb_close. rewrite Est. unfold queue_pending_fin. tcb_simpl.
  destruct (out_text t); [congruence|reflexivity].
Qed.

Lemma segments_flight_fin t bytes :
  segmentizes (st t) = true -> oneshot t = [] -> retx t = [] -> out_text t = bytes -> fin_pending t = true ->
  snd_wnd t = 65535 -> rcv_wnd t = 65535 -> snd_una t = snd_nxt t -> u32 (snd_nxt t) ->
  100 <= mtu t <= 65535 -> 0 < zlen bytes <= 65535 ->
  let n := zlen bytes in
  let fin := mkSeg (fin_hdr (lport t) (rport t) (wadd (snd_nxt t) n) (rcv_nxt t)) [] in
  exists segs,
    tcb_segments t =
    Ok (set_rto (set_retx (set_snd_nxt (set_fin_pending (set_out_text (set_oneshot t []) []) false)
                                       (wadd (wadd (snd_nxt t) n) 1))
                          (map (fun s => mkTx s false) (segs ++ [fin]))) RTO, segs ++ [fin]) /\
    flight (lport t) (rport t) (rcv_nxt t) (snd_nxt t) segs /\
    flight_bytes segs = bytes /\ segs <> [].
Proof.
  intros Hseg Hone Hretx Hout Hf Hsw Hrw Hun Hu Hm Hn n fin. subst n.
  destruct (seg_loop_flight (mtu t - 50) ltac:(lia) (Datatypes.S (length (out_text t))) (set_oneshot t []) 0)
    as (segs & E & F & B); try assumption; try reflexivity.
  - tcb_simpl. rewrite Hun. apply wsub_diag.
  - lia.
  - tcb_simpl. lia.
  - cbv zeta in E, B. tcb_simpl. rewrite Hout, Hretx, Z.sub_0_r in *. cbn [app] in E.
    replace (Z.min (zlen bytes) 65535) with (zlen bytes) in * by lia.
    assert (Hall : Z.to_nat (zlen bytes) = length bytes) by (unfold zlen; apply Nat2Z.id).
    rewrite Hall, firstn_all in B. rewrite Hall, skipn_all in E.
    assert (Hne : segs <> []).
    { intros ->. unfold flight_bytes in B. cbn in B. rewrite <- B in Hn. cbn in Hn. lia. }
    exists segs. split; [|auto].
    rewrite (tcb_segments_eq t _ Hseg ltac:(lia) ltac:(rewrite Hout; exact E)).
    rewrite queue_pending_fin_fire; [|exact Hf|reflexivity]. unfold emit_queue. tcb_simpl.
    match goal with |- context [[mkTx ?f true]] => change [mkTx f true] with (map (fun s => mkTx s true) [f]) end.
    rewrite <- map_app, filter_needs_true, map_tseg_mk, reflag_map, Hone, Hrw. cbn [map app].
    destruct segs as [|s0 r]; [congruence|]. reflexivity.
Qed.
