(* The closed system of two session tasks (Model/TcpSession.v, part 3): every step preserves
   the invariant of the two-endpoint TCB system (Proofs/TcbSafetyDefs.v) on the abstraction
   that forgets the queues, so C01's safety holds for the session tasks as they are.

   Abstraction: a task that runs is a live endpoint with its TCB, a task that left its loop
   is a dead endpoint; the segments waiting in a task's channel are still "in flight"; the
   submitted stream of the TCB system is what the TCB accepted; what was delivered is what the
   task flushed upstream.  TcpNet has no label for a bare advance_time (LTick emits first), so
   this is not a label-by-label refinement: each task step is matched with the per-operation
   preservation lemma of TcbSafetyStep.v (arrival, send, advance, emit, receive). *)
From Elvis Require Import Model.Base Model.U32 Model.Tcb Model.TcpNet Model.TcpSession
  Proofs.U32Facts Proofs.TcbSafetyDefs Proofs.TcbSafetyBase Proofs.TcbSafetySnd
  Proofs.TcbSafetySys Proofs.TcbSafetyStep Proofs.TcbSafety Proofs.TcbEdges Proofs.TcpNetStep.
Local Open Scope Z_scope.

Lemma yt_set_yt y x v : yt (set_yt y x v) x = v. Proof. sd. Qed.
Lemma yt_set_yt_o y x v : yt (set_yt y x v) (other x) = yt y (other x). Proof. sd. Qed.
Lemma yt_set_yn y x v z : yt (set_yn y x v) z = yt y z. Proof. sd. Qed.
Lemma yt_set_ypush y x v z : yt (set_ypush y x v) z = yt y z. Proof. sd. Qed.
Lemma yt_set_yhand y x v z : yt (set_yhand y x v) z = yt y z. Proof. sd. Qed.
Lemma yt_set_yacc y x v z : yt (set_yacc y x v) z = yt y z. Proof. sd. Qed.
Lemma yt_set_yfl y x v z : yt (set_yfl y x v) z = yt y z. Proof. sd. Qed.
Lemma yt_set_ypan y v z : yt (set_ypan y v) z = yt y z. Proof. sd. Qed.
Lemma yn_set_yt y x v z : yn (set_yt y x v) z = yn y z. Proof. sd. Qed.
Lemma yn_set_yn y x v : yn (set_yn y x v) x = v. Proof. sd. Qed.
Lemma yn_set_yn_o y x v : yn (set_yn y x v) (other x) = yn y (other x). Proof. sd. Qed.
Lemma yn_set_ypush y x v z : yn (set_ypush y x v) z = yn y z. Proof. sd. Qed.
Lemma yn_set_yhand y x v z : yn (set_yhand y x v) z = yn y z. Proof. sd. Qed.
Lemma yn_set_yacc y x v z : yn (set_yacc y x v) z = yn y z. Proof. sd. Qed.
Lemma yn_set_yfl y x v z : yn (set_yfl y x v) z = yn y z. Proof. sd. Qed.
Lemma yn_set_ypan y v z : yn (set_ypan y v) z = yn y z. Proof. sd. Qed.
Lemma ypush_set_yt y x v z : ypush (set_yt y x v) z = ypush y z. Proof. sd. Qed.
Lemma ypush_set_yn y x v z : ypush (set_yn y x v) z = ypush y z. Proof. sd. Qed.
Lemma ypush_set_ypush y x v : ypush (set_ypush y x v) x = v. Proof. sd. Qed.
Lemma ypush_set_ypush_o y x v : ypush (set_ypush y x v) (other x) = ypush y (other x). Proof. sd. Qed.
Lemma ypush_set_yhand y x v z : ypush (set_yhand y x v) z = ypush y z. Proof. sd. Qed.
Lemma ypush_set_yacc y x v z : ypush (set_yacc y x v) z = ypush y z. Proof. sd. Qed.
Lemma ypush_set_yfl y x v z : ypush (set_yfl y x v) z = ypush y z. Proof. sd. Qed.
Lemma ypush_set_ypan y v z : ypush (set_ypan y v) z = ypush y z. Proof. sd. Qed.
Lemma yhand_set_yt y x v z : yhand (set_yt y x v) z = yhand y z. Proof. sd. Qed.
Lemma yhand_set_yn y x v z : yhand (set_yn y x v) z = yhand y z. Proof. sd. Qed.
Lemma yhand_set_ypush y x v z : yhand (set_ypush y x v) z = yhand y z. Proof. sd. Qed.
Lemma yhand_set_yhand y x v : yhand (set_yhand y x v) x = v. Proof. sd. Qed.
Lemma yhand_set_yhand_o y x v : yhand (set_yhand y x v) (other x) = yhand y (other x). Proof. sd. Qed.
Lemma yhand_set_yacc y x v z : yhand (set_yacc y x v) z = yhand y z. Proof. sd. Qed.
Lemma yhand_set_yfl y x v z : yhand (set_yfl y x v) z = yhand y z. Proof. sd. Qed.
Lemma yhand_set_ypan y v z : yhand (set_ypan y v) z = yhand y z. Proof. sd. Qed.
Lemma yacc_set_yt y x v z : yacc (set_yt y x v) z = yacc y z. Proof. sd. Qed.
Lemma yacc_set_yn y x v z : yacc (set_yn y x v) z = yacc y z. Proof. sd. Qed.
Lemma yacc_set_ypush y x v z : yacc (set_ypush y x v) z = yacc y z. Proof. sd. Qed.
Lemma yacc_set_yhand y x v z : yacc (set_yhand y x v) z = yacc y z. Proof. sd. Qed.
Lemma yacc_set_yacc y x v : yacc (set_yacc y x v) x = v. Proof. sd. Qed.
Lemma yacc_set_yacc_o y x v : yacc (set_yacc y x v) (other x) = yacc y (other x). Proof. sd. Qed.
Lemma yacc_set_yfl y x v z : yacc (set_yfl y x v) z = yacc y z. Proof. sd. Qed.
Lemma yacc_set_ypan y v z : yacc (set_ypan y v) z = yacc y z. Proof. sd. Qed.
Lemma yfl_set_yt y x v z : yfl (set_yt y x v) z = yfl y z. Proof. sd. Qed.
Lemma yfl_set_yn y x v z : yfl (set_yn y x v) z = yfl y z. Proof. sd. Qed.
Lemma yfl_set_ypush y x v z : yfl (set_ypush y x v) z = yfl y z. Proof. sd. Qed.
Lemma yfl_set_yhand y x v z : yfl (set_yhand y x v) z = yfl y z. Proof. sd. Qed.
Lemma yfl_set_yacc y x v z : yfl (set_yacc y x v) z = yfl y z. Proof. sd. Qed.
Lemma yfl_set_yfl y x v : yfl (set_yfl y x v) x = v. Proof. sd. Qed.
Lemma yfl_set_yfl_o y x v : yfl (set_yfl y x v) (other x) = yfl y (other x). Proof. sd. Qed.
Lemma yfl_set_ypan y v z : yfl (set_ypan y v) z = yfl y z. Proof. sd. Qed.
Lemma ypan_set_yt y x v : ypan (set_yt y x v) = ypan y. Proof. sd. Qed.
Lemma ypan_set_yn y x v : ypan (set_yn y x v) = ypan y. Proof. sd. Qed.
Lemma ypan_set_ypush y x v : ypan (set_ypush y x v) = ypan y. Proof. sd. Qed.
Lemma ypan_set_yhand y x v : ypan (set_yhand y x v) = ypan y. Proof. sd. Qed.
Lemma ypan_set_yacc y x v : ypan (set_yacc y x v) = ypan y. Proof. sd. Qed.
Lemma ypan_set_yfl y x v : ypan (set_yfl y x v) = ypan y. Proof. sd. Qed.
Lemma ypan_set_ypan y v : ypan (set_ypan y v) = v. Proof. reflexivity. Qed.

Global Hint Rewrite other_other yt_set_yt yt_set_yt_o yt_set_yn yt_set_ypush yt_set_yhand yt_set_yacc yt_set_yfl yt_set_ypan yn_set_yt yn_set_yn yn_set_yn_o yn_set_ypush yn_set_yhand yn_set_yacc yn_set_yfl yn_set_ypan ypush_set_yt ypush_set_yn ypush_set_ypush ypush_set_ypush_o ypush_set_yhand ypush_set_yacc ypush_set_yfl ypush_set_ypan yhand_set_yt yhand_set_yn yhand_set_ypush yhand_set_yhand yhand_set_yhand_o yhand_set_yacc yhand_set_yfl yhand_set_ypan yacc_set_yt yacc_set_yn yacc_set_ypush yacc_set_yhand yacc_set_yacc yacc_set_yacc_o yacc_set_yfl yacc_set_ypan yfl_set_yt yfl_set_yn yfl_set_ypush yfl_set_yhand yfl_set_yacc yfl_set_yfl yfl_set_yfl_o yfl_set_ypan ypan_set_yt ypan_set_yn ypan_set_ypush ypan_set_yhand ypan_set_yacc ypan_set_yfl ypan_set_ypan : yr.

Lemma yt_set_yt_o2 y x v : yt (set_yt y (other x) v) x = yt y x. Proof. sd. Qed.
Lemma yn_set_yn_o2 y x v : yn (set_yn y (other x) v) x = yn y x. Proof. sd. Qed.
Lemma ypush_set_ypush_o2 y x v : ypush (set_ypush y (other x) v) x = ypush y x. Proof. sd. Qed.
Lemma yhand_set_yhand_o2 y x v : yhand (set_yhand y (other x) v) x = yhand y x. Proof. sd. Qed.
Lemma yacc_set_yacc_o2 y x v : yacc (set_yacc y (other x) v) x = yacc y x. Proof. sd. Qed.
Lemma yfl_set_yfl_o2 y x v : yfl (set_yfl y (other x) v) x = yfl y x. Proof. sd. Qed.
Global Hint Rewrite yt_set_yt_o2 yn_set_yn_o2 ypush_set_ypush_o2 yhand_set_yhand_o2 yacc_set_yacc_o2 yfl_set_yfl_o2 : yr.

Ltac yr := autorewrite with yr.

Lemma end_set_end_o2 s x e : end_of (set_end s (other x) e) x = end_of s x. Proof. sd. Qed.
Lemma net_set_net_o2 s x n : net_of (set_net s (other x) n) x = net_of s x. Proof. sd. Qed.
Lemma sub_set_sub_o2 s x v : sub_of (set_sub s (other x) v) x = sub_of s x. Proof. sd. Qed.
Lemma del_set_del_o2 s x v : del_of (set_del s (other x) v) x = del_of s x. Proof. sd. Qed.
Global Hint Rewrite end_set_end_o2 net_set_net_o2 sub_set_sub_o2 del_set_del_o2 : sysr.

Definition yend (t : ytask) : endpoint :=
  match t with
  | YNone => EClosed
  | YListen => EListen
  | YRun s _ => match ss_phase s with PEnded | PCrashed => EDead | _ => ELive (ss_tcb s) end
  end.
Definition yq (t : ytask) : list instr := match t with YRun _ q => q | _ => [] end.

Definition yabs (y : ysys) : sys :=
  mkSys (yend (ytA y)) (yend (ytB y))
        (ynA y ++ qsegs (yq (ytB y))) (ynB y ++ qsegs (yq (ytA y)))
        (yaccA y) (yaccB y) (yflA y) (yflB y) (ypan y).

Lemma end_yabs y x : end_of (yabs y) x = yend (yt y x). Proof. sd. Qed.
Lemma net_yabs y x : net_of (yabs y) x = yn y x ++ qsegs (yq (yt y (other x))). Proof. sd. Qed.
Lemma sub_yabs y x : sub_of (yabs y) x = yacc y x. Proof. sd. Qed.
Lemma del_yabs y x : del_of (yabs y) x = yfl y x. Proof. sd. Qed.
Lemma pan_yabs y : panicked (yabs y) = ypan y. Proof. reflexivity. Qed.

Lemma yt_apply_outs y x os z : yt (apply_outs y x os) z = yt y z.
Proof. unfold apply_outs. destruct (panicked_of os); sd. Qed.
Lemma yn_apply_outs y x os : yn (apply_outs y x os) x = yn y x ++ emitted_of os.
Proof. unfold apply_outs. destruct (panicked_of os); sd. Qed.
Lemma yn_apply_outs_o y x os : yn (apply_outs y x os) (other x) = yn y (other x).
Proof. unfold apply_outs. destruct (panicked_of os); sd. Qed.
Lemma yfl_apply_outs y x os : yfl (apply_outs y x os) x = yfl y x ++ flushed_of os.
Proof. unfold apply_outs. destruct (panicked_of os); sd. Qed.
Lemma yfl_apply_outs_o y x os : yfl (apply_outs y x os) (other x) = yfl y (other x).
Proof. unfold apply_outs. destruct (panicked_of os); sd. Qed.
Lemma ypush_apply_outs y x os z : ypush (apply_outs y x os) z = ypush y z.
Proof. unfold apply_outs. destruct (panicked_of os); sd. Qed.
Lemma yhand_apply_outs y x os z : yhand (apply_outs y x os) z = yhand y z.
Proof. unfold apply_outs. destruct (panicked_of os); sd. Qed.
Lemma yacc_apply_outs y x os z : yacc (apply_outs y x os) z = yacc y z.
Proof. unfold apply_outs. destruct (panicked_of os); sd. Qed.
Lemma ypan_apply_outs y x os : ypan (apply_outs y x os) = (panicked_of os || ypan y)%bool.
Proof. unfold apply_outs. destruct (panicked_of os); sd. Qed.

Global Hint Rewrite yt_apply_outs yn_apply_outs yn_apply_outs_o yfl_apply_outs yfl_apply_outs_o
  ypush_apply_outs yhand_apply_outs yacc_apply_outs ypan_apply_outs : yr.

Lemma yn_apply_outs_o2 y x os : yn (apply_outs y (other x) os) x = yn y x.
Proof. unfold apply_outs. destruct (panicked_of os); sd. Qed.
Lemma yfl_apply_outs_o2 y x os : yfl (apply_outs y (other x) os) x = yfl y x.
Proof. unfold apply_outs. destruct (panicked_of os); sd. Qed.
Global Hint Rewrite yn_apply_outs_o2 yfl_apply_outs_o2 : yr.

Lemma emitted_of_app a b : emitted_of (a ++ b) = emitted_of a ++ emitted_of b.
Proof. unfold emitted_of. apply flat_map_app. Qed.
Lemma flushed_of_app a b : flushed_of (a ++ b) = flushed_of a ++ flushed_of b.
Proof. unfold flushed_of. apply flat_map_app. Qed.
Lemma emitted_of_map segs : emitted_of (map OEmitted segs) = segs.
Proof. induction segs as [|a l IH]; [reflexivity|]. cbn. f_equal. exact IH. Qed.
Lemma flushed_of_map segs : flushed_of (map OEmitted segs) = [].
Proof. induction segs as [|a l IH]; [reflexivity|]. cbn. exact IH. Qed.
Lemma panicked_of_map segs : panicked_of (map OEmitted segs) = false.
Proof. induction segs as [|a l IH]; [reflexivity|]. cbn. exact IH. Qed.

Lemma sess_top_quiet t c :
  emitted_of (snd (sess_top t c)) = [] /\ flushed_of (snd (sess_top t c)) = [] /\
  panicked_of (snd (sess_top t c)) = false.
Proof. unfold sess_top. destruct c; [auto|]. destruct (state_eqb _ _); auto. Qed.

Lemma sess_start_shape t : exists c os,
  sess_start t = (mkSess t c (PDrain true), os) /\
  emitted_of os = [] /\ flushed_of os = [] /\ panicked_of os = false.
Proof.
  unfold sess_start. pose proof (sess_top_quiet t false) as H.
  destruct (sess_top t false) as [c os]. exists c, os. auto.
Qed.

Lemma qsegs_app a b : qsegs (a ++ b) = qsegs a ++ qsegs b.
Proof. unfold qsegs. apply flat_map_app. Qed.
Lemma qbytes_app a b : qbytes (a ++ b) = qbytes a ++ qbytes b.
Proof. unfold qbytes. apply flat_map_app. Qed.

Lemma set_end_id s z : set_end s z (end_of s z) = s.
Proof. destruct s, z; reflexivity. Qed.
Lemma set_net_id s z : set_net s z (net_of s z) = s.
Proof. destruct s, z; reflexivity. Qed.
Lemma set_del_id s z : set_del s z (del_of s z) = s.
Proof. destruct s, z; reflexivity. Qed.

Lemma side_all (P : side -> Prop) x : P x -> P (other x) -> forall z, P z.
Proof. intros H1 H2 z. destruct (side_cases x z) as [-> | ->]; assumption. Qed.

Lemma prefix_refl {A} (l : list A) : prefix l l.
Proof. exists []. now rewrite app_nil_r. Qed.
Lemma prefix_trans {A} (a b c : list A) : prefix a b -> prefix b c -> prefix a c.
Proof. intros [r ->] [r' ->]. exists (r ++ r'). now rewrite app_assoc. Qed.
Lemma prefix_app {A} (a r : list A) : prefix a (a ++ r).
Proof. exists r. reflexivity. Qed.
Lemma prefix_zlen {A} (a b : list A) : prefix a b -> zlen a <= zlen b.
Proof. intros [r ->]. rewrite zlen_app. pose proof (zlen_nonneg r). lia. Qed.

Lemma incl_app_swap {A} (a b d : list A) : incl ((a ++ b) ++ d) ((a ++ d) ++ b).
Proof. intros x. rewrite !in_app_iff. tauto. Qed.

(* SysInv only looks at the projections; the in-flight multisets may shrink or be permuted,
   and a dead endpoint may have delivered less *)
Lemma sysinv_transfer c s s' :
  SysInv c s -> panicked s' = false ->
  (forall x, end_of s' x = end_of s x) -> (forall x, sub_of s' x = sub_of s x) ->
  (forall x, del_of s' x = del_of s x \/
             (end_of s x = EDead /\ prefix (concat (del_of s' x)) (concat (del_of s x)))) ->
  (forall x, incl (net_of s' x) (net_of s x)) ->
  SysInv c s'.
Proof.
  intros (P & W & E & N) P' He Hs Hd Hn.
  assert (Epv : forall x, pv_of c s' x = pv_of c s x).
  { intros x. rewrite !pv_of_eq, He, Hs. reflexivity. }
  unfold SysInv. splits.
  - exact P'.
  - intros x. rewrite Epv. apply W.
  - intros x. specialize (E x). rewrite EndInv_eq in *. rewrite Epv, He, !Hs.
    unfold delivered in *. destruct (Hd x) as [-> | [Hdead Hpre]]; [exact E|].
    rewrite Hdead in *. cbn [EndInvP] in *. eapply prefix_trans; eassumption.
  - intros x. rewrite Epv. eapply incl_Forall; [apply Hn|apply N].
Qed.

(* a task that leaves its loop does not read once more: the dead endpoint has delivered less *)
Lemma sysinv_no_final_read c s x t : SysInv c (set_end (final_read s x t) x EDead) -> SysInv c (set_end s x EDead).
Proof.
  intros HI. destruct (final_read_other s x t) as (F1 & F2 & F3 & F4 & F5).
  apply (sysinv_transfer c _ _ HI).
  - pose proof (proj1 HI) as P. rewrite pan_set_end, F4 in P. rewrite pan_set_end. exact P.
  - apply (side_all _ x); sysr; rewrite ?F1; reflexivity.
  - intros z. sysr. rewrite F2. reflexivity.
  - apply (side_all _ x); sysr.
    + right. split; [reflexivity|]. fold (delivered s x) (delivered (final_read s x t) x).
      rewrite delivered_final_read. apply prefix_app.
    + left. symmetry. exact F5.
  - intros z. sysr. rewrite F3. apply incl_refl.
Qed.

(* every TCB operation of the task keeps a state that no longer accepts text that way *)
Lemma rfc_edge_accepts a b : rfc_edge a b = true -> accepts_send b = true -> accepts_send a = true.
Proof. destruct a, b; cbn; intros H; try discriminate H; auto. Qed.

Lemma segment_arrives_accepts t seg t' r : segment_arrives t seg = Ok (t', r) ->
  accepts_send (st t') = true -> accepts_send (st t) = true.
Proof.
  intros H. apply segment_arrives_path in H.
  induction H as [a b H| |a b d _ IH1 _ IH2]; [apply rfc_edge_accepts, H|auto|auto].
Qed.

Definition ytask_accepts (t : ytask) : bool :=
  match t with YRun s _ => accepts_send (st (ss_tcb s)) | _ => true end.

(* per side: the application's stream = what the task has handled + what waits in its channel;
   what the TCB accepted is a prefix of what the task handled, and all of it while the TCB
   still accepts text *)
Definition QInv (y : ysys) (x : side) : Prop :=
  ypush y x = yhand y x ++ qbytes (yq (yt y x)) /\
  prefix (yacc y x) (yhand y x) /\
  (ytask_accepts (yt y x) = true -> yacc y x = yhand y x).

Definition YInv (c : config) (y : ysys) : Prop := SysInv c (yabs y) /\ forall x, QInv y x.

Lemma QInv_ext y y' x :
  yt y' x = yt y x -> ypush y' x = ypush y x -> yhand y' x = yhand y x -> yacc y' x = yacc y x ->
  QInv y x -> QInv y' x.
Proof. unfold QInv. intros -> -> -> ->. auto. Qed.

Lemma QInv_set_yt y x v :
  QInv y x -> qbytes (yq v) = qbytes (yq (yt y x)) ->
  (ytask_accepts v = true -> ytask_accepts (yt y x) = true) ->
  QInv (set_yt y x v) x.
Proof.
  unfold QInv. rewrite yt_set_yt, ypush_set_yt, yhand_set_yt, yacc_set_yt.
  intros (Q1 & Q2 & Q3) -> Ha. auto.
Qed.

Lemma QInv_set_yt_o y x v : QInv y (other x) -> QInv (set_yt y x v) (other x).
Proof. apply QInv_ext; [apply yt_set_yt_o|apply ypush_set_yt|apply yhand_set_yt|apply yacc_set_yt]. Qed.

Lemma QInv_apply_outs y x os z : QInv y z -> QInv (apply_outs y x os) z.
Proof. apply QInv_ext; [apply yt_apply_outs|apply ypush_apply_outs|apply yhand_apply_outs|apply yacc_apply_outs]. Qed.

Lemma yabs_set_yhand y x v : yabs (set_yhand y x v) = yabs y.
Proof. destruct x; reflexivity. Qed.
Lemma yabs_set_yacc y x v : yabs (set_yacc y x v) = set_sub (yabs y) x v.
Proof. destruct x; reflexivity. Qed.

Section Steps.
  Variable c : config.
  Hypothesis Hc : cfg_ok c.

  Lemma ypan_false y : YInv c y -> ypan y = false.
  Proof. intros [HI _]. rewrite <- pan_yabs. apply HI. Qed.

  Lemma yinv_from_target y' tg :
    SysInv c tg -> ypan y' = false ->
    (forall z, end_of tg z = yend (yt y' z)) ->
    (forall z, sub_of tg z = yacc y' z) ->
    (forall z, del_of tg z = yfl y' z) ->
    (forall z, incl (yn y' z ++ qsegs (yq (yt y' (other z)))) (net_of tg z)) ->
    (forall z, QInv y' z) ->
    YInv c y'.
  Proof.
    intros HT Hp He Ha Hf Hn HQ. split; [|exact HQ].
    apply (sysinv_transfer c tg); [exact HT|exact Hp| | | |].
    - intros z. rewrite end_yabs. symmetry. apply He.
    - intros z. rewrite sub_yabs. symmetry. apply Ha.
    - intros z. left. rewrite del_yabs. symmetry. apply Hf.
    - intros z. rewrite net_yabs. apply Hn.
  Qed.

  Lemma ytask_inv y x v os tg :
    SysInv c tg -> ypan y = false -> panicked_of os = false ->
    end_of tg x = yend v -> end_of tg (other x) = yend (yt y (other x)) ->
    (forall z, sub_of tg z = yacc y z) ->
    del_of tg x = yfl y x ++ flushed_of os -> del_of tg (other x) = yfl y (other x) ->
    incl ((yn y x ++ emitted_of os) ++ qsegs (yq (yt y (other x)))) (net_of tg x) ->
    incl (yn y (other x) ++ qsegs (yq v)) (net_of tg (other x)) ->
    QInv (set_yt y x v) x -> QInv y (other x) ->
    YInv c (apply_outs (set_yt y x v) x os).
  Proof.
    intros HT Hp Hos Ex Eo Hs Dx Do Nx No Qx Qo.
    apply (yinv_from_target _ tg HT).
    - rewrite ypan_apply_outs, Hos, ypan_set_yt. exact Hp.
    - apply (side_all _ x); rewrite yt_apply_outs; [rewrite yt_set_yt|rewrite yt_set_yt_o]; assumption.
    - intros z. rewrite yacc_apply_outs, yacc_set_yt. apply Hs.
    - apply (side_all _ x); [rewrite yfl_apply_outs|rewrite yfl_apply_outs_o]; rewrite yfl_set_yt; assumption.
    - apply (side_all _ x).
      + rewrite yn_apply_outs, yt_apply_outs, yn_set_yt, yt_set_yt_o. exact Nx.
      + rewrite yn_apply_outs_o, yt_apply_outs, other_other, yn_set_yt, yt_set_yt. exact No.
    - apply (side_all _ x); apply QInv_apply_outs; [exact Qx|apply QInv_set_yt_o, Qo].
  Qed.

  Lemma ytcb_inv y x v os :
    ypan y = false -> QInv y (other x) -> QInv (set_yt y x v) x ->
    emitted_of os = [] -> flushed_of os = [] -> panicked_of os = false ->
    SysInv c (set_end (set_net (yabs y) (other x) (yn y (other x) ++ qsegs (yq v))) x (yend v)) ->
    YInv c (apply_outs (set_yt y x v) x os).
  Proof.
    intros Hp Qo Qx E1 E2 E3 HT. apply (ytask_inv _ _ _ _ _ HT); try assumption.
    - sd.
    - sd.
    - sd.
    - rewrite E2, app_nil_r. sd.
    - sd.
    - rewrite E1, app_nil_r. destruct x; apply incl_refl.
    - destruct x; apply incl_refl.
  Qed.

  (* what waits in the channel of x counts as in flight already *)
  Lemma yabs_net_id y x q : qsegs q = qsegs (yq (yt y x)) ->
    set_net (yabs y) (other x) (yn y (other x) ++ qsegs q) = yabs y.
  Proof. intros ->. rewrite <- (set_net_id (yabs y) (other x)) at 2. rewrite net_yabs, other_other. reflexivity. Qed.

  Lemma write_inv y x bytes s q : YInv c y -> yt y x = YRun s q ->
    YInv c (set_ypush (set_yt y x (YRun s (q ++ [IOutgoing bytes]))) x (ypush y x ++ bytes)).
  Proof.
    intros HY El. pose proof HY as [HI HQ].
    apply (yinv_from_target _ _ HI).
    - rewrite ypan_set_ypush, ypan_set_yt. apply ypan_false, HY.
    - apply (side_all _ x); [|sd]. rewrite end_yabs, yt_set_ypush, yt_set_yt, El. reflexivity.
    - sd.
    - sd.
    - apply (side_all _ x); [destruct x; apply incl_refl|].
      rewrite net_yabs, other_other, yn_set_ypush, yn_set_yt, yt_set_ypush, yt_set_yt, El.
      cbn [yq]. rewrite qsegs_app, app_nil_r. apply incl_refl.
    - apply (side_all _ x); [|apply (QInv_ext y); try apply HQ; sd].
      destruct (HQ x) as (Q1 & Q2 & Q3). unfold QInv.
      rewrite yt_set_ypush, yt_set_yt, ypush_set_ypush, yhand_set_ypush, yhand_set_yt, yacc_set_ypush, yacc_set_yt.
      rewrite El in *. split; [|split; assumption].
      cbn [yq] in *. rewrite Q1, qbytes_app. cbn. rewrite app_nil_r, app_assoc. reflexivity.
  Qed.

  Lemma net_shrink_inv y x l : YInv c y -> incl l (yn y x) -> YInv c (set_yn y x l).
  Proof.
    intros HY Hl. pose proof HY as [HI HQ].
    apply (yinv_from_target _ _ HI).
    - rewrite ypan_set_yn. apply ypan_false, HY.
    - sd.
    - sd.
    - sd.
    - apply (side_all _ x); [|destruct x; apply incl_refl].
      rewrite net_yabs, yn_set_yn, yt_set_yn. apply incl_app; [apply incl_appl, Hl|apply incl_appr, incl_refl].
    - intros z. apply (QInv_ext y); try apply HQ; sd.
  Qed.

  Lemma net_take_inv y x n j seg : YInv c y -> yn y x = n -> nth_error n j = Some seg ->
    YInv c (set_yn y x (remove_nth n j)) /\ seg_inv (pv_of c (yabs (set_yn y x (remove_nth n j))) x) seg.
  Proof.
    intros HY <- Hnth. split; [apply net_shrink_inv; [exact HY|apply remove_nth_incl]|].
    destruct HY as [(_ & _ & _ & N) _]. specialize (N x). rewrite net_yabs, Forall_forall in N.
    replace (pv_of c (yabs (set_yn y x (remove_nth (yn y x) j))) x) with (pv_of c (yabs y) x) by sd.
    apply N, in_or_app. left. eapply nth_error_In, Hnth.
  Qed.

  (* Tcp::demux hands the segment to the existing session: it waits in the channel *)
  Lemma arrive_run_inv y r seg s q : YInv c y -> seg_inv (pv_of c (yabs y) (other r)) seg ->
    yt y r = YRun s q -> YInv c (set_yt y r (YRun s (q ++ [IIncoming seg]))).
  Proof.
    intros HY Hseg El. pose proof HY as [HI HQ].
    assert (HT : SysInv c (set_net (yabs y) (other r) (net_of (yabs y) (other r) ++ [seg]))).
    { apply sysinv_set_net; [exact HI|]. apply Forall_app. split; [apply HI|]. constructor; [exact Hseg|constructor]. }
    apply (yinv_from_target _ _ HT).
    - rewrite ypan_set_yt. apply ypan_false, HY.
    - apply (side_all _ r); [|sd]. rewrite end_set_net, end_yabs, yt_set_yt, El. reflexivity.
    - sd.
    - sd.
    - apply (side_all _ r); [destruct r; apply incl_refl|].
      rewrite net_set_net, net_yabs, other_other, yn_set_yt, yt_set_yt, El.
      cbn [yq]. rewrite qsegs_app, app_assoc. apply incl_refl.
    - apply (side_all _ r); [|apply (QInv_ext y); try apply HQ; sd].
      apply QInv_set_yt; [apply HQ| |]; rewrite El; [|intros H; exact H].
      cbn [yq]. rewrite qbytes_app. apply app_nil_r.
  Qed.

  Lemma yreply_inv y r sg : YInv c y -> SysInv c (set_net (yabs y) r (net_of (yabs y) r ++ [sg])) ->
    YInv c (set_yn y r (yn y r ++ [sg])).
  Proof.
    intros HY HT. pose proof HY as [HI HQ].
    apply (yinv_from_target _ _ HT).
    - rewrite ypan_set_yn. apply ypan_false, HY.
    - sd.
    - sd.
    - sd.
    - apply (side_all _ r); [|destruct r; apply incl_refl].
      rewrite net_set_net, net_yabs, yn_set_yn, yt_set_yn. apply incl_app_swap.
    - intros z. apply (QInv_ext y); try apply HQ; sd.
  Qed.

  (* a task starts on a fresh TCB (Tcp::open, or a SYN at a listen binding): first round top *)
  Lemma ystart_inv y x t0 : YInv c y -> yt y x = YNone \/ yt y x = YListen ->
    SysInv c (set_end (yabs y) x (ELive t0)) ->
    YInv c (let '(s0, os) := sess_start t0 in apply_outs (set_yt y x (YRun s0 [])) x os).
  Proof.
    intros HY El HT. pose proof HY as [HI HQ].
    destruct (sess_start_shape t0) as (c0 & os & -> & E1 & E2 & E3).
    assert (Eq : yq (yt y x) = []) by (destruct El as [-> | ->]; reflexivity).
    apply ytcb_inv; try assumption.
    - apply ypan_false, HY.
    - apply HQ.
    - apply QInv_set_yt; [apply HQ|rewrite Eq; reflexivity|].
      intros _. destruct El as [-> | ->]; reflexivity.
    - rewrite yabs_net_id by (rewrite Eq; reflexivity). exact HT.
  Qed.

  Lemma yopen_inv y x : YInv c y -> yt y x = YNone ->
    YInv c (let '(s0, os) := sess_start (tcb_open (port_of c x) (port_of c (other x)) (iss_of c x) (mtu_of c x)) in
            apply_outs (set_yt y x (YRun s0 [])) x os).
  Proof.
    intros HY El. apply ystart_inv; [exact HY|left; exact El|].
    apply open_inv; [apply HY|]. rewrite end_yabs, El. reflexivity.
  Qed.

  Lemma arrive_listen_inv y r seg : YInv c y -> seg_inv (pv_of c (yabs y) (other r)) seg ->
    yt y r = YListen ->
    YInv c (match arrives_listen seg (iss_of c r) (mtu_of c r) with
            | LNone => y
            | LResponse h => set_yn y r (yn y r ++ [mkSeg h []])
            | LTcb t => let '(s0, os) := sess_start t in apply_outs (set_yt y r (YRun s0 [])) r os
            end).
  Proof.
    intros HY Hseg El. pose proof (arrive_inv c Hc (yabs y) r seg (proj1 HY) Hseg) as HT.
    unfold arrive in HT. rewrite end_yabs, El in HT. cbn [yend] in HT.
    destruct (arrives_listen seg (iss_of c r) (mtu_of c r)) as [|h|t]; cbn [fst] in HT.
    - exact HY.
    - apply yreply_inv; assumption.
    - apply ystart_inv; [exact HY|right; exact El|exact HT].
  Qed.

  Lemma arrive_none_inv y r seg : YInv c y -> seg_inv (pv_of c (yabs y) (other r)) seg ->
    yt y r = YNone ->
    YInv c (match arrives_closed (s_hdr seg) (zlen (s_text seg)) with
            | None => y
            | Some h => set_yn y r (yn y r ++ [mkSeg h []])
            end).
  Proof.
    intros HY Hseg El. pose proof (arrive_inv c Hc (yabs y) r seg (proj1 HY) Hseg) as HT.
    unfold arrive in HT. rewrite end_yabs, El in HT. cbn [yend] in HT.
    destruct (arrives_closed (s_hdr seg) (zlen (s_text seg))) as [h|]; cbn [fst] in HT.
    - apply yreply_inv; assumption.
    - exact HY.
  Qed.

  Definition running (s : sess) : bool :=
    match ss_phase s with PEnded | PCrashed => false | _ => true end.
  Lemma yend_running s q : running s = true -> yend (YRun s q) = ELive (ss_tcb s).
  Proof. unfold running, yend. destruct (ss_phase s); try discriminate; reflexivity. Qed.

  (* try_recv found the channel empty (l.78) *)
  Lemma take_empty_inv y x s nt : YInv c y -> yt y x = YRun s [] -> ss_phase s = PDrain nt ->
    YInv c (ytake y x s [] SEmpty).
  Proof.
    intros HY El Hph. pose proof HY as [HI HQ].
    unfold ytake, sess_step. cbv zeta. rewrite Hph. cbv beta iota.
    apply ytcb_inv; try reflexivity.
    - apply ypan_false, HY.
    - apply HQ.
    - apply QInv_set_yt; [apply HQ| |]; rewrite El; [reflexivity|intros H; exact H].
    - rewrite yabs_net_id by (rewrite El; reflexivity).
      replace (yend _) with (end_of (yabs y) x); [rewrite set_end_id; exact HI|].
      rewrite end_yabs, El. unfold yend. cbn [ss_phase ss_tcb]. rewrite Hph. destruct nt; reflexivity.
  Qed.

  (* an Incoming instruction is taken from the channel (l.68-76 or l.86-95) *)
  Lemma take_incoming_inv y x s q seg next : YInv c y ->
    yt y x = YRun s (IIncoming seg :: q) -> running s = true ->
    next = PDrain false \/ next = PReady ->
    sess_step s (SIncoming seg) = sess_handle s (SIncoming seg) next ->
    YInv c (ytake y x s q (SIncoming seg)).
  Proof.
    intros HY El Hrun Hnext Hstep. pose proof HY as [HI HQ].
    pose proof (proj2 (proj2 (proj2 HI)) (other x)) as N.
    rewrite net_yabs, other_other, El in N. cbn [yq qsegs flat_map app] in N.
    apply Forall_app in N. destruct N as [N1 N2]. inversion N2 as [|? ? Hseg N3]; subst.
    pose proof (deliver_inv c Hc (yabs y) (other x) seg (yn y (other x) ++ qsegs q) HI) as HT.
    rewrite other_other in HT. specialize (HT (proj2 (Forall_app _ _ _) (conj N1 N3)) Hseg).
    unfold arrive in HT. rewrite end_set_net, end_yabs, El, (yend_running s _ Hrun) in HT.
    unfold ytake. rewrite Hstep. unfold sess_handle. cbv zeta.
    assert (Qx : forall t1 r ph, segment_arrives (ss_tcb s) seg = Ok (t1, r) ->
                 QInv (set_yt y x (YRun (mkSess t1 (ss_conn s) ph) q)) x).
    { intros t1 r ph Ea. apply QInv_set_yt; [apply HQ| |]; rewrite El; [reflexivity|].
      apply (segment_arrives_accepts _ _ _ _ Ea). }
    destruct (segment_arrives (ss_tcb s) seg) as [[t1 []]|e|p|]; cbn [fst] in HT;
      try discriminate (proj1 HT).
    - apply ytcb_inv; try reflexivity; [apply ypan_false, HY|apply HQ|eapply Qx; reflexivity|].
      replace (yend _) with (ELive t1) by (destruct Hnext as [-> | ->]; reflexivity). exact HT.
    - (* Close: the task leaves its loop; nothing more is emitted or flushed *)
      apply ytcb_inv; try reflexivity; [apply ypan_false, HY|apply HQ|eapply Qx; reflexivity|].
      apply sysinv_no_final_read in HT. exact HT.
  Qed.

  Lemma take_outgoing_inv y x s q b next : YInv c y ->
    yt y x = YRun s (IOutgoing b :: q) -> running s = true ->
    next = PDrain false \/ next = PReady ->
    sess_step s (SOutgoing b) = sess_handle s (SOutgoing b) next ->
    zlen (ypush y x) < SEQ_BOUND ->
    YInv c (ytake y x s q (SOutgoing b)).
  Proof.
    intros HY El Hrun Hnext Hstep Hb. pose proof HY as [HI HQ]. pose proof (ypan_false y HY) as Hp.
    pose proof (HQ x) as (Q1 & Q2 & Q3). rewrite El in Q1, Q3. cbn [yq qbytes flat_map ytask_accepts] in Q1, Q3.
    fold (qbytes q) in Q1.
    assert (El' : end_of (yabs y) x = ELive (ss_tcb s)) by (rewrite end_yabs, El; apply yend_running, Hrun).
    pose proof (send_sys_inv c Hc (yabs y) x (ss_tcb s) b HI El') as HT. cbv zeta in HT.
    unfold ytake. rewrite Hstep. unfold sess_handle. cbv zeta.
    pose proof (zlen_nonneg (qbytes q)) as Hq0. pose proof (zlen_nonneg b) as Hb0.
    rewrite Q1, !zlen_app in Hb.
    destruct (accepts_send (st (ss_tcb s))) eqn:Eacc.
    - specialize (Q3 eq_refl). rewrite sub_set_sub, sub_yabs, Q3, zlen_app in HT. specialize (HT ltac:(lia)).
      apply ytcb_inv; try reflexivity.
      + rewrite ypan_set_yacc, ypan_set_yhand. exact Hp.
      + apply (QInv_ext y); try apply HQ; sd.
      + unfold QInv. rewrite yt_set_yt, ypush_set_yt, ypush_set_yacc, ypush_set_yhand, yhand_set_yt, yhand_set_yacc,
          yhand_set_yhand, yacc_set_yt, yacc_set_yacc, yacc_set_yhand, Q3.
        cbn [yq ytask_accepts]. split; [|split].
        * rewrite Q1, <- app_assoc. reflexivity.
        * apply prefix_refl.
        * reflexivity.
      + rewrite yabs_net_id by (rewrite yt_set_yacc, yt_set_yhand, El; reflexivity).
        rewrite yabs_set_yacc, yabs_set_yhand, yacc_set_yhand, Q3.
        replace (yend _) with (ELive (tcb_send (ss_tcb s) b)) by (destruct Hnext as [-> | ->]; reflexivity). exact HT.
    - rewrite sub_yabs in HT. specialize (HT ltac:(pose proof (prefix_zlen _ _ Q2); lia)).
      apply ytcb_inv; try reflexivity.
      + rewrite ypan_set_yhand. exact Hp.
      + apply (QInv_ext y); try apply HQ; sd.
      + unfold QInv. rewrite yt_set_yt, ypush_set_yt, ypush_set_yhand, yhand_set_yt, yhand_set_yhand, yacc_set_yt, yacc_set_yhand.
        cbn [yq ytask_accepts ss_tcb]. split; [|split].
        * rewrite Q1, <- app_assoc. reflexivity.
        * eapply prefix_trans; [exact Q2|apply prefix_app].
        * rewrite tcb_send_st, Eacc. discriminate.
      + rewrite yabs_net_id by (rewrite yt_set_yhand, El; reflexivity). rewrite yabs_set_yhand.
        replace (yend _) with (ELive (tcb_send (ss_tcb s) b)) by (destruct Hnext as [-> | ->]; reflexivity). exact HT.
  Qed.

  (* segments() and the hand-over of every segment to the IPv4 session (l.112-120) *)
  Lemma take_emit_inv y x s q : YInv c y -> yt y x = YRun s q -> ss_phase s = PReady ->
    YInv c (ytake y x s q SEmit).
  Proof.
    intros HY El Hph. pose proof HY as [HI HQ].
    destruct (emit_inv c Hc (yabs y) x HI) as [HT Hbad].
    unfold emit in HT, Hbad. rewrite end_yabs, El in HT, Hbad. unfold yend in HT, Hbad. rewrite Hph in HT, Hbad.
    unfold ytake, sess_step. cbv zeta. rewrite Hph. cbv beta iota.
    destruct (tcb_segments (ss_tcb s)) as [[t1 segs]|e|p|] eqn:Es; cbn [fst snd] in HT, Hbad; try discriminate Hbad.
    apply (ytask_inv _ _ _ _ _ HT).
    - apply ypan_false, HY.
    - apply panicked_of_map.
    - sd.
    - sd.
    - sd.
    - cbn [flushed_of flat_map app]. fold (flushed_of (map OEmitted segs)). rewrite flushed_of_map, app_nil_r. sd.
    - sd.
    - cbn [emitted_of flat_map app]. fold (emitted_of (map OEmitted segs)).
      rewrite emitted_of_map, net_set_net, net_yabs. apply incl_app_swap.
    - rewrite net_set_net_o, net_set_end, net_yabs, other_other, El. apply incl_refl.
    - apply QInv_set_yt; [apply HQ| |]; rewrite El; [reflexivity|].
      cbn [ytask_accepts ss_tcb]. rewrite (tcb_segments_st _ _ _ Es). intros H; exact H.
    - apply HQ.
  Qed.

  (* receive(), upstream.demux of a non-empty result, and the top of the next round (l.122-132, l.55-64) *)
  Lemma take_flush_inv y x s q : YInv c y -> yt y x = YRun s q -> ss_phase s = PEmitted ->
    YInv c (ytake y x s q SFlush).
  Proof.
    intros HY El Hph. pose proof HY as [HI HQ].
    pose proof (recv_inv c (yabs y) x HI) as HT.
    unfold recv in HT. rewrite end_yabs, El in HT. unfold yend in HT. rewrite Hph in HT.
    unfold tcb_receive in HT. cbn [fst] in HT.
    unfold ytake, sess_step. cbv zeta. rewrite Hph. cbv beta iota. unfold tcb_receive.
    pose proof (sess_top_quiet (set_in_text (ss_tcb s) []) (ss_conn s)) as (T1 & T2 & T3).
    destruct (sess_top (set_in_text (ss_tcb s) []) (ss_conn s)) as [c0 o]. cbn [snd] in T1, T2, T3.
    set (os := OCall CReceive :: OFlushed (in_text (ss_tcb s)) :: o).
    assert (E2 : flushed_of os = match in_text (ss_tcb s) with [] => [] | _ => [in_text (ss_tcb s)] end).
    { subst os. cbn [flushed_of flat_map app]. fold (flushed_of o). rewrite T2. destruct (in_text (ss_tcb s)); reflexivity. }
    assert (HT' : SysInv c (set_del (set_end (yabs y) x (ELive (set_in_text (ss_tcb s) []))) x (del_of (yabs y) x ++ flushed_of os))).
    { rewrite E2. destruct (in_text (ss_tcb s)); [|exact HT].
      rewrite app_nil_r, <- (del_set_end (yabs y) x (ELive (set_in_text (ss_tcb s) [])) x), set_del_id. exact HT. }
    apply (ytask_inv _ _ _ _ _ HT').
    - apply ypan_false, HY.
    - exact T3.
    - sd.
    - sd.
    - sd.
    - sd.
    - sd.
    - subst os. cbn [emitted_of flat_map app]. fold (emitted_of o). rewrite T1, app_nil_r. destruct x; apply incl_refl.
    - rewrite net_set_del, net_set_end, net_yabs, other_other, El. apply incl_refl.
    - apply QInv_set_yt; [apply HQ| |]; rewrite El; [reflexivity|intros H; exact H].
    - apply HQ.
  Qed.

  (* the 5 ms timeout elapsed: advance_time(TIMEOUT) (l.100-108) *)
  Lemma take_advance_inv y x s q : YInv c y -> yt y x = YRun s q -> ss_phase s = PWait ->
    YInv c (ytake y x s q SAdvance).
  Proof.
    intros HY El Hph. pose proof HY as [HI HQ].
    assert (El' : end_of (yabs y) x = ELive (ss_tcb s)) by (rewrite end_yabs, El; unfold yend; rewrite Hph; reflexivity).
    pose proof (advance_sys_inv c (yabs y) x (ss_tcb s) TIMEOUT_MS HI El') as HT.
    unfold ytake, sess_step. cbv zeta. rewrite Hph. cbv beta iota.
    pose proof (advance_time_st (ss_tcb s) TIMEOUT_MS) as Est.
    destruct (advance_time (ss_tcb s) TIMEOUT_MS) as [t1 r]. cbn [fst] in Est.
    assert (Qx : forall ph, QInv (set_yt y x (YRun (mkSess t1 (ss_conn s) ph) q)) x).
    { intros ph. apply QInv_set_yt; [apply HQ| |]; rewrite El; [reflexivity|].
      cbn [ytask_accepts ss_tcb]. rewrite Est. intros H; exact H. }
    destruct r.
    - apply ytcb_inv; try reflexivity; [apply ypan_false, HY|apply HQ|apply Qx|].
      rewrite yabs_net_id by (rewrite El; reflexivity). exact HT.
    - apply ytcb_inv; try reflexivity; [apply ypan_false, HY|apply HQ|apply Qx|].
      rewrite yabs_net_id by (rewrite El; reflexivity). apply sysinv_no_final_read in HT. exact HT.
  Qed.

  (* either kind of instruction, at either of the two places where the task receives (l.67, l.85) *)
  Lemma take_instr_inv y x s i q : YInv c y -> yt y x = YRun s (i :: q) ->
    (exists nt, ss_phase s = PDrain nt) \/ ss_phase s = PWait ->
    zlen (ypush y x) < SEQ_BOUND ->
    YInv c (ytake y x s q (ev_of_instr i)).
  Proof.
    intros HY El Hph Hb.
    assert (exists next, (next = PDrain false \/ next = PReady) /\ running s = true /\
                         sess_step s (ev_of_instr i) = sess_handle s (ev_of_instr i) next) as (next & Hn & Hrun & Hstep).
    { unfold running, sess_step. destruct Hph as [[nt ->] | ->]; [exists (PDrain false)|exists PReady]; destruct i; auto. }
    destruct i; [eapply take_incoming_inv|eapply take_outgoing_inv]; eassumption.
  Qed.

  Lemma nth_mod_In {A} (n : list A) i seg : nth_error n (Nat.modulo i (length n)) = Some seg -> In seg n.
  Proof. apply nth_error_In. Qed.

  Lemma ystep_inv y l : YInv c y -> (forall z, zlen (ypush y z) < SEQ_BOUND) -> YInv c (ystep c y l).
  Proof.
    intros HY Hb. unfold ystep. rewrite (ypan_false y HY).
    destruct l as [x|x bytes|x|x|x i|x i|x i].
    - destruct (yt y x) eqn:El; try exact HY. apply yopen_inv; assumption.
    - destruct (yt y x) as [| |s q] eqn:El; try exact HY. apply write_inv; assumption.
    - destruct (yt y x) as [| |s q] eqn:El; try exact HY.
      destruct (ss_phase s) as [nt| | | | |] eqn:Hph; try exact HY.
      + destruct q as [|i q']; [eapply take_empty_inv; eassumption|].
        apply take_instr_inv; [exact HY|exact El|rewrite Hph; eauto|apply Hb].
      + destruct q as [|i q']; [exact HY|].
        apply take_instr_inv; [exact HY|exact El|rewrite Hph; eauto|apply Hb].
      + apply take_emit_inv; assumption.
      + apply take_flush_inv; assumption.
    - destruct (yt y x) as [| |s q] eqn:El; try exact HY.
      destruct (ss_phase s) eqn:Hph; try exact HY. apply take_advance_inv; assumption.
    - destruct (yn y x) as [|a n'] eqn:En; [exact HY|].
      destruct (nth_error (a :: n') (Nat.modulo i (length (a :: n')))) as [seg|] eqn:Hnth; [|exact HY].
      cbv zeta. destruct (net_take_inv y x _ _ seg HY En Hnth) as [HY1 Hseg].
      rewrite <- (other_other x) in Hseg at 2.
      destruct (yt _ (other x)) as [| |s q] eqn:El.
      + apply arrive_none_inv; assumption.
      + apply arrive_listen_inv; assumption.
      + apply arrive_run_inv; assumption.
    - destruct (yn y x) as [|a n'] eqn:En; [exact HY|].
      apply net_shrink_inv; [exact HY|]. rewrite En. apply remove_nth_incl.
    - destruct (yn y x) as [|a n'] eqn:En; [exact HY|].
      destruct (nth_error (a :: n') (Nat.modulo i (length (a :: n')))) as [seg|] eqn:Hnth; [|exact HY].
      apply net_shrink_inv; [exact HY|]. rewrite En.
      apply incl_app; [apply incl_refl|]. intros seg0 [<-|[]]. eapply nth_error_In, Hnth.
  Qed.
End Steps.

Lemma ypush_ytake y x s q e z : ypush (ytake y x s q e) z = ypush y z.
Proof.
  unfold ytake. destruct (sess_step s e) as [[s1 os]|]; [|reflexivity].
  destruct e; try (yr; reflexivity).
  destruct (accepts_send _); yr; reflexivity.
Qed.

Lemma ystep_push c y l z : prefix (ypush y z) (ypush (ystep c y l) z).
Proof.
  assert (Hsame : forall y', ypush y' z = ypush y z -> prefix (ypush y z) (ypush y' z)).
  { intros y' ->. apply prefix_refl. }
  unfold ystep. destruct (ypan y); [apply Hsame; reflexivity|].
  destruct l as [x|x bytes|x|x|x i|x i|x i].
  - destruct (yt y x); try (apply Hsame; reflexivity).
    destruct (sess_start _) as [s0 os]. apply Hsame. yr. reflexivity.
  - destruct (yt y x) as [| |s q]; try (apply Hsame; reflexivity).
    destruct (side_cases x z) as [-> | ->]; yr; [apply prefix_app|apply prefix_refl].
  - destruct (yt y x) as [| |s q]; try (apply Hsame; reflexivity).
    destruct (ss_phase s), q; apply Hsame; try reflexivity; apply ypush_ytake.
  - destruct (yt y x) as [| |s q]; try (apply Hsame; reflexivity).
    destruct (ss_phase s); apply Hsame; try reflexivity; apply ypush_ytake.
  - destruct (yn y x) as [|a n']; [apply Hsame; reflexivity|].
    destruct (nth_error _ _) as [seg|]; [|apply Hsame; reflexivity].
    cbv zeta. rewrite yt_set_yn. destruct (yt y (other x)) as [| |s q].
    + destruct (arrives_closed _ _); apply Hsame; yr; reflexivity.
    + destruct (arrives_listen _ _ _) as [|h|t]; try (apply Hsame; yr; reflexivity).
      destruct (sess_start t) as [s0 os]. apply Hsame. yr. reflexivity.
    + apply Hsame. yr. reflexivity.
  - destruct (yn y x); apply Hsame; yr; reflexivity.
  - destruct (yn y x) as [|a n']; [apply Hsame; reflexivity|].
    destruct (nth_error _ _); apply Hsame; yr; reflexivity.
Qed.

Lemma yrun_push c ls : forall y z, prefix (ypush y z) (ypush (yrun c y ls) z).
Proof.
  induction ls as [|l ls IH]; intros y z; cbn [yrun fold_left]; [apply prefix_refl|].
  eapply prefix_trans; [apply ystep_push|apply IH].
Qed.

Lemma yinit_inv c b : cfg_ok c -> YInv c (yinit b).
Proof.
  intros Hc. split.
  - replace (yabs (yinit b)) with (init_sys b) by (destruct b; reflexivity). apply init_inv, Hc.
  - intros x. unfold QInv. destruct x, b; cbn; repeat split; try apply prefix_refl; reflexivity.
Qed.

Lemma yrun_inv c : cfg_ok c -> forall ls y,
  YInv c y -> (forall z, zlen (ypush (yrun c y ls) z) < SEQ_BOUND) -> YInv c (yrun c y ls).
Proof.
  intros Hc. induction ls as [|l ls IH]; intros y HY Hb; cbn [yrun fold_left]; [exact HY|].
  apply IH; [|exact Hb].
  apply ystep_inv; try assumption.
  intros z. pose proof (prefix_zlen _ _ (yrun_push c (l :: ls) y z)) as H. specialize (Hb z). lia.
Qed.

Theorem yreach c b ls : cfg_ok c ->
  let y := yrun c (yinit b) ls in
  zlen (ypushA y) < SEQ_BOUND -> zlen (ypushB y) < SEQ_BOUND -> YInv c y.
Proof. intros Hc y Ha Hb. apply yrun_inv; [exact Hc|apply yinit_inv, Hc|]. intros []; assumption. Qed.

(* C01 safety for the session tasks, in any state that satisfies the invariant *)
Lemma yinv_safety c y : YInv c y ->
  ypan y = false /\ prefix (yflushed y SB) (ypushA y) /\ prefix (yflushed y SA) (ypushB y).
Proof.
  intros HY. split; [apply (ypan_false c y HY)|]. destruct HY as [HI HQ].
  assert (Hdir : forall z, prefix (yflushed y z) (ypush y (other z))).
  { intros z. pose proof (sysinv_prefix c (yabs y) z HI) as H1. unfold delivered in H1. rewrite del_yabs, sub_yabs in H1.
    destruct (HQ (other z)) as (Q1 & Q2 & _).
    eapply prefix_trans; [exact H1|]. eapply prefix_trans; [exact Q2|]. rewrite Q1. apply prefix_app. }
  split; [apply (Hdir SB)|apply (Hdir SA)].
Qed.

Lemma yinv_handled c y : YInv c y ->
  SysInv c (yabs y) /\
  forall x, exists handled, ypush y x = handled ++ qbytes (yq (yt y x)) /\
                            exists rest, handled = sub_of (yabs y) x ++ rest.
Proof.
  intros [HI HQ]. split; [exact HI|]. intros x. destruct (HQ x) as (Q1 & Q2 & _).
  exists (yhand y x). rewrite sub_yabs. split; [exact Q1|exact Q2].
Qed.
