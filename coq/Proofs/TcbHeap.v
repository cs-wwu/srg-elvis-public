(* Order correctness of the model's BinaryHeap<Segment> (Model/Tcb.v: heap_push = push + sift_up,
   heap_pop = swap_remove + sift_down_to_bottom + sift_up), for heaps of any size.
   The model's order seg_le is the circular comparison of sequence numbers; it is a total preorder
   only on segments whose sequence numbers lie within half the sequence space of a common base,
   which is the hypothesis [in_range base].  Under it: push and pop preserve the heap shape
   (every child <= its parent in the model's order) and the multiset of elements, and pop returns
   a maximum of the order, i.e. a segment with the smallest sequence number. *)
From Elvis Require Import Model.Base Model.U32 Model.Tcb Proofs.U32Facts.
From Elvis Require Export Proofs.HeapPerm.
From Coq Require Import Permutation.
Local Open Scope Z_scope.
Ltac splits := repeat match goal with |- _ /\ _ => split end.

Definition par (i : nat) : nat := Nat.div (i - 1) 2.

Lemma par_lt i : (0 < i)%nat -> (par i < i)%nat.
Proof. apply parent_lt. Qed.

Lemma par_children c p : (0 < c)%nat -> (par c = p <-> c = (2 * p + 1)%nat \/ c = (2 * p + 2)%nat).
Proof.
  unfold par. intros Hc.
  pose proof (Nat.div_mod (c - 1) 2 ltac:(lia)) as Hdm.
  pose proof (Nat.mod_upper_bound (c - 1) 2 ltac:(lia)) as Hm.
  split; intros H; [|destruct H as [-> | ->]].
  - lia.
  - replace (2 * p + 1 - 1)%nat with (p * 2)%nat by lia. now rewrite Nat.div_mul.
  - replace (2 * p + 2 - 1)%nat with (1 + p * 2)%nat by lia. rewrite Nat.div_add by lia. reflexivity.
Qed.

Section Heap.
  Variable key : segment -> Z.
  Variable P : segment -> Prop.
  (* on the elements we care about, the model's order is the reversed order of the keys *)
  Hypothesis seg_le_key : forall a b, P a -> P b -> seg_le a b = (key b <=? key a).
  Variable d : segment.

  Notation "v @ i" := (nth i v d) (at level 9).

  Definition heap_ok (v : list segment) : Prop :=
    forall i, (0 < i < length v)%nat -> key v@(par i) <= key v@i.

  (* heap with a hole at pos: all parent/child pairs that do not touch the hole are in order,
     and the parent of the hole is below the children of the hole *)
  Definition hole_ok (v : list segment) (pos : nat) : Prop :=
    (pos < length v)%nat /\
    (forall i, (0 < i < length v)%nat -> i <> pos -> par i <> pos -> key v@(par i) <= key v@i) /\
    (forall c, (0 < pos)%nat -> (0 < c < length v)%nat -> par c = pos -> key v@(par pos) <= key v@c).

  Lemma Forall_nth v i : Forall P v -> (i < length v)%nat -> P v@i.
  Proof. intros H Hi. rewrite Forall_forall in H. apply H, nth_In, Hi. Qed.

  Lemma sift_up_ok : forall fuel v pos x,
    hole_ok v pos -> (forall c, (0 < c < length v)%nat -> par c = pos -> key x <= key v@c) ->
    (pos < fuel)%nat -> Forall P v -> P x -> heap_ok (sift_up fuel v pos x).
  Proof.
    induction fuel as [|f IH]; intros v pos x (Hp & H1 & H2) Hx Hfuel HP Px; [lia|].
    assert (Hdone : (pos = 0%nat \/ key v@(par pos) <= key x) -> heap_ok (set_nth v pos x)).
    { intros Hcase. intros i Hi. rewrite set_nth_length in Hi.
      destruct (Nat.eq_dec i pos) as [->|Hne].
      - rewrite nth_set_nth_eq by assumption.
        rewrite nth_set_nth_neq by (pose proof (par_lt pos); lia).
        destruct Hcase; [lia|assumption].
      - rewrite (nth_set_nth_neq v pos i) by congruence.
        destruct (Nat.eq_dec (par i) pos) as [Hpi|Hpi].
        + rewrite Hpi, nth_set_nth_eq by assumption. apply Hx; [lia|assumption].
        + rewrite nth_set_nth_neq by congruence. apply H1; assumption. }
    cbn [sift_up]. destruct pos as [|pos']; [apply Hdone; auto|].
    set (pos := Datatypes.S pos') in *. fold (par pos).
    pose proof (par_lt pos ltac:(lia)) as Hpl.
    rewrite get_or_nth. rewrite (nth_indep v x d) by lia.
    rewrite (seg_le_key x v@(par pos) Px (Forall_nth v (par pos) HP ltac:(lia))).
    destruct (key v@(par pos) <=? key x) eqn:Ecmp; [apply Hdone; right; lia|].
    assert (Hlt : key x < key v@(par pos)) by lia.
    set (p := v@(par pos)) in *. set (v' := set_nth v pos p).
    assert (Hv'len : length v' = length v) by apply set_nth_length.
    assert (Hv'pos : v'@pos = p) by (apply nth_set_nth_eq; assumption).
    assert (Hv'k : forall k, k <> pos -> v'@k = v@k) by (intros k Hk; apply nth_set_nth_neq; congruence).
    apply (IH v' (par pos) x).
    - (* hole_ok v' (par pos) *)
      split; [lia|]. split.
      + intros i Hi Hne Hpne. rewrite Hv'len in Hi.
        destruct (Nat.eq_dec i pos) as [->|Hip]; [congruence|].
        rewrite (Hv'k i Hip).
        destruct (Nat.eq_dec (par i) pos) as [Hpi|Hpi].
        * rewrite Hpi, Hv'pos. apply H2; [lia|lia|assumption].
        * rewrite Hv'k by assumption. apply H1; assumption.
      + intros c Hpp Hc Hpc. rewrite Hv'len in Hc.
        assert (Hgp : key v@(par (par pos)) <= key p).
        { apply (H1 (par pos)); [lia|lia|pose proof (par_lt (par pos)); lia]. }
        rewrite Hv'k by (pose proof (par_lt (par pos)); lia).
        destruct (Nat.eq_dec c pos) as [->|Hcp]; [now rewrite Hv'pos|].
        rewrite Hv'k by assumption.
        assert (key p <= key v@c) by (unfold p; rewrite <- Hpc; apply H1; [lia|assumption|lia]).
        lia.
    - (* x below the children of the new hole *)
      intros c Hc Hpc. rewrite Hv'len in Hc.
      destruct (Nat.eq_dec c pos) as [->|Hcp]; [rewrite Hv'pos; lia|].
      rewrite Hv'k by assumption.
      assert (key p <= key v@c) by (unfold p; rewrite <- Hpc; apply H1; [lia|assumption|lia]).
      lia.
    - lia.
    - apply set_nth_Forall; [assumption|]. apply Forall_nth; [assumption|lia].
    - exact Px.
  Qed.

  (* the hole moves from pos to its child c, whose element goes up: fine if no child of pos
     has a smaller key than c *)
  Lemma hole_down v pos c : hole_ok v pos -> (0 < c < length v)%nat -> par c = pos ->
    (forall c', (0 < c' < length v)%nat -> par c' = pos -> key v@c <= key v@c') ->
    hole_ok (set_nth v pos v@c) c.
  Proof.
    intros (Hp & H1 & H2) Hc Hpc Hmin.
    pose proof (par_lt c ltac:(lia)) as Hlt.
    set (v' := set_nth v pos v@c).
    assert (Hv'len : length v' = length v) by apply set_nth_length.
    assert (Hv'pos : v'@pos = v@c) by (apply nth_set_nth_eq; assumption).
    assert (Hv'k : forall k, k <> pos -> v'@k = v@k) by (intros k Hk; apply nth_set_nth_neq; congruence).
    split; [lia|]. split.
    - intros i Hi Hne Hpne. rewrite Hv'len in Hi.
      destruct (Nat.eq_dec i pos) as [->|Hip].
      + rewrite Hv'pos. rewrite Hv'k by (pose proof (par_lt pos); lia).
        apply H2; [lia|lia|assumption].
      + rewrite (Hv'k i Hip). destruct (Nat.eq_dec (par i) pos) as [Hpi|Hpi].
        * rewrite Hpi, Hv'pos. apply Hmin; [lia|exact Hpi].
        * rewrite Hv'k by assumption. apply H1; assumption.
    - intros c0 _ Hc0 Hpc0. rewrite Hv'len in Hc0. rewrite Hpc, Hv'pos.
      assert (c0 <> pos) by (pose proof (par_lt c0); lia).
      rewrite Hv'k by assumption. rewrite <- Hpc0. apply H1; [lia|assumption|lia].
  Qed.

  Lemma sift_down_ok : forall fuel v pos x,
    hole_ok v pos -> (length v + 1 <= fuel + pos)%nat -> Forall P v ->
    let '(v1, pos1) := sift_down fuel v pos x in
    hole_ok v1 pos1 /\ (forall c, (0 < c < length v1)%nat -> par c <> pos1) /\
    length v1 = length v /\ Forall P v1.
  Proof.
    induction fuel as [|f IH]; intros v pos x (Hp & H1 & H2) Hfuel HP; [lia|].
    cbn [sift_down]. set (n := length v) in *. set (child := (2 * pos + 1)%nat).
    destruct (Nat.leb child (n - 2) && Nat.leb 2 n) eqn:E2.
    - (* two children: move the one with the smaller key up *)
      assert (Hc2 : (child + 1 < n)%nat).
      { apply andb_prop in E2. destruct E2 as [A B]. apply Nat.leb_le in A, B. lia. }
      rewrite !get_or_nth. rewrite (nth_indep v x d (n:=child)) by lia.
      rewrite (nth_indep v x d (n:=Datatypes.S child)) by lia.
      rewrite (seg_le_key v@child v@(Datatypes.S child)) by (apply Forall_nth; [assumption|lia]).
      set (cc := if key v@(Datatypes.S child) <=? key v@child then Datatypes.S child else child).
      assert (Hcc : (cc = child \/ cc = Datatypes.S child) /\ (cc < n)%nat /\ par cc = pos /\
                    key v@cc <= key v@child /\ key v@cc <= key v@(Datatypes.S child)).
      { subst cc. destruct (key v@(Datatypes.S child) <=? key v@child) eqn:Ec.
        - splits; auto; try lia. apply par_children; lia.
        - splits; auto; try lia. apply par_children; lia. }
      destruct Hcc as (Hcase & Hccn & Hpcc & Hle1 & Hle2).
      rewrite (nth_indep v x d (n:=cc)) by lia.
      specialize (IH (set_nth v pos v@cc) cc x). rewrite set_nth_length in IH.
      destruct (sift_down f (set_nth v pos v@cc) cc x) as [v1 pos1].
      destruct IH as (A1 & A2 & A4 & A5).
      + apply hole_down; [split; [assumption|split; assumption]|lia|exact Hpcc|].
        intros c' Hc' Hpc'.
        assert (H : c' = child \/ c' = Datatypes.S child) by (apply par_children in Hpc'; lia).
        destruct H as [-> | ->]; assumption.
      + lia.
      + apply set_nth_Forall; [assumption|apply Forall_nth; assumption].
      + splits; auto; try lia.
    - destruct (Nat.eqb child (n - 1) && Nat.leb 1 n) eqn:E1.
      + (* a single child: move it up, the hole is the last position *)
        assert (Hc1 : (child = n - 1)%nat /\ (1 <= n)%nat).
        { apply andb_prop in E1. destruct E1 as [A B]. apply Nat.eqb_eq in A. apply Nat.leb_le in B. auto. }
        destruct Hc1 as [Hce Hn1].
        rewrite get_or_nth. rewrite (nth_indep v x d) by lia.
        assert (Hpc : par child = pos) by (apply par_children; lia).
        splits.
        * apply hole_down; [split; [assumption|split; assumption]|lia|exact Hpc|].
          intros c' Hc' Hpc'. assert (c' = child) by (apply par_children in Hpc'; lia). subst c'. lia.
        * intros c Hc Hpc'. rewrite set_nth_length in Hc. apply par_children in Hpc'; lia.
        * apply set_nth_length.
        * apply set_nth_Forall; [assumption|apply Forall_nth; [assumption|lia]].
      + (* no child *)
        assert (Hnc : (n <= child)%nat).
        { destruct (Nat.leb_spec child (n - 2)), (Nat.leb_spec 2 n), (Nat.eqb_spec child (n - 1)), (Nat.leb_spec 1 n);
            cbn in E2, E1; try discriminate; lia. }
        splits; auto.
        * split; [assumption|]. split; assumption.
        * intros c Hc Hpc. apply par_children in Hpc; lia.
  Qed.

  Lemma heap_root_min v : heap_ok v -> forall i, (i < length v)%nat -> key v@0 <= key v@i.
  Proof.
    intros H i. induction i as [i IH] using lt_wf_ind. intros Hi.
    destruct i as [|i']; [lia|].
    pose proof (par_lt (Datatypes.S i') ltac:(lia)) as Hp.
    specialize (IH (par (Datatypes.S i')) Hp ltac:(lia)).
    specialize (H (Datatypes.S i') ltac:(lia)). lia.
  Qed.

  Theorem heap_push_ok v x : heap_ok v -> Forall P v -> P x -> heap_ok (heap_push v x).
  Proof.
    intros Hok HP Px. unfold heap_push.
    apply (sift_up_ok (Datatypes.S (length v)) (v ++ [x]) (length v) x).
    - split; [rewrite app_length; cbn; lia|]. split.
      + intros i Hi Hne Hpne. rewrite app_length in Hi. cbn in Hi.
        pose proof (par_lt i ltac:(lia)). rewrite !app_nth1 by lia. apply Hok. lia.
      + intros c _ Hc Hpc. rewrite app_length in Hc. cbn in Hc. apply par_children in Hpc; lia.
    - intros c Hc Hpc. rewrite app_length in Hc. cbn in Hc. apply par_children in Hpc; lia.
    - lia.
    - apply Forall_app. split; [assumption|constructor; [assumption|constructor]].
    - exact Px.
  Qed.

  Lemma heap_ok_prefix v y : heap_ok (v ++ [y]) -> heap_ok v.
  Proof.
    intros H i Hi. specialize (H i). rewrite app_length in H. cbn [length] in H.
    pose proof (par_lt i ltac:(lia)). rewrite !app_nth1 in H by lia. apply H. lia.
  Qed.

  Theorem heap_pop_ok v m rest : heap_ok v -> Forall P v -> heap_pop v = Some (m, rest) ->
    (forall y, In y v -> key m <= key y) /\ heap_ok rest.
  Proof.
    intros Hok HP. unfold heap_pop.
    destruct (rev v) as [|last rinit] eqn:Er; [discriminate|].
    assert (Ev : v = rev rinit ++ [last]).
    { apply (f_equal (@rev _)) in Er. rewrite rev_involutive in Er. exact Er. }
    set (init := rev rinit) in *.
    assert (HPi : Forall P init /\ P last).
    { rewrite Ev in HP. apply Forall_app in HP. destruct HP as [A B]. inversion B; auto. }
    destruct HPi as [HPi Plast].
    assert (Hmin : forall y, In y v -> key v@0 <= key y).
    { intros y Hy. destruct (In_nth v y d Hy) as (i & Hi & <-). apply heap_root_min; assumption. }
    destruct init as [|top tl] eqn:Einit.
    - intros [= <- <-]. rewrite Ev in *. cbn [app] in *. splits.
      + exact Hmin.
      + intros i Hi. cbn in Hi. lia.
    - assert (Hoki : heap_ok (top :: tl)) by (apply (heap_ok_prefix _ last); rewrite <- Ev; exact Hok).
      remember (Datatypes.S (length (top :: tl))) as fuel eqn:Hfuel.
      pose proof (sift_down_ok fuel (top :: tl) 0%nat last) as Hsd.
      destruct (sift_down fuel (top :: tl) 0%nat last) as [v1 pos1].
      destruct Hsd as (A1 & A2 & A4 & A5).
      + split; [cbn; lia|]. split.
        * intros i Hi _ _. apply Hoki. exact Hi.
        * intros c Hpos. lia.
      + lia.
      + exact HPi.
      + intros [= <- <-]. split.
        * intros y Hy. specialize (Hmin y Hy). rewrite Ev in Hmin at 1. cbn [app nth] in Hmin. exact Hmin.
        * apply (sift_up_ok fuel v1 pos1 last A1).
          -- intros c Hc Hpc. exfalso. apply (A2 c Hc Hpc).
          -- destruct A1 as [A1 _]. rewrite A4 in A1. cbn [length] in *. lia.
          -- exact A5.
          -- exact Plast.
  Qed.
End Heap.

Definition seg_key (base : Z) (s : segment) : Z := wsub (h_seq (s_hdr s)) base.
(* the sequence number lies less than 2^31 after base *)
Definition in_range (base : Z) (s : segment) : Prop := seg_key base s < H31.
Definition seg0 : segment := mkSeg (mkHdr 0 0 0 0 ctl0 0 0) [].

(* every child is <= its parent in the model's (reversed circular) order *)
Definition heap_ordered (v : list segment) : Prop :=
  forall i, (0 < i < length v)%nat -> seg_le (nth i v seg0) (nth (par i) v seg0) = true.

Lemma seg_le_in_range base a b : in_range base a -> in_range base b ->
  seg_le a b = (seg_key base b <=? seg_key base a).
Proof.
  unfold in_range, seg_key, seg_le, mod_lt. rewrite !wsub_spec. unfold H31, M32. intros Ha Hb.
  destruct (h_seq (s_hdr a) =? h_seq (s_hdr b)) eqn:E.
  - apply Z.eqb_eq in E. rewrite E. lia.
  - lia.
Qed.

Lemma heap_ordered_ok base v : Forall (in_range base) v ->
  (heap_ordered v <-> heap_ok (seg_key base) seg0 v).
Proof.
  intros HP. unfold heap_ordered, heap_ok. split; intros H i Hi; specialize (H i Hi).
  - rewrite (seg_le_in_range base) in H by (apply (Forall_nth (in_range base)); [assumption|pose proof (par_lt i); lia]). lia.
  - rewrite (seg_le_in_range base) by (apply (Forall_nth (in_range base)); [assumption|pose proof (par_lt i); lia]). lia.
Qed.

Lemma heap_ordered_nil : heap_ordered [].
Proof. intros i Hi. cbn in Hi. lia. Qed.

Theorem heap_push_ordered base v x :
  Forall (in_range base) (x :: v) -> heap_ordered v ->
  heap_ordered (heap_push v x) /\ Permutation (x :: v) (heap_push v x).
Proof.
  intros HP Hv. inversion HP as [|? ? Px Pv]; subst.
  pose proof (heap_push_perm v x) as B. split; [|exact B].
  apply (heap_ordered_ok base); [eapply Permutation_Forall; [exact B|exact HP]|].
  apply (heap_push_ok (seg_key base) (in_range base) (seg_le_in_range base) seg0 v x); try assumption.
  apply (heap_ordered_ok base); assumption.
Qed.

Theorem heap_pop_ordered base v m rest :
  Forall (in_range base) v -> heap_ordered v -> heap_pop v = Some (m, rest) ->
  (forall y, In y v -> seg_le y m = true /\ seg_key base m <= seg_key base y) /\
  Permutation v (m :: rest) /\ heap_ordered rest.
Proof.
  intros HP Hv Hpop.
  pose proof (heap_pop_perm v m rest Hpop) as B.
  destruct (heap_pop_ok (seg_key base) (in_range base) (seg_le_in_range base) seg0 v m rest) as (A & C); try assumption.
  - apply (heap_ordered_ok base); assumption.
  - assert (HPm : Forall (in_range base) (m :: rest)) by (eapply Permutation_Forall; [exact B|exact HP]).
    inversion HPm as [|? ? Pm Prest]; subst.
    split; [|split; [exact B|]].
    + intros y Hy. split; [|apply A, Hy].
      rewrite (seg_le_in_range base); [|rewrite Forall_forall in HP; apply HP, Hy|exact Pm].
      specialize (A y Hy). lia.
    + apply (heap_ordered_ok base); assumption.
Qed.
