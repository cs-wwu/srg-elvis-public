(* C07: the per-operation refinement statements, observations after a history, a witness history. *)
From Elvis Require Import Model.Base Model.Message Proofs.ListFacts Proofs.MessageFacts Proofs.MessagePool.
Local Open Scope N_scope.

Lemma slice_refines : forall m start len, WF m ->
  start + match len with Some l => l | None => 0 end <= mlen m ->
  exists m', msg_slice_inner m start len = Ok m' /\ WF m' /\
    bytes_of m' = firstn (N.to_nat (match len with Some l => l | None => mlen m - start end))
                         (skipn (N.to_nat start) (bytes_of m)).
Proof. exact slice_inner_ok. Qed.

Lemma vslice_not_err : forall v r e, vslice v r <> Err e.
Proof.
  intros v r e. destruct r; cbn [vslice]; unfold vsub;
    repeat match goal with |- context [if ?c then _ else _] => destruct c end; discriminate.
Qed.

Lemma slice_forms : forall m r, WF m -> range_ok r ->
  match msg_slice m r, vslice (bytes_of m) r with
  | Ok m', Ok v => WF m' /\ bytes_of m' = v
  | Panic _, Panic _ => True
  | _, _ => False
  end.
Proof.
  intros m r W K. pose proof (rel_slice m (bytes_of m) r (conj W eq_refl) K) as H.
  pose proof (vslice_not_err (bytes_of m) r) as NE.
  unfold rel, Pm in H. destruct (msg_slice m r), (vslice (bytes_of m) r); auto.
  now apply (NE e0).
Qed.

Lemma range_sum_no_overflow : forall r s l,
  match r with
  | RRange a b | RIncl a b => a <= USIZE_MAX /\ b <= USIZE_MAX
  | RFrom a | RTo a | RToIncl a => a <= USIZE_MAX
  | RFull => True
  end ->
  range_into r = Ok (s, l) -> s + match l with Some x => x | None => 0 end <= USIZE_MAX.
Proof.
  intros r s l Hb H. destruct r as [a b|a| |a b|b|b]; cbn [range_into] in H.
  - injection H as <- <-. destruct (N.ltb_spec a b); lia.
  - injection H as <- <-. lia.
  - injection H as <- <-. lia.
  - unfold uadd, usub in H. destruct (N.leb_spec (b + 1) USIZE_MAX); cbn [bind] in H; [|discriminate].
    destruct (N.leb_spec a (b + 1)); cbn [bind] in H; [|discriminate]. injection H as <- <-. lia.
  - injection H as <- <-. lia.
  - unfold uadd in H. destruct (N.leb_spec (b + 1) USIZE_MAX); cbn [bind] in H; [|discriminate].
    injection H as <- <-. lia.
Qed.

Lemma header_refines : forall m b, WF m -> is_vec b ->
  (blen b + mlen m <= USIZE_MAX ->
     exists m', msg_header m b = Ok m' /\ WF m' /\ bytes_of m' = b ++ bytes_of m) /\
  (USIZE_MAX < blen b + mlen m -> exists s, msg_header m b = Panic s).
Proof.
  intros m b W Hb. split; intros H.
  - now apply header_ok.
  - eexists. now apply header_panic.
Qed.

Lemma concat_refines : forall m o, WF m -> WF o ->
  (mlen m + mlen o <= USIZE_MAX ->
     exists m', msg_concat m o = Ok m' /\ WF m' /\ bytes_of m' = bytes_of m ++ bytes_of o) /\
  (USIZE_MAX < mlen m + mlen o -> exists s, msg_concat m o = Panic s).
Proof.
  intros m o W Wo. split; intros H.
  - now apply concat_ok.
  - eexists. now apply concat_panic.
Qed.

Lemma cut_refines : forall m n, WF m ->
  (n <= mlen m -> exists rest front, msg_cut m n = Ok (rest, front) /\ WF rest /\ WF front /\
     bytes_of front = firstn (N.to_nat n) (bytes_of m) /\
     bytes_of rest = skipn (N.to_nat n) (bytes_of m)) /\
  (mlen m < n -> exists s, msg_cut m n = Panic s).
Proof.
  intros m n W. split; intros H.
  - now apply cut_ok.
  - eexists. now apply cut_panic.
Qed.

Lemma remove_front_refines : forall m n, WF m ->
  (n <= mlen m -> exists m', msg_remove_front m n = Ok m' /\ WF m' /\
     bytes_of m' = skipn (N.to_nat n) (bytes_of m)) /\
  (mlen m < n -> exists s, msg_remove_front m n = Panic s).
Proof.
  intros m n W. split; intros H.
  - now apply remove_front_ok.
  - eexists. now apply remove_front_panic.
Qed.

Lemma history_observed : forall ops pool p' vs', Forall WF pool -> Forall op_ok ops ->
  run_pool ops pool = Ok p' -> run_vecs ops (map bytes_of pool) = Ok vs' ->
  forall i m, nth_error p' i = Some m ->
    exists v, nth_error vs' i = Some v /\ msg_len m = blen v /\ msg_to_vec m = Ok v /\ msg_iter m = Ok v /\
    forall j m2, nth_error p' j = Some m2 ->
      exists v2 b, nth_error vs' j = Some v2 /\ msg_eq m m2 = Ok b /\ (b = true <-> v = v2).
Proof.
  intros ops pool p' vs' W K E1 E2 i m Hi. pose proof (history ops pool _ (conj W eq_refl) K) as H. unfold rel, Ppool in H.
  rewrite E1, E2 in H. destruct H as (W' & <-).
  pose proof (Forall_nth_error WF p' i m W' Hi) as Wm.
  exists (bytes_of m). rewrite nth_error_map, Hi. cbn [option_map].
  repeat split; try (now apply len_ok); try (now apply msg_iter_ok).
  intros j m2 Hj.
  pose proof (Forall_nth_error WF p' j m2 W' Hj) as Wm2.
  destruct (msg_eq_ok m m2 Wm Wm2) as (b & Eb & Hb).
  exists (bytes_of m2), b. rewrite nth_error_map, Hj. cbn [option_map]. repeat split; try assumption; apply Hb.
Qed.

(* satisfiability of the hypotheses, and both outcomes occur *)
Definition ex_pool : list msg := repeat msg_default 8.
Definition ex_ops : list op :=
  [ONew 0 [1;2;3]; OHeader 0 [9]; OClone 1 0; OCut 2 0 2; OConcat 1 2; OSlice 1 (RIncl 1 3);
   ORemoveFront 0 1].

Lemma example_sat :
  Forall WF ex_pool /\ Forall op_ok ex_ops /\
  (exists p', run_pool ex_ops ex_pool = Ok p' /\
     map bytes_of p' = [[3]; [1;2;3]; [9;1]; []; []; []; []; []]) /\
  (exists s, run_pool (ex_ops ++ [OCut 3 0 2]) ex_pool = Panic s) /\
  (exists s, run_vecs (ex_ops ++ [OCut 3 0 2]) (map bytes_of ex_pool) = Panic s).
Proof.
  split; [|split; [|split; [|split]]].
  - unfold ex_pool. cbn [repeat]. repeat (apply Forall_cons; [apply default_wf|]). apply Forall_nil.
  - unfold ex_ops. repeat (apply Forall_cons; [cbn [op_ok range_ok]; try exact I; unfold is_vec; vm_compute; discriminate|]).
    apply Forall_nil.
  - eexists. split; vm_compute; reflexivity.
  - eexists. vm_compute. reflexivity.
  - eexists. vm_compute. reflexivity.
Qed.
