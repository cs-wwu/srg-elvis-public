(* Facts about Model/Subnet.v : masks, networks, ranges, CIDR text. *)
From Coq Require Import NArith ZifyBool.
From Elvis Require Import Model.Base Model.Subnet.
Local Open Scope N_scope.
Ltac Zify.zify_post_hook ::= Z.div_mod_to_equations.

Definition upto (n : nat) : list N := map N.of_nat (seq 0 n).

Lemma in_upto k n : k < N.of_nat n -> In k (upto n).
Proof.
  intros H. unfold upto. apply in_map_iff. exists (N.to_nat k). split.
  - apply N2Nat.id.
  - apply in_seq. lia.
Qed.

Lemma sweep n (p : N -> bool) :
  forallb p (upto n) = true -> forall k, k < N.of_nat n -> p k = true.
Proof. intros H k Hk. rewrite forallb_forall in H. apply H, in_upto, Hk. Qed.

Lemma sweep33 (p : N -> bool) :
  forallb p (upto 33) = true -> forall k, k <= 32 -> p k = true.
Proof. intros H k Hk. apply (sweep 33 p H). lia. Qed.

Lemma sweep256 (p : N -> bool) :
  forallb p (upto 256) = true -> forall k, k <= 255 -> p k = true.
Proof. intros H k Hk. apply (sweep 256 p H). lia. Qed.

Lemma two32_pow : two32 = 2 ^ 32.
Proof. reflexivity. Qed.

Lemma pow2_nz h : 2 ^ h <> 0.
Proof. apply N.pow_nonzero. discriminate. Qed.

Lemma pow2_pos h : 0 < 2 ^ h.
Proof. apply N.neq_0_lt_0, pow2_nz. Qed.

Lemma pow2_le_two32 h : h <= 32 -> 2 ^ h <= two32.
Proof. intros H. rewrite two32_pow. apply N.pow_le_mono_r; [discriminate | exact H]. Qed.

Lemma pow2_split h : h <= 32 -> 2 ^ (32 - h) * 2 ^ h = two32.
Proof.
  intros H. rewrite <- N.pow_add_r. rewrite two32_pow. f_equal. lia.
Qed.

Lemma pow2_inj h h' : 2 ^ h = 2 ^ h' -> h = h'.
Proof. apply N.pow_inj_r. reflexivity. Qed.

Lemma pow2_mod_pow2 h h' : h <= h' -> 2 ^ h' mod 2 ^ h = 0.
Proof.
  intros H. replace h' with ((h' - h) + h) by lia. rewrite N.pow_add_r.
  apply N.mod_mul, pow2_nz.
Qed.

Lemma testbit_high a n i : a < 2 ^ n -> n <= i -> N.testbit a i = false.
Proof.
  intros Ha Hi. destruct (N.eq_dec a 0) as [-> | Hz].
  - apply N.bits_0.
  - apply N.bits_above_log2. apply N.lt_le_trans with n; [| exact Hi].
    apply N.log2_lt_pow2; [lia | exact Ha].
Qed.

Lemma hostmask_shift h : h <= 32 -> two32 - 2 ^ h = N.shiftl (N.ones (32 - h)) h.
Proof.
  intros H. rewrite N.shiftl_mul_pow2, N.ones_equiv, <- N.sub_1_r.
  rewrite N.mul_sub_distr_r, pow2_split by exact H. rewrite N.mul_1_l. reflexivity.
Qed.

Lemma testbit_hostmask h i : h <= 32 ->
  N.testbit (two32 - 2 ^ h) i = (h <=? i) && (i <? 32).
Proof.
  intros H. rewrite hostmask_shift by exact H.
  destruct (N.leb_spec h i) as [Hi | Hi].
  - rewrite N.shiftl_spec_high' by exact Hi.
    destruct (N.ltb_spec i 32) as [Hj | Hj].
    + apply N.ones_spec_low. lia.
    + apply N.ones_spec_high. lia.
  - rewrite N.shiftl_spec_low by exact Hi. reflexivity.
Qed.

(* and-ing with a prefix mask clears the host bits *)
Lemma land_hostmask a h : a < two32 -> h <= 32 ->
  N.land a (two32 - 2 ^ h) = a - a mod 2 ^ h.
Proof.
  intros Ha H.
  assert (E : a - a mod 2 ^ h = N.shiftl (N.shiftr a h) h).
  { rewrite N.shiftl_mul_pow2, N.shiftr_div_pow2.
    pose proof (N.div_mod a (2 ^ h) (pow2_nz h)) as D. pose proof (N.mod_le a (2 ^ h) (pow2_nz h)). nia. }
  rewrite E. apply N.bits_inj. intros i.
  rewrite N.land_spec, testbit_hostmask by exact H.
  destruct (N.leb_spec h i) as [Hi | Hi].
  - rewrite N.shiftl_spec_high' by exact Hi. rewrite N.shiftr_spec'.
    replace (i - h + h) with i by lia.
    destruct (N.ltb_spec i 32) as [Hj | Hj].
    + apply andb_true_r.
    + rewrite (testbit_high a 32 i); [reflexivity | exact Ha | exact Hj].
  - rewrite N.shiftl_spec_low by exact Hi. apply andb_false_r.
Qed.

Lemma not32_spec x : x < two32 -> not32 x = max32 - x.
Proof.
  intros Hx. unfold not32. rewrite N.lnot_sub_low.
  - reflexivity.
  - destruct (N.eq_dec x 0) as [-> | Hz]; [reflexivity |].
    apply N.log2_lt_pow2; [lia | exact Hx].
Qed.

Lemma not32_hostmask h : h <= 32 -> not32 (two32 - 2 ^ h) = 2 ^ h - 1.
Proof.
  intros H. pose proof (pow2_pos h). pose proof (pow2_le_two32 h H).
  rewrite not32_spec by lia. unfold max32, two32 in *. lia.
Qed.

Lemma block_membership a b p : 0 < p -> b mod p = 0 ->
  (b = a - a mod p <-> b <= a < b + p).
Proof.
  intros Hp Hb.
  assert (Hp0 : p <> 0) by lia.
  pose proof (N.div_mod a p Hp0) as Da.
  pose proof (N.mod_lt a p Hp0) as La.
  pose proof (N.div_mod b p Hp0) as Db. rewrite Hb, N.add_0_r in Db.
  split.
  - intros E. lia.
  - intros [L U].
    assert (Q : b / p = a / p).
    { apply (N.div_unique a p (b / p) (a - b)); lia. }
    rewrite Q in Db. lia.
Qed.

Lemma block_fits b h : h <= 32 -> b < two32 -> b mod 2 ^ h = 0 -> b + 2 ^ h <= two32.
Proof.
  intros H Hb Hm.
  pose proof (pow2_nz h) as Hp0.
  pose proof (N.div_mod b (2 ^ h) Hp0) as Db. rewrite Hm, N.add_0_r in Db.
  pose proof (pow2_split h H) as S.
  assert (Q : b / 2 ^ h < 2 ^ (32 - h)).
  { apply N.mul_lt_mono_pos_l with (2 ^ h); [apply pow2_pos |]. lia. }
  assert (Q' : 2 ^ h * (b / 2 ^ h + 1) <= 2 ^ h * 2 ^ (32 - h)).
  { apply N.mul_le_mono_l. lia. }
  lia.
Qed.

Lemma sub_mod_aligned a p : p <> 0 -> (a - a mod p) mod p = 0.
Proof.
  intros Hp. pose proof (N.div_mod a p Hp) as D.
  pose proof (N.mod_le a p Hp) as L.
  replace (a - a mod p) with (a / p * p) by nia. apply N.mod_mul. exact Hp.
Qed.

(* the /k mask *)
Definition prefix_mask (k : N) : N := two32 - 2 ^ (32 - k).
Definition valid_mask (m : N) : Prop := exists k, k <= 32 /\ m = prefix_mask k.

Lemma prefix_mask_lt k : prefix_mask k < two32.
Proof. unfold prefix_mask. pose proof (pow2_pos (32 - k)). unfold two32 in *. lia. Qed.

Lemma prefix_mask_host h : h <= 32 -> prefix_mask (32 - h) = two32 - 2 ^ h.
Proof. intros H. unfold prefix_mask. replace (32 - (32 - h)) with h by lia. reflexivity. Qed.

Lemma prefix_mask_le k k' : k <= k' -> k' <= 32 -> prefix_mask k <= prefix_mask k'.
Proof.
  intros H H'. unfold prefix_mask.
  pose proof (N.pow_le_mono_r 2 (32 - k') (32 - k)). pose proof (pow2_le_two32 (32 - k)). lia.
Qed.

Lemma prefix_mask_lt_mono k k' : k < k' -> k' <= 32 -> prefix_mask k < prefix_mask k'.
Proof.
  intros H H'. unfold prefix_mask.
  pose proof (N.pow_lt_mono_r 2 (32 - k') (32 - k)). pose proof (pow2_le_two32 (32 - k)). lia.
Qed.

Lemma prefix_mask_inj k k' : k <= 32 -> k' <= 32 -> prefix_mask k = prefix_mask k' -> k = k'.
Proof.
  intros H H' E. destruct (N.lt_trichotomy k k') as [L | [L | L]]; [| exact L |].
  - apply prefix_mask_lt_mono in L; lia.
  - apply prefix_mask_lt_mono in L; lia.
Qed.

Lemma clamp_spec n : clamp n 0 32 = Ok (N.min n 32).
Proof.
  unfold clamp. replace (32 <? 0) with false by reflexivity.
  replace (n <? 0) with false by (symmetry; apply N.ltb_ge; lia).
  destruct (N.ltb_spec 32 n) as [L | L]; f_equal; lia.
Qed.

Lemma from_bitcount_body_spec k : k <= 32 -> from_bitcount_body k = Ok (prefix_mask k).
Proof.
  intros H.
  pose (p := fun k => match from_bitcount_body k with
                      | Ok m => m =? prefix_mask k | _ => false end).
  assert (S : p k = true).
  { apply sweep33; [vm_compute; reflexivity | exact H]. }
  unfold p in S. destruct (from_bitcount_body k); try discriminate.
  apply N.eqb_eq in S. congruence.
Qed.

Lemma from_bitcount_spec n : from_bitcount n = Ok (prefix_mask (N.min n 32)).
Proof.
  unfold from_bitcount. rewrite clamp_spec. cbn [bind].
  apply from_bitcount_body_spec. lia.
Qed.

Lemma popcount_prefix_mask k : k <= 32 -> popcount (prefix_mask k) = k.
Proof.
  intros H. apply N.eqb_eq.
  pose (p := fun k => popcount (prefix_mask k) =? k).
  change (p k = true). apply sweep33; [vm_compute; reflexivity | exact H].
Qed.

Lemma valid_mask_popcount m : valid_mask m -> m = prefix_mask (popcount m) /\ popcount m <= 32.
Proof.
  intros [k [Hk ->]]. rewrite popcount_prefix_mask by exact Hk. split; [reflexivity | exact Hk].
Qed.

Lemma valid_mask_prefix k : k <= 32 -> valid_mask (prefix_mask k).
Proof. intros H. exists k. split; [exact H | reflexivity]. Qed.

Lemma valid_mask_lt m : valid_mask m -> m < two32.
Proof. intros [k [_ ->]]. apply prefix_mask_lt. Qed.

Lemma valid_mask_le_popcount m m' : valid_mask m -> valid_mask m' ->
  (m <= m' <-> popcount m <= popcount m').
Proof.
  intros [k [Hk ->]] [k' [Hk' ->]]. rewrite !popcount_prefix_mask by assumption.
  split; intros H.
  - destruct (N.le_gt_cases k k') as [L | L]; [exact L |].
    apply prefix_mask_lt_mono in L; lia.
  - apply prefix_mask_le; assumption.
Qed.

Lemma valid_mask_popcount_inj m m' : valid_mask m -> valid_mask m' ->
  popcount m = popcount m' -> m = m'.
Proof.
  intros H H' E. apply valid_mask_popcount in H. apply valid_mask_popcount in H'.
  destruct H as [H _]. destruct H' as [H' _].
  transitivity (prefix_mask (popcount m)); [exact H |]. rewrite E. symmetry. exact H'.
Qed.

Lemma mask_try_from_total m :
  (valid_mask m /\ mask_try_from m = Ok m) \/
  (~ valid_mask m /\ mask_try_from m = Err err_mask_invalid).
Proof.
  unfold mask_try_from. rewrite from_bitcount_spec. cbn [bind].
  destruct (N.eqb_spec (prefix_mask (N.min (popcount m) 32)) m) as [E | E].
  - left. split; [| congruence]. exists (N.min (popcount m) 32). split; [lia | congruence].
  - right. split; [| reflexivity]. intros V. apply E.
    apply valid_mask_popcount in V. destruct V as [V L].
    rewrite N.min_l by exact L. symmetry. exact V.
Qed.

Lemma mask_try_from_ok_iff m r : mask_try_from m = Ok r <-> r = m /\ valid_mask m.
Proof.
  destruct (mask_try_from_total m) as [[V E] | [V E]]; rewrite E; split.
  - intros H. inversion H. subst r. split; [reflexivity | exact V].
  - intros [-> _]. reflexivity.
  - discriminate.
  - intros [_ V']. contradiction.
Qed.

(* "no 0 between the 1s" : a valid mask is a u32 whose set bits are closed upwards *)
Definition upclosed (m : N) : Prop :=
  forall i j, i <= j -> j < 32 -> N.testbit m i = true -> N.testbit m j = true.

Lemma hostmask_of_bits m h : h <= 32 -> m < two32 ->
  (forall i, i < h -> N.testbit m i = false) ->
  (forall i, h <= i -> i < 32 -> N.testbit m i = true) ->
  m = two32 - 2 ^ h.
Proof.
  intros H Hm Lo Hi. apply N.bits_inj. intros i. rewrite testbit_hostmask by exact H.
  destruct (N.leb_spec h i) as [L | L].
  - destruct (N.ltb_spec i 32) as [L' | L'].
    + apply Hi; assumption.
    + apply (testbit_high m 32); assumption.
  - apply Lo. exact L.
Qed.

Lemma upclosed_valid_aux m : m < two32 -> upclosed m ->
  forall n : nat, (n <= 32)%nat ->
  (forall i, i < 32 - N.of_nat n -> N.testbit m i = false) -> valid_mask m.
Proof.
  intros Hm U. induction n as [| n IH]; intros Hn Lo.
  - exists 0. split; [lia |]. unfold prefix_mask. change (32 - 0) with 32.
    apply hostmask_of_bits; [lia | exact Hm | |].
    + intros i Hi. apply Lo. lia.
    + intros i L L'. lia.
  - destruct (N.testbit m (31 - N.of_nat n)) eqn:B.
    + exists (N.of_nat (S n)). split; [lia |].
      unfold prefix_mask. apply hostmask_of_bits; [lia | exact Hm | |].
      * intros i Hi. apply Lo. lia.
      * intros i L L'. apply (U (31 - N.of_nat n)); [lia | exact L' | exact B].
    + apply IH; [lia |]. intros i Hi.
      destruct (N.eq_dec i (31 - N.of_nat n)) as [-> | Ne]; [exact B |].
      apply Lo. lia.
Qed.

Lemma valid_mask_bits m : valid_mask m <-> m < two32 /\ upclosed m.
Proof.
  split.
  - intros [k [Hk ->]]. split; [apply prefix_mask_lt |].
    unfold upclosed, prefix_mask. intros i j Hij Hj.
    rewrite !testbit_hostmask by lia. intros B.
    apply andb_true_iff in B. destruct B as [B _]. apply N.leb_le in B.
    apply andb_true_iff. split; [apply N.leb_le; lia | apply N.ltb_lt; exact Hj].
  - intros [Hm U]. apply (upclosed_valid_aux m Hm U 32%nat); [lia |].
    intros i Hi. cbn in Hi. lia.
Qed.

Lemma be_bytes_nested a :
  to_be_bytes a = [a / 256 / 256 / 256; (a / 256 / 256) mod 256; (a / 256) mod 256; a mod 256].
Proof.
  unfold to_be_bytes. rewrite !N.div_div by discriminate. reflexivity.
Qed.

Lemma be_bytes_roundtrip a : a < two32 -> from_be_bytes (to_be_bytes a) = a.
Proof.
  rewrite be_bytes_nested. unfold two32, from_be_bytes. intros H.
  remember (a / 256) as x1. remember (x1 / 256) as x2. remember (x2 / 256) as x3.
  pose proof (N.div_mod a 256). pose proof (N.div_mod x1 256). pose proof (N.div_mod x2 256).
  lia.
Qed.

Lemma be_bytes_range a : a < two32 -> Forall (fun b => b < 256) (to_be_bytes a).
Proof.
  rewrite be_bytes_nested. unfold two32. intros H.
  remember (a / 256) as x1. remember (x1 / 256) as x2. remember (x2 / 256) as x3.
  pose proof (N.div_mod a 256). pose proof (N.div_mod x1 256). pose proof (N.div_mod x2 256).
  repeat constructor; lia.
Qed.

Lemma lex_compare_bytes a0 a1 a2 a3 b0 b1 b2 b3 :
  a1 < 256 -> a2 < 256 -> a3 < 256 -> b1 < 256 -> b2 < 256 -> b3 < 256 ->
  lex_compare [a0; a1; a2; a3] [b0; b1; b2; b3]
  = (from_be_bytes [a0; a1; a2; a3] ?= from_be_bytes [b0; b1; b2; b3]).
Proof.
  intros A1 A2 A3 B1 B2 B3. cbn [lex_compare from_be_bytes].
  destruct (N.compare_spec a0 b0) as [E0 | L0 | L0];
    [| symmetry; apply N.compare_lt_iff; lia | symmetry; apply N.compare_gt_iff; lia].
  destruct (N.compare_spec a1 b1) as [E1 | L1 | L1];
    [| symmetry; apply N.compare_lt_iff; lia | symmetry; apply N.compare_gt_iff; lia].
  destruct (N.compare_spec a2 b2) as [E2 | L2 | L2];
    [| symmetry; apply N.compare_lt_iff; lia | symmetry; apply N.compare_gt_iff; lia].
  destruct (N.compare_spec a3 b3) as [E3 | L3 | L3]; symmetry;
    [apply N.compare_eq_iff | apply N.compare_lt_iff | apply N.compare_gt_iff]; lia.
Qed.

Lemma be_bytes_order a b : a < two32 -> b < two32 ->
  lex_compare (to_be_bytes a) (to_be_bytes b) = (a ?= b).
Proof.
  intros Ha Hb. transitivity (from_be_bytes (to_be_bytes a) ?= from_be_bytes (to_be_bytes b)).
  - unfold to_be_bytes. apply lex_compare_bytes; apply N.mod_lt; discriminate.
  - rewrite !be_bytes_roundtrip by assumption. reflexivity.
Qed.

(* Rust: n.mask().count_ones() *)
Definition masklen (n : net) : N := popcount (net_mask n).

(* the Ipv4Net values that the public constructors can build (fields are private):
   a prefix mask and an id whose host bits are clear *)
Definition wf_net (n : net) : Prop :=
  valid_mask (net_mask n) /\ net_id n < two32 /\ N.land (net_id n) (net_mask n) = net_id n.

Lemma net_eqb_eq a b : net_eqb a b = true <-> a = b.
Proof.
  destruct a as [i m], b as [i' m']. unfold net_eqb. cbn [net_id net_mask].
  rewrite andb_true_iff, !N.eqb_eq. split.
  - intros [-> ->]. reflexivity.
  - intros E. inversion E. split; reflexivity.
Qed.

Lemma net_eqb_refl a : net_eqb a a = true.
Proof. apply net_eqb_eq. reflexivity. Qed.

Lemma net_eq_dec (a b : net) : {a = b} + {a <> b}.
Proof.
  destruct (net_eqb a b) eqn:E.
  - left. apply net_eqb_eq. exact E.
  - right. intros H. apply net_eqb_eq in H. congruence.
Defined.

(* the number of host bits; a well-formed network is the aligned block of that size *)
Definition hostbits (n : net) : N := 32 - masklen n.

Lemma wf_net_host n : wf_net n ->
  hostbits n <= 32 /\ net_mask n = two32 - 2 ^ hostbits n /\ net_id n mod 2 ^ hostbits n = 0 /\
  net_id n + 2 ^ hostbits n <= two32 /\ masklen n = 32 - hostbits n.
Proof.
  intros [[k [Hk Hm]] [Hi Hl]].
  assert (Ek : masklen n = k) by (unfold masklen; rewrite Hm; apply popcount_prefix_mask, Hk).
  unfold hostbits. rewrite Ek.
  assert (H : 32 - k <= 32) by lia.
  assert (Hm' : net_mask n = two32 - 2 ^ (32 - k)) by exact Hm.
  assert (Hz : net_id n mod 2 ^ (32 - k) = 0).
  { rewrite Hm', land_hostmask in Hl by assumption.
    pose proof (N.mod_le (net_id n) _ (pow2_nz (32 - k))). lia. }
  split; [exact H |]. split; [exact Hm' |]. split; [exact Hz |]. split; [apply block_fits; assumption | lia].
Qed.

Lemma wf_net_of_host i h : h <= 32 -> i < two32 -> i mod 2 ^ h = 0 ->
  wf_net (mkNet i (two32 - 2 ^ h)).
Proof.
  intros H Hi Hz. unfold wf_net. cbn [net_id net_mask]. split; [| split].
  - exists (32 - h). split; [lia |]. symmetry. apply prefix_mask_host. exact H.
  - exact Hi.
  - rewrite land_hostmask by assumption. rewrite Hz. lia.
Qed.

Lemma masklen_le32 n : wf_net n -> masklen n <= 32.
Proof. intros H. apply wf_net_host in H. destruct H as [? [? [? [? E]]]]. lia. Qed.

Lemma net_new_spec ip k : ip < two32 -> k <= 32 ->
  net_new ip (prefix_mask k) = mkNet (ip - ip mod 2 ^ (32 - k)) (prefix_mask k).
Proof.
  intros Hi Hk. unfold net_new. f_equal. unfold prefix_mask. apply land_hostmask; [exact Hi | lia].
Qed.

Lemma net_new_wf ip m : ip < two32 -> valid_mask m -> wf_net (net_new ip m).
Proof.
  intros Hi [k [Hk ->]]. rewrite net_new_spec by assumption.
  unfold prefix_mask. apply wf_net_of_host.
  - lia.
  - apply N.le_lt_trans with ip; [apply N.le_sub_l | exact Hi].
  - apply sub_mod_aligned, pow2_nz.
Qed.

Lemma net_new_masklen ip k : k <= 32 -> masklen (net_new ip (prefix_mask k)) = k.
Proof. intros H. unfold masklen, net_new. cbn [net_mask]. apply popcount_prefix_mask. exact H. Qed.

Lemma net_new_short_spec ip len : net_new_short ip len = Ok (net_new ip (prefix_mask (N.min len 32))).
Proof. unfold net_new_short. rewrite from_bitcount_spec. reflexivity. Qed.

Lemma net_new_short_wf ip len : ip < two32 ->
  exists n, net_new_short ip len = Ok n /\ wf_net n /\ masklen n = N.min len 32.
Proof.
  intros Hi. rewrite net_new_short_spec. eexists. split; [reflexivity |]. split.
  - apply net_new_wf; [exact Hi | apply valid_mask_prefix; lia].
  - apply net_new_masklen. lia.
Qed.

Lemma net_new_1_spec ip : net_new_1 ip = Ok (mkNet ip max32).
Proof. reflexivity. Qed.

Lemma net_new_1_wf ip : ip < two32 -> wf_net (mkNet ip max32).
Proof.
  intros Hi. change max32 with (two32 - 2 ^ 0). apply wf_net_of_host; [lia | exact Hi |].
  apply N.mod_1_r.
Qed.

Lemma net_new_1_is_new ip : ip < two32 -> net_new ip (prefix_mask 32) = mkNet ip max32.
Proof.
  intros Hi. rewrite net_new_spec by (assumption || lia).
  change (2 ^ (32 - 32)) with 1. rewrite N.mod_1_r, N.sub_0_r. reflexivity.
Qed.

Lemma net_loopback_wf : exists n, net_loopback = Ok n /\ wf_net n.
Proof.
  eexists. split; [reflexivity |].
  change (wf_net (mkNet 2130706432 (two32 - 2 ^ 24))). apply wf_net_of_host; [lia | reflexivity | reflexivity].
Qed.

Lemma broadcast_host i h : h <= 32 -> i + 2 ^ h <= two32 ->
  broadcast (mkNet i (two32 - 2 ^ h)) = Ok (i + 2 ^ h - 1).
Proof.
  intros H Hf. pose proof (pow2_pos h) as P. unfold broadcast, add32. cbn [net_id net_mask].
  rewrite not32_hostmask by exact H. replace (i + (2 ^ h - 1)) with (i + 2 ^ h - 1) by lia.
  destruct (N.leb_spec two32 (i + 2 ^ h - 1)); [lia | reflexivity].
Qed.

Lemma broadcast_spec n : wf_net n -> broadcast n = Ok (net_id n + 2 ^ hostbits n - 1).
Proof.
  intros W. destruct (wf_net_host n W) as [H [Hm [_ [Hf _]]]].
  rewrite <- (broadcast_host (net_id n) (hostbits n) H Hf), <- Hm. destruct n; reflexivity.
Qed.

Lemma broadcast_total n : wf_net n -> exists b, broadcast n = Ok b /\ net_id n <= b < two32.
Proof.
  intros W. destruct (wf_net_host n W) as [_ [_ [_ [Hf _]]]].
  eexists. split; [apply broadcast_spec, W |]. pose proof (pow2_pos (hostbits n)). lia.
Qed.

Lemma contains_iff_range n a b : wf_net n -> a < two32 -> broadcast n = Ok b ->
  (contains n a = true <-> net_id n <= a <= b).
Proof.
  intros W Ha Eb. destruct (wf_net_host n W) as [H [Hm [Hz _]]].
  rewrite (broadcast_spec n W) in Eb. injection Eb as <-.
  unfold contains. rewrite N.eqb_eq, Hm, land_hostmask by assumption.
  pose proof (pow2_pos (hostbits n)) as P.
  rewrite (block_membership a (net_id n) _ P Hz). lia.
Qed.

Lemma contains_same_mask n n' a :
  contains n a = true -> contains n' a = true -> net_mask n = net_mask n' -> n = n'.
Proof.
  destruct n as [i m], n' as [i' m']. unfold contains. cbn [net_id net_mask].
  rewrite !N.eqb_eq. intros -> -> ->. reflexivity.
Qed.

Lemma contains_same_len n n' a : wf_net n -> wf_net n' ->
  contains n a = true -> contains n' a = true -> masklen n = masklen n' -> n = n'.
Proof.
  intros [V _] [V' _] C C' E. apply (contains_same_mask n n' a C C').
  apply valid_mask_popcount_inj; assumption.
Qed.

Lemma contains_id n : wf_net n -> contains n (net_id n) = true.
Proof.
  intros W. destruct (broadcast_total n W) as [b [E [L U]]].
  apply (contains_iff_range n (net_id n) b W); [destruct W as [_ [W _]]; exact W | exact E | lia].
Qed.

Lemma overlaps_spec n1 n2 b1 b2 : broadcast n1 = Ok b1 -> broadcast n2 = Ok b2 ->
  overlaps n1 n2 = Ok ((net_id n1 <=? b2) && (net_id n2 <=? b1)).
Proof.
  intros E1 E2. unfold overlaps. rewrite E2. cbn [bind].
  destruct (net_id n1 <=? b2); [| reflexivity]. rewrite E1. reflexivity.
Qed.

Lemma overlaps_iff_ranges_meet n1 n2 b1 b2 : wf_net n1 -> wf_net n2 ->
  broadcast n1 = Ok b1 -> broadcast n2 = Ok b2 ->
  (overlaps n1 n2 = Ok true <-> exists x, net_id n1 <= x <= b1 /\ net_id n2 <= x <= b2).
Proof.
  intros W1 W2 E1 E2. rewrite (overlaps_spec n1 n2 b1 b2) by assumption.
  destruct (broadcast_total n1 W1) as [b1' [E1' R1]]. rewrite E1 in E1'. inversion E1'. subst b1'.
  destruct (broadcast_total n2 W2) as [b2' [E2' R2]]. rewrite E2 in E2'. inversion E2'. subst b2'.
  split.
  - intros H. inversion H as [H']. apply andb_true_iff in H'. destruct H' as [A B].
    apply N.leb_le in A. apply N.leb_le in B.
    exists (N.max (net_id n1) (net_id n2)). lia.
  - intros [x [[A B] [C D]]]. f_equal. apply andb_true_iff. split; apply N.leb_le; lia.
Qed.

Lemma overlaps_iff_common_address n1 n2 : wf_net n1 -> wf_net n2 ->
  (overlaps n1 n2 = Ok true <-> exists x, x < two32 /\ contains n1 x = true /\ contains n2 x = true).
Proof.
  intros W1 W2.
  destruct (broadcast_total n1 W1) as [b1 [E1 R1]]. destruct (broadcast_total n2 W2) as [b2 [E2 R2]].
  rewrite (overlaps_iff_ranges_meet n1 n2 b1 b2) by assumption. split.
  - intros [x [A B]]. exists x. assert (Hx : x < two32) by lia. split; [exact Hx |]. split.
    + apply (contains_iff_range n1 x b1); assumption.
    + apply (contains_iff_range n2 x b2); assumption.
  - intros [x [Hx [A B]]]. exists x. split.
    + apply (contains_iff_range n1 x b1); assumption.
    + apply (contains_iff_range n2 x b2); assumption.
Qed.

Lemma overlaps_total n1 n2 : wf_net n1 -> wf_net n2 -> exists r, overlaps n1 n2 = Ok r.
Proof.
  intros W1 W2.
  destruct (broadcast_total n1 W1) as [b1 [E1 _]]. destruct (broadcast_total n2 W2) as [b2 [E2 _]].
  eexists. apply (overlaps_spec n1 n2 b1 b2); assumption.
Qed.

Lemma overlaps_sym n1 n2 : wf_net n1 -> wf_net n2 -> overlaps n1 n2 = overlaps n2 n1.
Proof.
  intros W1 W2.
  destruct (broadcast_total n1 W1) as [b1 [E1 _]]. destruct (broadcast_total n2 W2) as [b2 [E2 _]].
  rewrite (overlaps_spec n1 n2 b1 b2), (overlaps_spec n2 n1 b2 b1) by assumption.
  rewrite andb_comm. reflexivity.
Qed.

Lemma valid_mask_not32 d : d < two32 ->
  (valid_mask (not32 d) <-> exists h, h <= 32 /\ d + 1 = 2 ^ h).
Proof.
  intros Hd. rewrite not32_spec by exact Hd. split.
  - intros [k [Hk E]]. exists (32 - k). split; [lia |].
    unfold prefix_mask in E. pose proof (pow2_pos (32 - k)). pose proof (pow2_le_two32 (32 - k)).
    unfold max32, two32 in *. lia.
  - intros [h [H E]]. exists (32 - h). split; [lia |]. rewrite prefix_mask_host by exact H.
    unfold max32, two32 in *. lia.
Qed.

Lemma try_from_range_cases lo hi : lo < two32 -> hi < two32 ->
  (hi < lo /\ try_from_range lo hi = Err err_range_empty) \/
  (lo <= hi /\ (forall h, h <= 32 -> hi - lo + 1 <> 2 ^ h) /\
     try_from_range lo hi = Err err_range_size) \/
  (exists h, h <= 32 /\ lo <= hi /\ hi - lo + 1 = 2 ^ h /\ lo mod 2 ^ h <> 0 /\
     try_from_range lo hi = Err err_range_start) \/
  (exists h, h <= 32 /\ lo <= hi /\ hi - lo + 1 = 2 ^ h /\ lo mod 2 ^ h = 0 /\
     try_from_range lo hi = Ok (mkNet lo (two32 - 2 ^ h))).
Proof.
  intros Hlo Hhi. unfold try_from_range.
  destruct (N.ltb_spec hi lo) as [L | L]; [left; split; [exact L | reflexivity] | right].
  unfold sub32. replace (hi <? lo) with false by (symmetry; apply N.ltb_ge; exact L).
  cbn [bind].
  assert (Hd : hi - lo < two32) by lia.
  destruct (mask_try_from_total (not32 (hi - lo))) as [[V E] | [V E]]; rewrite E.
  - right. apply (valid_mask_not32 _ Hd) in V. destruct V as [h [H Eh]].
    assert (Em : not32 (hi - lo) = two32 - 2 ^ h).
    { rewrite not32_spec by exact Hd. pose proof (pow2_le_two32 h H). unfold max32, two32 in *. lia. }
    rewrite Em. unfold net_new. rewrite land_hostmask by assumption.
    pose proof (pow2_nz h) as P0.
    pose proof (N.mod_le lo _ P0) as Ml. pose proof (N.mod_lt lo _ P0) as Mt.
    pose proof (sub_mod_aligned lo _ P0) as Al.
    remember (lo mod 2 ^ h) as r eqn:Er.
    set (i := lo - r) in *.
    pose proof (broadcast_host i h H (block_fits i h H ltac:(unfold i; lia) Al)) as Eb.
    unfold net_range. rewrite Eb. cbn [bind fst snd net_id].
    destruct (N.eq_dec r 0) as [Z | Z].
    + right. exists h. split; [exact H |]. split; [exact L |]. split; [lia |].
      split; [rewrite <- Er; exact Z |].
      assert (Ei : i = lo) by (unfold i; lia). rewrite Ei.
      replace (lo + 2 ^ h - 1) with hi by lia. rewrite !N.eqb_refl. reflexivity.
    + left. exists h. split; [exact H |]. split; [exact L |]. split; [lia |].
      split; [rewrite <- Er; exact Z |].
      replace (i =? lo) with false by (symmetry; apply N.eqb_neq; unfold i; lia). reflexivity.
  - left. split; [exact L |]. split; [| reflexivity].
    intros h H Eh. apply V. apply (valid_mask_not32 _ Hd). exists h. split; [exact H | lia].
Qed.

Lemma range_to_net_iff lo hi n : lo < two32 -> hi < two32 ->
  (try_from_range lo hi = Ok n <->
   exists h, h <= 32 /\ lo <= hi /\ hi - lo + 1 = 2 ^ h /\ lo mod 2 ^ h = 0 /\
             n = mkNet lo (two32 - 2 ^ h)).
Proof.
  intros Hlo Hhi.
  destruct (try_from_range_cases lo hi Hlo Hhi)
    as [[A E] | [[A [B E]] | [[h [H [A [B [C E]]]]] | [h [H [A [B [C E]]]]]]]]; rewrite E; split.
  - discriminate.
  - intros [h [_ [L _]]]. lia.
  - discriminate.
  - intros [h [H [_ [S _]]]]. exfalso. exact (B h H S).
  - discriminate.
  - intros [h' [H' [_ [S [Al _]]]]]. exfalso.
    assert (h' = h) by (apply pow2_inj; lia). subst h'. contradiction.
  - intros X. inversion X. exists h. repeat (split; try assumption).
  - intros [h' [H' [_ [S [Al ->]]]]].
    assert (h' = h) by (apply pow2_inj; lia). subst h'. reflexivity.
Qed.

Lemma try_from_range_never_panics lo hi : lo < two32 -> hi < two32 ->
  exists r, (try_from_range lo hi = Ok r \/ exists e, try_from_range lo hi = Err e).
Proof.
  intros Hlo Hhi.
  destruct (try_from_range_cases lo hi Hlo Hhi)
    as [[A E] | [[A [B E]] | [[h [H [A [B [C E]]]]] | [h [H [A [B [C E]]]]]]]]; rewrite E.
  - exists (mkNet 0 0). right. eexists. reflexivity.
  - exists (mkNet 0 0). right. eexists. reflexivity.
  - exists (mkNet 0 0). right. eexists. reflexivity.
  - eexists. left. reflexivity.
Qed.

Lemma range_of_net_roundtrip n b : wf_net n -> broadcast n = Ok b ->
  try_from_range (net_id n) b = Ok n.
Proof.
  intros W Eb. destruct (wf_net_host n W) as [H [Hm [Hz [Hf _]]]].
  rewrite (broadcast_spec n W) in Eb. injection Eb as <-. pose proof (pow2_pos (hostbits n)) as P.
  destruct W as [_ [Hi _]].
  apply range_to_net_iff; [exact Hi | lia |].
  exists (hostbits n). split; [exact H |]. split; [lia |]. split; [lia |]. split; [exact Hz |].
  rewrite <- Hm. destruct n; reflexivity.
Qed.

Definition no_digit_head (s : list N) : Prop :=
  match s with [] => True | c :: _ => is_digit c = false end.

Lemma span_digits_app ds rest : forallb is_digit ds = true -> no_digit_head rest ->
  span_digits (ds ++ rest) = (ds, rest).
Proof.
  induction ds as [| c ds IH]; intros D Hr.
  - cbn [app]. destruct rest as [| c r]; [reflexivity |].
    cbn [span_digits]. cbn [no_digit_head] in Hr. rewrite Hr. reflexivity.
  - cbn [forallb] in D. apply andb_true_iff in D. destruct D as [Dc Dr].
    cbn [app span_digits]. rewrite Dc, (IH Dr Hr). reflexivity.
Qed.

Definition render_ip (o1 o2 o3 o4 : N) : list N :=
  render_dec o1 ++ [ch_dot] ++ render_dec o2 ++ [ch_dot] ++ render_dec o3 ++ [ch_dot] ++ render_dec o4.

Lemma render_cidr_split o1 o2 o3 o4 len :
  render_cidr o1 o2 o3 o4 len = render_ip o1 o2 o3 o4 ++ ch_slash :: render_dec len.
Proof.
  unfold render_cidr, render_ip. repeat rewrite <- app_assoc. reflexivity.
Qed.

Lemma render_octet_ok v : v <= 255 ->
  forallb is_digit (render_dec v) = true /\ octet_of_digits (render_dec v) = Some v.
Proof.
  intros H.
  pose (p := fun v => forallb is_digit (render_dec v) &&
                      match octet_of_digits (render_dec v) with Some w => w =? v | None => false end).
  assert (S : p v = true) by (apply sweep256; [vm_compute; reflexivity | exact H]).
  unfold p in S. apply andb_true_iff in S. destruct S as [A B]. split; [exact A |].
  destruct (octet_of_digits (render_dec v)); [| discriminate]. apply N.eqb_eq in B. congruence.
Qed.

Lemma render_len_ok v : v <= 32 ->
  forallb is_digit (render_dec v) = true /\ parse_u32 (render_dec v) = Ok v.
Proof.
  intros H.
  pose (p := fun v => forallb is_digit (render_dec v) &&
                      match parse_u32 (render_dec v) with Ok w => w =? v | _ => false end).
  assert (S : p v = true) by (apply sweep33; [vm_compute; reflexivity | exact H]).
  unfold p in S. apply andb_true_iff in S. destruct S as [A B]. split; [exact A |].
  destruct (parse_u32 (render_dec v)); try discriminate. apply N.eqb_eq in B. congruence.
Qed.

Lemma read_octet_render v rest : v <= 255 -> no_digit_head rest ->
  read_octet (render_dec v ++ rest) = Some (v, rest).
Proof.
  intros H Hr. destruct (render_octet_ok v H) as [D O].
  unfold read_octet. rewrite (span_digits_app _ _ D Hr), O. reflexivity.
Qed.

Lemma parse_ipv4_render o1 o2 o3 o4 : o1 <= 255 -> o2 <= 255 -> o3 <= 255 -> o4 <= 255 ->
  parse_ipv4 (render_ip o1 o2 o3 o4) = Some (from_be_bytes [o1; o2; o3; o4]).
Proof.
  intros H1 H2 H3 H4. unfold parse_ipv4, render_ip.
  rewrite (read_octet_render o1) by (assumption || reflexivity).
  cbn [app expect_dot]. replace (ch_dot =? ch_dot) with true by reflexivity.
  rewrite (read_octet_render o2) by (assumption || reflexivity).
  cbn [app expect_dot]. replace (ch_dot =? ch_dot) with true by reflexivity.
  rewrite (read_octet_render o3) by (assumption || reflexivity).
  cbn [app expect_dot]. replace (ch_dot =? ch_dot) with true by reflexivity.
  rewrite <- (app_nil_r (render_dec o4)).
  rewrite (read_octet_render o4) by (assumption || exact I).
  reflexivity.
Qed.

Definition no_slash (s : list N) : bool := forallb (fun c => negb (c =? ch_slash)) s.

Lemma split_slash_app s r : no_slash s = true -> split_slash (s ++ ch_slash :: r) = (s, Some r).
Proof.
  induction s as [| c s IH]; intros Hs.
  - reflexivity.
  - unfold no_slash in Hs. cbn [forallb] in Hs. apply andb_true_iff in Hs. destruct Hs as [Hc Hs].
    cbn [app split_slash]. apply negb_true_iff in Hc. rewrite Hc, (IH Hs). reflexivity.
Qed.

Lemma split_slash_none s : no_slash s = true -> split_slash s = (s, None).
Proof.
  induction s as [| c s IH]; intros Hs.
  - reflexivity.
  - unfold no_slash in Hs. cbn [forallb] in Hs. apply andb_true_iff in Hs. destruct Hs as [Hc Hs].
    cbn [split_slash]. apply negb_true_iff in Hc. rewrite Hc, (IH Hs). reflexivity.
Qed.

Lemma digits_no_slash ds : forallb is_digit ds = true -> no_slash ds = true.
Proof.
  unfold no_slash. induction ds as [| c ds IH]; [reflexivity |].
  cbn [forallb]. intros D. apply andb_true_iff in D. destruct D as [Dc Dr].
  rewrite (IH Dr), andb_true_r. unfold is_digit, ch_slash in *. lia.
Qed.

Lemma no_slash_app a b : no_slash (a ++ b) = no_slash a && no_slash b.
Proof. unfold no_slash. apply forallb_app. Qed.

Lemma render_ip_no_slash o1 o2 o3 o4 : o1 <= 255 -> o2 <= 255 -> o3 <= 255 -> o4 <= 255 ->
  no_slash (render_ip o1 o2 o3 o4) = true.
Proof.
  intros H1 H2 H3 H4. unfold render_ip. rewrite !no_slash_app.
  rewrite (digits_no_slash (render_dec o1)) by (apply render_octet_ok; assumption).
  rewrite (digits_no_slash (render_dec o2)) by (apply render_octet_ok; assumption).
  rewrite (digits_no_slash (render_dec o3)) by (apply render_octet_ok; assumption).
  rewrite (digits_no_slash (render_dec o4)) by (apply render_octet_ok; assumption).
  reflexivity.
Qed.

Lemma cidr_to_ip_denotes o1 o2 o3 o4 len :
  o1 <= 255 -> o2 <= 255 -> o3 <= 255 -> o4 <= 255 -> len <= 32 ->
  cidr_to_ip (render_cidr o1 o2 o3 o4 len) = Ok (from_be_bytes [o1; o2; o3; o4], prefix_mask len).
Proof.
  intros H1 H2 H3 H4 Hl. rewrite render_cidr_split. unfold cidr_to_ip.
  rewrite split_slash_app by (apply render_ip_no_slash; assumption).
  destruct (render_len_ok len Hl) as [D P].
  rewrite (split_slash_none _ (digits_no_slash _ D)).
  rewrite parse_ipv4_render by assumption. rewrite P. cbn [bind].
  rewrite from_bitcount_spec. rewrite N.min_l by exact Hl. reflexivity.
Qed.

Lemma from_be_bytes_lt o1 o2 o3 o4 : o1 <= 255 -> o2 <= 255 -> o3 <= 255 -> o4 <= 255 ->
  from_be_bytes [o1; o2; o3; o4] < two32.
Proof. unfold from_be_bytes, two32. lia. Qed.

Lemma from_cidr_denotes o1 o2 o3 o4 len :
  o1 <= 255 -> o2 <= 255 -> o3 <= 255 -> o4 <= 255 -> len <= 32 ->
  let ip := from_be_bytes [o1; o2; o3; o4] in
  from_cidr (render_cidr o1 o2 o3 o4 len) = Ok (mkNet (ip - ip mod 2 ^ (32 - len)) (prefix_mask len)).
Proof.
  intros H1 H2 H3 H4 Hl ip. unfold from_cidr. rewrite cidr_to_ip_denotes by assumption.
  cbn [bind fst snd]. rewrite net_new_spec; [reflexivity | | exact Hl].
  apply from_be_bytes_lt; assumption.
Qed.

Lemma octet_of_digits_le ds v : octet_of_digits ds = Some v -> v <= 255.
Proof.
  unfold octet_of_digits. destruct ds as [| c r]; [discriminate |].
  destruct (3 <? length (c :: r))%nat; [discriminate |].
  destruct ((c =? ch_zero) && negb (length r =? 0)%nat); [discriminate |].
  destruct (N.ltb_spec 255 (dec_value (c :: r))) as [L | L]; [discriminate |].
  intros E. inversion E. subst v. exact L.
Qed.

Lemma read_octet_le s v r : read_octet s = Some (v, r) -> v <= 255.
Proof.
  unfold read_octet. destruct (span_digits s) as [ds rest].
  destruct (octet_of_digits ds) eqn:O; [| discriminate].
  intros E. inversion E. subst. apply (octet_of_digits_le ds). exact O.
Qed.

Lemma parse_ipv4_lt s ip : parse_ipv4 s = Some ip -> ip < two32.
Proof.
  unfold parse_ipv4.
  destruct (read_octet s) as [[o1 s1] |] eqn:R1; [| discriminate].
  destruct (expect_dot s1) as [s1' |]; [| discriminate].
  destruct (read_octet s1') as [[o2 s2] |] eqn:R2; [| discriminate].
  destruct (expect_dot s2) as [s2' |]; [| discriminate].
  destruct (read_octet s2') as [[o3 s3] |] eqn:R3; [| discriminate].
  destruct (expect_dot s3) as [s3' |]; [| discriminate].
  destruct (read_octet s3') as [[o4 s4] |] eqn:R4; [| discriminate].
  destruct s4; [| discriminate].
  intros E. inversion E. apply from_be_bytes_lt; eapply read_octet_le; eassumption.
Qed.

Lemma parse_digits_no_panic ds acc :
  (exists v, parse_digits ds acc = Ok v) \/ (exists e, parse_digits ds acc = Err e).
Proof.
  revert acc. induction ds as [| c r IH]; intros acc; cbn [parse_digits].
  - left. eexists. reflexivity.
  - destruct (negb (is_digit c)); [right; eexists; reflexivity |].
    destruct (max32 <? acc * 10); [right; eexists; reflexivity |].
    destruct (max32 <? acc * 10 + digit_val c); [right; eexists; reflexivity |].
    apply IH.
Qed.

Lemma parse_u32_no_panic s :
  (exists v, parse_u32 s = Ok v) \/ (exists e, parse_u32 s = Err e).
Proof.
  unfold parse_u32. destruct s as [| c r]; [right; eexists; reflexivity |].
  destruct r as [| c' r'].
  - destruct ((c =? ch_plus) || (c =? ch_minus)); [right; eexists; reflexivity |].
    apply parse_digits_no_panic.
  - destruct (c =? ch_plus); apply parse_digits_no_panic.
Qed.

Lemma cidr_to_ip_sound s :
  (exists ip m, cidr_to_ip s = Ok (ip, m) /\ ip < two32 /\ valid_mask m) \/
  (exists e, cidr_to_ip s = Err e).
Proof.
  unfold cidr_to_ip. destruct (split_slash s) as [ip_str rest].
  destruct rest as [r |]; [| right; eexists; reflexivity].
  destruct (split_slash r) as [mask_str rest'].
  destruct (parse_ipv4 ip_str) as [ip |] eqn:P; [| right; eexists; reflexivity].
  destruct (parse_u32_no_panic mask_str) as [[v E] | [e E]]; rewrite E; cbn [bind].
  - left. rewrite from_bitcount_spec. cbn [bind]. exists ip, (prefix_mask (N.min v 32)).
    split; [reflexivity |]. split; [apply (parse_ipv4_lt ip_str); exact P |].
    apply valid_mask_prefix. lia.
  - right. eexists. reflexivity.
Qed.

Lemma from_cidr_sound s :
  (exists n, from_cidr s = Ok n /\ wf_net n) \/ (exists e, from_cidr s = Err e).
Proof.
  unfold from_cidr. destruct (cidr_to_ip_sound s) as [[ip [m [E [Hi V]]]] | [e E]]; rewrite E; cbn [bind].
  - left. eexists. split; [reflexivity |]. cbn [fst snd]. apply net_new_wf; assumption.
  - right. eexists. reflexivity.
Qed.

Example wf_net_example : wf_net (mkNet 167772160 (prefix_mask 8)).   (* 10.0.0.0/8 *)
Proof.
  change (prefix_mask 8) with (two32 - 2 ^ 24). apply wf_net_of_host; [lia | reflexivity | reflexivity].
Qed.

Example range_example : try_from_range 167772160 184549375 = Ok (mkNet 167772160 (prefix_mask 8)).
Proof. reflexivity. Qed.
