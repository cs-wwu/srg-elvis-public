(* C12 equivariance, part 3: every operation of Model/Tcb.v maps [trel]-related TCBs (and
   shifted arguments) to [trel]-related TCBs and shifted results, and keeps [tinv] on the
   original; one case analysis per operation gives both ([trok]). *)
From Elvis Require Import Model.Base Model.U32 Model.Tcb Gen.StateGen
  Proofs.U32Facts Proofs.StateGen Proofs.TcbEdges Proofs.TcbShift Proofs.TcbShiftInv.
Local Open Scope Z_scope.

Definition rrel {A} (R : A -> A -> Prop) (r r' : result A) : Prop :=
  match r, r' with
  | Ok a, Ok a' => R a a'
  | Err e, Err e' => e = e'
  | Panic p, Panic p' => p = p'
  | OutOfFuel, OutOfFuel => True
  | _, _ => False
  end.

(* results are equal except that in SynSent a RST is classified by comparing with the
   raw RCV.NXT; both classes delete the TCB *)
Definition psr_rel (r r' : psr) : Prop :=
  r = r' \/ (should_delete r = true /\ should_delete r' = true).
Definition opsr_rel (o o' : option psr) : Prop :=
  match o, o' with
  | None, None => True
  | Some r, Some r' => psr_rel r r'
  | _, _ => False
  end.
Lemma psr_rel_delete r r' : psr_rel r r' -> should_delete r' = should_delete r.
Proof. intros [->|[-> ->]]; reflexivity. Qed.

(* a relation that carries an invariant of its left argument, taken apart *)
Lemma rrel_rel {A} (R : A -> A -> Prop) (P : A -> Prop) r r' :
  rrel (fun a a' => R a a' /\ P a) r r' -> rrel R r r'.
Proof. destruct r, r'; cbn [rrel]; auto. intros [H _]. exact H. Qed.
Lemma rrel_inv {A} (R : A -> A -> Prop) (P : A -> Prop) r r' :
  rrel (fun a a' => R a a' /\ P a) r r' -> forall a, r = Ok a -> P a.
Proof. intros H a ->. destruct r'; cbn [rrel] in H; try contradiction. apply H. Qed.
Lemma rel_part {A B C : Prop} : (A /\ B) /\ C -> A /\ C.
Proof. intros [[a _] c]. auto. Qed.
Lemma inv_part {A B C : Prop} : (A /\ B) /\ C -> B.
Proof. intros [[_ b] _]. exact b. Qed.

Section Ops.
Variables dO dP : Z.
Notation G := (gsh dO dP).
Notation HO := (sh_hdr dO dP).
Notation HI := (sh_hdr dP dO).
Notation SO := (sh_seg dO dP).
Notation SI := (sh_seg dP dO).
Notation TR := (trel dO dP).
Notation RV := (rcv_valid dP).

Local Hint Resolve wadd_u32 wsub_u32 u32_0 : tinv.

Lemma trel_intro g t : RV g t -> TR t (G g t).
Proof. intros H. exists g. split; [reflexivity | exact H]. Qed.

(* the state, the three receive-side fields and the ghost are all that [rcv_valid] reads *)
Lemma RV_frame g t t1 :
  st t1 = st t -> rcv_irs t1 = rcv_irs t -> rcv_nxt t1 = rcv_nxt t -> snd_wl1 t1 = snd_wl1 t ->
  RV g t -> RV g t1.
Proof. unfold rcv_valid. intros -> -> -> ->. auto. Qed.

Lemma RV_enqueue g t h : RV g t -> RV g (enqueue t h).
Proof. intros H. unfold enqueue. destruct (_ || _); exact H. Qed.

(* related, and the original well-formed *)
Definition trok (t t' : tcb) : Prop := TR t t' /\ tinv t.

Lemma pair_ok {B} (Q : B -> B -> Prop) t t' b b' : trok t t' -> Q b b' ->
  (TR (fst (t, b)) (fst (t', b')) /\ Q (snd (t, b)) (snd (t', b'))) /\ tinv (fst (t, b)).
Proof. intros [A Hi] q. auto. Qed.

(* [t1] differs from [t] in fields that [rcv_valid] does not read, [t1'] is the
   same change on the shifted side (an equation that holds by computation) *)
Lemma trok_frame g t t1 t1' : t1' = G g t1 ->
  st t1 = st t -> rcv_irs t1 = rcv_irs t -> rcv_nxt t1 = rcv_nxt t -> snd_wl1 t1 = snd_wl1 t ->
  RV g t -> tinv t1 -> trok t1 t1'.
Proof.
  intros -> E1 E2 E3 E4 Hv Hi. split; [|exact Hi].
  apply trel_intro. revert Hv. apply RV_frame; assumption.
Qed.

Lemma trok_set_st t t' s : trok t t' -> is_synsent s = is_synsent (st t) -> trok (set_st t s) (set_st t' s).
Proof.
  intros [(g & -> & Hv) Hi] Hs. split; [|apply tinv_set_st; assumption].
  rewrite G_set_st. apply trel_intro. unfold rcv_valid. cbn [st set_st]. rewrite Hs. exact Hv.
Qed.
Lemma trok_set_time_wait t t' v : trok t t' -> trok (set_time_wait t v) (set_time_wait t' v).
Proof.
  intros [(g & -> & Hv) Hi]. rewrite G_set_time_wait.
  apply (trok_frame g t); try reflexivity; [exact Hv | apply tinv_set_time_wait; exact Hi].
Qed.

Lemma trok_set_rto t t' v : trok t t' -> trok (set_rto t v) (set_rto t' v).
Proof.
  intros [(g & -> & Hv) Hi]. rewrite G_set_rto.
  apply (trok_frame g t); try reflexivity; [exact Hv | apply tinv_set_rto; exact Hi].
Qed.

Lemma trok_enqueue t t' h : trok t t' -> hok h -> trok (enqueue t h) (enqueue t' (HO h)).
Proof.
  intros [(g & -> & Hv) Hi] Hh. rewrite enqueue_G.
  split; [apply trel_intro, RV_enqueue, Hv | apply tinv_enqueue; assumption].
Qed.
Lemma trok_enqueue_ack t t' : trok t t' -> is_synsent (st t) = false ->
  trok (enqueue t (ack_hdr t)) (enqueue t' (ack_hdr t')).
Proof.
  intros H Hst. pose proof H as [(g & -> & Hv) Hi].
  rewrite ack_hdr_G by apply (Hv Hst). apply trok_enqueue; [exact H | apply hok_ack_hdr; exact Hi].
Qed.
Lemma trok_enqueue_rst t t' a : trok t t' -> u32 a ->
  trok (enqueue t (rst_hdr t a)) (enqueue t' (rst_hdr t' (wadd a dO))).
Proof.
  intros H Ha. pose proof H as [(g & -> & Hv) Hi].
  rewrite rst_hdr_G. apply trok_enqueue; [exact H | apply hok_rst_hdr; exact Ha].
Qed.

Lemma is_in_rcv_window_G g t n : g_nxt g = wadd (rcv_nxt t) dP -> u32 n ->
  is_in_rcv_window (G g t) (wadd n dP) = is_in_rcv_window t n.
Proof.
  intros E Hn. unfold is_in_rcv_window. tcb_cbn. rewrite E.
  rewrite wsub_wadd_l, (wadd_swap (rcv_nxt t) dP).
  apply mod_bounded_shift; auto with tinv.
Qed.

Lemma is_seq_ok_G g t len seq syn fin : g_nxt g = wadd (rcv_nxt t) dP -> u32 seq -> u32 (rcv_nxt t) ->
  is_seq_ok (G g t) len (wadd seq dP) syn fin = is_seq_ok t len seq syn fin.
Proof.
  intros E Hn Hr. unfold is_seq_ok.
  rewrite (wadd_swap seq dP), wsub_wadd_l.
  rewrite !is_in_rcv_window_G by auto with tinv.
  tcb_cbn. rewrite E. rewrite wsub_wadd_l.
  rewrite mod_bounded_shift by auto with tinv. reflexivity.
Qed.

Lemma filter_map_comm {A B} (f : A -> B) p q l : (forall x, p (f x) = q x) ->
  filter p (map f l) = map f (filter q l).
Proof.
  intros H. induction l as [|x r IH]; cbn; [reflexivity|].
  rewrite H. destruct (q x); cbn; rewrite IH; reflexivity.
Qed.

Lemma remove_acked_G g t una : remove_acked (G g t) (wadd una dO) = G g (remove_acked t una).
Proof.
  unfold remove_acked. rewrite <- G_set_retx. tcb_cbn. f_equal.
  apply filter_map_comm. intros x. tcb_cbn.
  change (seg_len (mkSeg (sh_hdr dO dP (s_hdr (t_seg x))) (s_text (t_seg x)))) with (seg_len (t_seg x)).
  rewrite (wadd_swap _ dO). apply mod_lt_shift.
Qed.

Lemma is_fin_acked_G g t : u32 (snd_nxt t) -> u32 (snd_una t) ->
  is_fin_acked (G g t) = is_fin_acked t.
Proof.
  intros H1 H2. unfold is_fin_acked. tcb_cbn. rewrite eqb_shift by assumption. reflexivity.
Qed.

Lemma G_wl_irrel g t w a b : snd_wnd t = w -> G g (set_snd_window t w a b) = G g t.
Proof. intros <-. reflexivity. Qed.

(* SND.WL2 is unconstrained by [rcv_valid].  It only gates the update of SND.WND, and is
   decisive only for a segment with seq = SND.WL1; every SYN- or ACK-bearing segment
   advertises DEFAULT_WND ([hok]), so when the two runs decide the gate differently the
   update changes neither SND.WND nor SND.WL1 (it writes seq = SND.WL1 back), only SND.WL2. *)
Lemma ack_est_rel t t' h : TR t t' -> u32 (snd_una t) -> u32 (snd_nxt t) -> u32 (snd_wl1 t) ->
  u32 (h_ack h) -> u32 (h_seq h) ->
  c_ack (h_ctl h) = true -> is_synsent (st t) = false -> h_wnd h = snd_wnd t ->
  TR (fst (ack_est t h)) (fst (ack_est t' (HI h))) /\ snd (ack_est t' (HI h)) = snd (ack_est t h).
Proof.
  intros (g & -> & Hv) Hu Hn Hl1 Ha Hq Hack Hst Hw.
  destruct (Hv Hst) as [Ei En].
  unfold ack_est. tcb_cbn. rewrite Hack.
  rewrite mod_leq_shift by assumption.
  destruct (mod_leq (h_ack h) (snd_una t)).
  { cbn [fst snd]. split; [apply trel_intro; exact Hv | reflexivity]. }
  rewrite mod_gt_shift.
  destruct (mod_gt (h_ack h) (snd_nxt t)).
  { cbn [fst snd]. rewrite ack_hdr_G by exact En. rewrite enqueue_G.
    split; [apply trel_intro; apply RV_enqueue; exact Hv | reflexivity]. }
  rewrite G_set_snd_una, remove_acked_G.
  set (t1 := remove_acked (set_snd_una t (h_ack h)) (h_ack h)).
  assert (Hv1 : RV g t1) by (revert Hv; apply RV_frame; reflexivity).
  assert (Hw1 : snd_wnd t1 = h_wnd h) by (rewrite Hw; reflexivity).
  assert (Hst1 : is_synsent (st t1) = false) by exact Hst.
  assert (Hl1' : u32 (snd_wl1 t1)) by exact Hl1.
  clearbody t1.
  destruct (Hv1 Hst1) as [[Ei1 Ew1] En1].
  change (snd_wl1 (G g t1)) with (g_wl1 g). change (snd_wl2 (G g t1)) with (g_wl2 g).
  rewrite Ew1. rewrite mod_lt_shift, eqb_shift by assumption.
  assert (Hboth : TR (set_snd_window t1 (h_wnd h) (h_seq h) (h_ack h))
                     (set_snd_window (G g t1) (h_wnd h) (wadd (h_seq h) dP) (wadd (h_ack h) dO))).
  { rewrite (G_set_snd_window dO dP g t1 _ _ _ (h_seq h) (h_ack h)).
    apply trel_intro. intros _. split; [split|]; [exact Ei1 | reflexivity | exact En1]. }
  destruct (mod_lt (snd_wl1 t1) (h_seq h)); cbn [orb fst snd].
  { split; [exact Hboth | reflexivity]. }
  destruct (snd_wl1 t1 =? h_seq h) eqn:Eeq; cbn [andb fst snd].
  2:{ split; [apply trel_intro; exact Hv1 | reflexivity]. }
  apply Z.eqb_eq in Eeq.
  destruct (mod_leq (g_wl2 g) _); destruct (mod_leq (snd_wl2 t1) _); cbn [fst snd];
    (split; [|reflexivity]).
  - exact Hboth.
  - (* only the shifted run takes the update: it rewrites WL1 with itself *)
    rewrite G_set_snd_window_same by exact Hw1.
    apply trel_intro. intros _. split; [split|]; [exact Ei1 | cbn; rewrite Eeq; reflexivity | exact En1].
  - (* only the original run takes the update *)
    rewrite <- (G_wl_irrel g t1 (h_wnd h) (h_seq h) (h_ack h)) by exact Hw1.
    apply trel_intro. intros _. split; [split|]; [exact Ei1 | cbn; rewrite Ew1, Eeq; reflexivity | exact En1].
  - apply trel_intro. exact Hv1.
Qed.

(* the strict version: when WL1/WL2 are valid the window update itself is
   equivariant, whatever windows the segments advertise *)
Lemma ack_est_wl_valid g t h : wl_valid dO dP g t -> g_nxt g = wadd (rcv_nxt t) dP ->
  u32 (snd_una t) -> u32 (snd_wl1 t) -> u32 (snd_wl2 t) ->
  u32 (h_ack h) -> u32 (h_seq h) -> c_ack (h_ctl h) = true ->
  exists g', ack_est (G g t) (HI h) = (G g' (fst (ack_est t h)), snd (ack_est t h)) /\
             wl_valid dO dP g' (fst (ack_est t h)) /\ g_irs g' = g_irs g /\ g_nxt g' = g_nxt g.
Proof.
  intros [E1 E2] En Hu H1 H2 Ha Hs Hack.
  unfold ack_est. tcb_cbn. rewrite Hack.
  rewrite mod_leq_shift by assumption.
  destruct (mod_leq (h_ack h) (snd_una t)).
  { exists g. cbn [fst snd]. repeat split; assumption. }
  rewrite mod_gt_shift.
  destruct (mod_gt (h_ack h) (snd_nxt t)).
  { exists g. cbn [fst snd]. rewrite ack_hdr_G by exact En. rewrite enqueue_G.
    repeat split; unfold enqueue; destruct (_ || _); tcb_cbn; assumption. }
  rewrite G_set_snd_una, remove_acked_G.
  set (t1 := remove_acked (set_snd_una t (h_ack h)) (h_ack h)).
  assert (W1 : snd_wl1 t1 = snd_wl1 t) by reflexivity.
  assert (W2 : snd_wl2 t1 = snd_wl2 t) by reflexivity.
  clearbody t1. tcb_cbn. rewrite E1, E2, <- W1, <- W2.
  rewrite mod_lt_shift, eqb_shift, mod_leq_shift by (rewrite ?W1, ?W2; assumption).
  destruct (mod_lt (snd_wl1 t1) (h_seq h) || _); cbn [fst snd].
  - eexists (mkG _ _ _ _). split; [reflexivity|]. repeat split; reflexivity.
  - exists g. repeat split; congruence.
Qed.

Lemma ack_est_ok t t' h : trok t t' -> hok h -> c_ack (h_ctl h) = true -> is_synsent (st t) = false ->
  trok (fst (ack_est t h)) (fst (ack_est t' (HI h))) /\ snd (ack_est t' (HI h)) = snd (ack_est t h).
Proof.
  intros [HR Hi] Hh Hack Hst.
  pose proof (i_swnd _ Hi) as Hw. rewrite Hst in Hw.
  destruct (ack_est_rel t t' h HR (i_una _ Hi) (i_nxt _ Hi) (i_wl1 _ Hi)) as [A B];
    try assumption; try apply Hh.
  - rewrite Hw. apply Hh. rewrite Hack. reflexivity.
  - split; [split; [exact A | apply tinv_ack_est; assumption] | exact B].
Qed.

Lemma ack_post_ok s t2 t2' : trok t2 t2' -> st t2 = s -> is_synsent s = false ->
  trok (ack_post s t2) (ack_post s t2') /\ is_fin_acked t2' = is_fin_acked t2.
Proof.
  intros H Es Hs. pose proof H as [(g & -> & Hv) Hi].
  assert (F : is_fin_acked (G g t2) = is_fin_acked t2) by (apply is_fin_acked_G; apply Hi).
  split; [|exact F].
  destruct s; cbn [ack_post]; try exact H; rewrite F; destruct (is_fin_acked t2); try exact H.
  - apply trok_set_st; [exact H | rewrite Es; reflexivity].
  - apply trok_set_time_wait, trok_set_st; [exact H | rewrite Es; reflexivity].
Qed.

Lemma ps_ack_ok t t' h : trok t t' -> hok h ->
  trok (fst (ps_ack t h)) (fst (ps_ack t' (HI h))) /\ snd (ps_ack t' (HI h)) = snd (ps_ack t h).
Proof.
  intros H Hh. pose proof H as [(g & -> & Hv) Hi].
  destruct (c_ack (h_ctl h)) eqn:Hack.
  2:{ unfold ps_ack. cbn [sh_hdr h_ctl]. rewrite Hack. cbn [negb fst snd]. auto. }
  destruct (runs_ack_est (st t)) eqn:Hrun.
  { assert (Hst : is_synsent (st t) = false) by (destruct (st t); try reflexivity; discriminate).
    destruct (ack_est_ok _ _ h H Hh Hack Hst) as [A B].
    rewrite (ps_ack_est t h Hack Hrun), (ps_ack_est (G g t) (HI h) Hack Hrun). cbn [fst snd].
    change (st (G g t)) with (st t).
    destruct (ack_post_ok (st t) _ _ A (ack_est_st t h) Hst) as [A' F].
    split; [exact A'|]. unfold ack_res. rewrite F, B. reflexivity. }
  pose proof Hh as (Hq & Ha & Hw).
  pose proof (i_una _ Hi) as Hu. pose proof (i_nxt _ Hi) as Hn. pose proof (i_iss _ Hi) as Hs.
  unfold ps_ack. tcb_cbn. rewrite Hack. cbn [negb].
  destruct (st t) eqn:Hst; try discriminate Hrun.
  - (* SynSent *)
    rewrite !mod_bounded_shift by assumption.
    destruct (mod_bounded (snd_nxt t) CLt (h_ack h) CLeq (snd_iss t)).
    { destruct (c_rst (h_ctl h)); cbn [fst snd]; [auto|].
      split; [apply trok_enqueue_rst; assumption | reflexivity]. }
    destruct (mod_bounded (snd_una t) CLt (h_ack h) CLeq (snd_nxt t)).
    { destruct (c_syn (h_ctl h)); cbn [fst snd]; [|auto].
      rewrite G_set_snd_una, remove_acked_G. split; [|reflexivity].
      apply (trok_frame g t); try reflexivity; [exact Hv|].
      apply tinv_remove_acked, tinv_set_snd_una; assumption. }
    cbn [fst snd]. split; [apply trok_enqueue_rst; assumption | reflexivity].
  - (* SynReceived *)
    rewrite !mod_bounded_shift by assumption.
    destruct (mod_bounded (snd_una t) CLt (h_ack h) CLeq (snd_nxt t)).
    2:{ cbn [fst snd]. split; [apply trok_enqueue_rst; assumption | reflexivity]. }
    rewrite G_set_st, (G_set_snd_window dO dP g (set_st t Established) _ _ _ (h_seq h) (h_ack h)).
    set (t1 := set_snd_window (set_st t Established) (h_wnd h) (h_seq h) (h_ack h)).
    assert (H1 : trok t1 (G (set_gwl g (wadd (h_seq h) dP) (wadd (h_ack h) dO)) t1)).
    { destruct (Hv ltac:(rewrite Hst; reflexivity)) as [[Ei Ew] En]. split.
      - apply trel_intro. intros _. split; [split|]; [exact Ei | reflexivity | exact En].
      - apply tinv_set_snd_window; [|reflexivity | apply Hw; rewrite Hack; reflexivity | exact Hq].
        apply tinv_set_st; [exact Hi | rewrite Hst; reflexivity]. }
    destruct (ack_est_ok _ _ h H1 Hh Hack eq_refl) as [A B].
    destruct (ack_est t1 h) as [t2 r]. destruct (ack_est (G _ t1) (HI h)) as [t2' r'].
    cbn [fst snd] in A, B. subst r'. destruct r; cbn [fst snd]; auto.
  - (* TimeWait *)
    destruct (c_fin (h_ctl h)); cbv zeta; cbn [fst snd]; [|auto].
    split; [|reflexivity].
    rewrite (wadd_swap (h_seq h) dP 1).
    rewrite hb_G, hb_ack_sh, hb_wnd_sh.
    apply trok_set_time_wait, trok_enqueue; [exact H|]. destruct Hi. hok_tac.
Qed.

Lemma ps_rst_rel t t' h : TR t t' -> opsr_rel (ps_rst t h) (ps_rst t' (HI h)).
Proof.
  intros (g & -> & Hv). unfold ps_rst. tcb_cbn.
  destruct (c_rst (h_ctl h)); cbn [negb opsr_rel]; [|exact I].
  destruct (st t); cbn [opsr_rel]; try (left; reflexivity).
  - destruct (_ =? _), (_ =? _); cbn [opsr_rel]; (left; reflexivity) || (right; split; reflexivity).
  - destruct (listen_init t); left; reflexivity.
Qed.

Lemma ps_syn_ok t t' h : trok t t' -> hok h ->
  trok (fst (ps_syn t h)) (fst (ps_syn t' (HI h))) /\ snd (ps_syn t' (HI h)) = snd (ps_syn t h).
Proof.
  intros H Hh. pose proof H as [(g & -> & Hv) Hi]. unfold ps_syn. cbn [sh_hdr h_ctl].
  destruct (c_syn (h_ctl h)) eqn:Hsyn; cbn [negb]; [|cbn [fst snd]; auto].
  change (st (G g t)) with (st t).
  destruct (st t) eqn:Hst;
    try (cbn [fst snd]; split; [apply trok_enqueue_ack; [exact H | rewrite Hst; reflexivity] | reflexivity]).
  (* SynSent *)
  tcb_cbn.
  set (t1 := set_snd_window (set_rcv_nxt (set_rcv_irs t (h_seq h)) (wadd (h_seq h) 1)) (h_wnd h) (h_seq h) (h_ack h)).
  set (g1 := mkG (wadd (h_seq h) dP) (if c_ack (h_ctl h) then wadd (h_ack h) dO else h_ack h)
                 (wadd (h_seq h) dP) (wadd (wadd (h_seq h) 1) dP)).
  rewrite (wadd_swap (h_seq h) dP 1).
  change (set_snd_window (set_rcv_nxt (set_rcv_irs (G g t) (wadd (h_seq h) dP)) (wadd (wadd (h_seq h) 1) dP))
            (h_wnd h) (wadd (h_seq h) dP) (if c_ack (h_ctl h) then wadd (h_ack h) dO else h_ack h))
    with (G g1 t1).
  assert (H1 : forall s, is_synsent s = false -> trok (set_st t1 s) (G g1 (set_st t1 s))).
  { intros s Hs. split.
    - apply trel_intro. intros _. split; [split|]; reflexivity.
    - destruct Hi. constructor; subst t1; tcb_cbn; auto with tinv.
      + apply Hh.
      + rewrite Hs. apply Hh. rewrite Hsyn. apply orb_true_r. }
  tcb_cbn. rewrite mod_gt_shift.
  destruct (mod_gt (snd_una t) (snd_iss t)); cbn [fst snd]; (split; [|reflexivity]).
  - change (set_st (G g1 t1) Established) with (G g1 (set_st t1 Established)).
    apply trok_enqueue_ack; [apply H1|]; reflexivity.
  - change (set_st (G g1 t1) SynReceived) with (G g1 (set_st t1 SynReceived)).
    rewrite hb_G, hb_syn_sh, hb_ack_sh, hb_wnd_sh.
    apply trok_enqueue; [apply H1; reflexivity|].
    destruct (H1 SynReceived eq_refl) as [_ []]. hok_tac.
Qed.

Lemma ps_text_ok t t' h text : trok t t' -> u32 (h_seq h) -> is_synsent (st t) = false ->
  rrel trok (ps_text t h text) (ps_text t' (HI h) text).
Proof.
  intros H Hq Hst. pose proof H as [(g & -> & Hv) Hi]. destruct (Hv Hst) as [Ei En].
  rewrite !gen_ps_text. destruct (zlen text =? 0); [exact H|].
  change (st (G g t)) with (st t).
  destruct (g_Tcb_process_segment_m5 _); cbn [ps_text_arm]; try exact H.
  tcb_cbn.
  rewrite (wadd_swap (h_seq h) dP). rewrite !is_in_rcv_window_G by auto with tinv.
  destruct (negb _); [reflexivity|]. cbv zeta.
  rewrite En. rewrite wsub_shift.
  destruct (rcv_wnd t <? zlen (in_text t)); [reflexivity|]. cbn [rrel].
  set (acc := Z.min _ _). set (al := Z.min _ _) in *.
  rewrite (wadd_swap (rcv_nxt t) dP acc).
  rewrite (G_set_rcv_nxt dO dP g t _ (wadd (rcv_nxt t) acc)).
  set (t1 := set_rcv_nxt t (wadd (rcv_nxt t) acc)).
  set (g1 := set_gnxt g (wadd (wadd (rcv_nxt t) acc) dP)).
  change (in_text (G g1 t1)) with (in_text t1).
  rewrite G_set_in_text. apply trok_enqueue_ack; [|exact Hst]. split.
  - apply trel_intro. intros _. split; [exact Ei | reflexivity].
  - apply tinv_set_in_text, tinv_set_rcv_nxt; [exact Hi | apply wadd_u32].
Qed.

Lemma ps_fin_ok t t' h n : trok t t' -> u32 (h_seq h) -> trok (ps_fin t h n) (ps_fin t' (HI h) n).
Proof.
  intros H Hq. pose proof H as [(g & -> & Hv) Hi]. unfold ps_fin. tcb_cbn.
  destruct (c_fin (h_ctl h)); cbn [negb]; [|exact H].
  set (t1 := if state_eqb (st t) SynSent then t else _).
  set (t1' := if state_eqb (st t) SynSent then G g t else _).
  assert (H1 : trok t1 t1' /\ st t1 = st t).
  { subst t1 t1'. rewrite state_eqb_synsent. destruct (is_synsent (st t)) eqn:Hst; [auto|].
    destruct (Hv Hst) as [Ei En].
    rewrite En. rewrite (wadd_swap (h_seq h) dP n), (wadd_swap (wadd (h_seq h) n) dP 1).
    rewrite !eqb_shift by (auto with tinv; apply Hi).
    destruct (_ || _); [|auto]. cbv zeta.
    rewrite (G_set_rcv_nxt dO dP g t _ (wadd (wadd (h_seq h) n) 1)).
    split; [|rewrite enqueue_st; reflexivity].
    apply trok_enqueue_ack; [|exact Hst]. split.
    - apply trel_intro. intros _. split; [exact Ei | reflexivity].
    - apply tinv_set_rcv_nxt; [exact Hi | apply wadd_u32]. }
  destruct H1 as [H1 _]. clearbody t1 t1'.
  rewrite (trel_st _ _ _ _ (proj1 H1)).
  assert (F : is_fin_acked t1' = is_fin_acked t1).
  { destruct H1 as [(g1 & -> & _) Hi1]. apply is_fin_acked_G; apply Hi1. }
  assert (Hset : forall s, is_synsent (st t1) = false -> is_synsent s = false -> trok (set_st t1 s) (set_st t1' s))
    by (intros s E1 E2; apply trok_set_st; congruence).
  destruct (st t1) eqn:Hst1; try exact H1.
  - apply Hset; reflexivity.
  - apply Hset; reflexivity.
  - rewrite F. destruct (is_fin_acked t1); [apply trok_set_time_wait|]; apply Hset; reflexivity.
  - apply trok_set_rto, trok_set_time_wait, Hset; reflexivity.
  - apply trok_set_time_wait, H1.
Qed.

Definition pp_rel (p p' : tcb * psr) : Prop := TR (fst p) (fst p') /\ psr_rel (snd p) (snd p').

Lemma process_segment_ok t t' s : trok t t' -> sok s ->
  rrel (fun p p' => pp_rel p p' /\ tinv (fst p)) (process_segment t s) (process_segment t' (SI s)).
Proof.
  intros H Hs. pose proof H as [(g & -> & Hv) Hi]. pose proof Hs as (Hq & Ha & Hw).
  unfold process_segment. tcb_cbn.
  (* stage 1 *)
  match goal with |- rrel _ (if ?c then _ else _) (if ?c' then _ else _) => assert (E1 : c' = c) end.
  { destruct (st t) eqn:Hst; try reflexivity;
      (destruct (Hv ltac:(rewrite Hst; reflexivity)) as [Ei En]; rewrite is_seq_ok_G by (try assumption; apply Hi); reflexivity). }
  rewrite E1. clear E1.
  match goal with |- rrel _ (if ?c then _ else _) _ => destruct c eqn:Ebad end.
  { apply (pair_ok psr_rel); [|left; reflexivity].
    apply trok_enqueue_ack; [exact H|]. destruct (st t); try reflexivity; discriminate. }
  destruct (ps_ack_ok _ _ (s_hdr s) H Hs) as [A2 B2].
  destruct (ps_ack t (s_hdr s)) as [t2 r2]. destruct (ps_ack (G g t) (HI (s_hdr s))) as [t2' r2'].
  cbn [fst snd] in A2, B2. subst r2'.
  destruct r2 as [r|]; [apply (pair_ok psr_rel); [exact A2 | left; reflexivity]|].
  pose proof (ps_rst_rel t2 t2' (s_hdr s) (proj1 A2)) as A3.
  destruct (ps_rst t2 (s_hdr s)) as [r3|]; destruct (ps_rst t2' (HI (s_hdr s))) as [r3'|];
    cbn [opsr_rel] in A3; try contradiction.
  { apply (pair_ok psr_rel); assumption. }
  destruct (ps_syn_ok t2 t2' (s_hdr s) A2 Hs) as [A4 B4].
  destruct (ps_syn t2 (s_hdr s)) as [t4 r4]. destruct (ps_syn t2' (HI (s_hdr s))) as [t4' r4'].
  cbn [fst snd] in A4, B4. subst r4'.
  destruct r4 as [r|]; [apply (pair_ok psr_rel); [exact A4 | left; reflexivity]|].
  rewrite (trel_st _ _ _ _ (proj1 A4)), state_eqb_synsent.
  destruct (is_synsent (st t4)) eqn:Hst4.
  { apply (pair_ok psr_rel); [exact A4 | left; reflexivity]. }
  pose proof (ps_text_ok t4 t4' (s_hdr s) (s_text s) A4 Hq Hst4) as A6.
  destruct (ps_text t4 (s_hdr s) (s_text s)) as [t6| | |];
    destruct (ps_text t4' (HI (s_hdr s)) (s_text s)) as [t6'| | |]; cbn [rrel] in A6 |- *; try contradiction; auto.
  apply (pair_ok psr_rel); [|left; reflexivity].
  apply ps_fin_ok; assumption.
Qed.

Definition pa_rel (p p' : tcb * arrives_result) : Prop := TR (fst p) (fst p') /\ snd p' = snd p.

Lemma Forall_sok_squ32 l : Forall sok l -> Forall squ32 l.
Proof. apply Forall_impl. intros a Ha. apply Ha. Qed.

Lemma arrives_loop_ok fuel : forall t t', trok t t' ->
  rrel (fun p p' => pa_rel p p' /\ tinv (fst p)) (arrives_loop fuel t) (arrives_loop fuel t').
Proof.
  induction fuel as [|f IH]; intros t t' H; cbn [arrives_loop]; [exact I|].
  pose proof H as [(g & -> & Hv) Hi]. tcb_cbn.
  rewrite heap_peek_sh.
  destruct (heap_peek (in_segs t)) as [top|] eqn:Etop; cbn [option_map].
  2:{ apply (pair_ok (fun b b' => b' = b)); [exact H | reflexivity]. }
  pose proof (i_in _ Hi) as Hseg.
  assert (Ec : negb (state_eqb (st t) SynSent) && mod_gt (h_seq (s_hdr (SI top))) (g_nxt g) =
               negb (state_eqb (st t) SynSent) && mod_gt (h_seq (s_hdr top)) (rcv_nxt t)).
  { rewrite state_eqb_synsent. destruct (is_synsent (st t)) eqn:Hst; [reflexivity|].
    destruct (Hv Hst) as [_ ->]. apply mod_gt_shift. }
  rewrite Ec. clear Ec.
  destruct (_ && _). { apply (pair_ok (fun b b' => b' = b)); [exact H | reflexivity]. }
  rewrite heap_pop_sh by (apply Forall_sok_squ32; exact Hseg).
  destruct (heap_pop (in_segs t)) as [[s rest]|] eqn:Ep; cbn [opt_pop_sh]; [|reflexivity].
  destruct (heap_pop_Forall sok _ _ _ Hseg Ep) as [Hs Hrest].
  rewrite G_set_in_segs.
  assert (H1 : trok (set_in_segs t rest) (G g (set_in_segs t rest))).
  { apply (trok_frame g t); try reflexivity; [exact Hv | apply tinv_set_in_segs; assumption]. }
  pose proof (process_segment_ok _ _ s H1 Hs) as A.
  destruct (process_segment (set_in_segs t rest) s) as [[t2 r2]| | |];
    destruct (process_segment (G g (set_in_segs t rest)) (SI s)) as [[t2' r2']| | |];
    cbn [rrel] in A |- *; try contradiction; auto.
  destruct A as [[A B] Ai]. cbn [fst snd] in A, B, Ai.
  rewrite (psr_rel_delete _ _ B).
  destruct (should_delete r2); [apply (pair_ok (fun b b' => b' = b)); [split; assumption | reflexivity] | apply IH; split; assumption].
Qed.

Lemma segment_arrives_ok t t' s : trok t t' -> sok s ->
  rrel (fun p p' => pa_rel p p' /\ tinv (fst p)) (segment_arrives t s) (segment_arrives t' (SI s)).
Proof.
  intros [(g & -> & Hv) Hi] Hs. unfold segment_arrives. tcb_cbn.
  pose proof (i_in _ Hi) as Hseg.
  rewrite heap_push_sh by (try (apply Forall_sok_squ32; exact Hseg); apply Hs).
  rewrite map_length. rewrite G_set_in_segs.
  apply arrives_loop_ok. apply (trok_frame g t); try reflexivity; [exact Hv|].
  apply tinv_set_in_segs; [exact Hi|]. apply heap_push_Forall; assumption.
Qed.

Lemma tcb_open_rel lp rp iss m : TR (tcb_open lp rp iss m) (tcb_open lp rp (wadd iss dO) m).
Proof.
  exists (mkG 0 0 0 0). split; [|intros H; discriminate H].
  unfold tcb_open, enqueue. cbn -[wadd]. rewrite (wadd_swap iss dO 1). reflexivity.
Qed.

Definition lrel (r r' : listen_result) : Prop :=
  match r, r' with
  | LNone, LNone => True
  | LResponse h, LResponse h' => h' = HO h
  | LTcb t, LTcb t' => TR t t'
  | _, _ => False
  end.

Lemma arrives_listen_rel s iss m : sok s ->
  lrel (arrives_listen s iss m) (arrives_listen (SI s) (wadd iss dO) m).
Proof.
  intros (Hq & Ha & Hw). unfold arrives_listen. tcb_cbn.
  destruct (c_rst (h_ctl (s_hdr s))); [exact I|].
  destruct (c_ack (h_ctl (s_hdr s))) eqn:Hack; [reflexivity|].
  destruct (c_syn (h_ctl (s_hdr s))); [|exact I]. cbn [lrel].
  (* RCV.IRS, RCV.NXT, SND.WL1 come from the SYN's seq; SND.WL2 is its raw ack field *)
  exists (mkG (wadd (h_seq (s_hdr s)) dP) (h_ack (s_hdr s)) (wadd (h_seq (s_hdr s)) dP) (wadd (wadd (h_seq (s_hdr s)) 1) dP)).
  split; [|intros _; split; [split|]; reflexivity].
  unfold enqueue. cbn -[wadd]. rewrite (wadd_swap iss dO 1), (wadd_swap (h_seq (s_hdr s)) dP 1). reflexivity.
Qed.

Lemma tcb_send_rel t t' b : TR t t' -> TR (tcb_send t b) (tcb_send t' b).
Proof.
  intros (g & -> & Hv). unfold tcb_send. tcb_cbn.
  destruct (accepts_send (st t)); [rewrite G_set_out_text|]; apply trel_intro; [|exact Hv].
  revert Hv. apply RV_frame; reflexivity.
Qed.

Lemma tcb_receive_rel t t' : TR t t' ->
  TR (fst (tcb_receive t)) (fst (tcb_receive t')) /\ snd (tcb_receive t') = snd (tcb_receive t).
Proof.
  intros (g & -> & Hv). unfold tcb_receive. cbn [fst snd]. split; [|reflexivity].
  rewrite G_set_in_text. apply trel_intro. revert Hv. apply RV_frame; reflexivity.
Qed.

Lemma queue_pending_fin_ok t t' : trok t t' -> trok (queue_pending_fin t) (queue_pending_fin t').
Proof.
  intros H. pose proof H as [(g & -> & Hv) Hi]. unfold queue_pending_fin. tcb_cbn.
  destruct (fin_pending t) eqn:Hf; cbn [andb]; [|exact H].
  destruct (out_text t); [|exact H].
  assert (Hst : is_synsent (st t) = false).
  { destruct (is_synsent (st t)) eqn:E; [|reflexivity].
    pose proof (i_swnd _ Hi) as Hp. rewrite E in Hp. destruct Hp as [_ Hp]. congruence. }
  destruct (Hv Hst) as [Ei En]. cbv zeta.
  rewrite G_set_fin_pending.
  set (t1 := set_fin_pending t false).
  assert (H1 : trok t1 (G g t1)).
  { apply (trok_frame g t); try reflexivity; [exact Hv | apply tinv_set_fin_pending; assumption]. }
  change (rcv_nxt (G g t1)) with (g_nxt g). rewrite En, hb_G, hb_fin_sh, hb_ack_sh, hb_wnd_sh.
  set (hh := hb_wnd (hb_ack (hb_fin (hb t1 (snd_nxt t))) (rcv_nxt t)) (rcv_wnd t)).
  assert (H2 : trok (enqueue t1 hh) (enqueue (G g t1) (HO hh))).
  { apply trok_enqueue; [exact H1|]. destruct Hi. hok_tac. }
  destruct H2 as [(g2 & -> & Hv2) Hi2].
  change (snd_nxt (G g2 (enqueue t1 hh))) with (wadd (snd_nxt (enqueue t1 hh)) dO).
  rewrite (wadd_swap _ dO 1), G_set_snd_nxt.
  split; [apply trel_intro; revert Hv2; apply RV_frame; reflexivity|].
  apply tinv_set_snd_nxt; [exact Hi2 | apply wadd_u32].
Qed.

Lemma tcb_close_ok t t' : trok t t' ->
  trok (fst (tcb_close t)) (fst (tcb_close t')) /\ snd (tcb_close t') = snd (tcb_close t).
Proof.
  intros H. pose proof H as [(g & -> & Hv) Hi]. unfold tcb_close. tcb_cbn.
  assert (Hc : forall s, is_synsent (st t) = false -> is_synsent s = false ->
    trok (queue_pending_fin (set_st (set_fin_pending t true) s))
         (queue_pending_fin (set_st (set_fin_pending (G g t) true) s))).
  { intros s Hst Hs. apply queue_pending_fin_ok, trok_set_st; [|rewrite Hs, <- Hst; reflexivity].
    rewrite G_set_fin_pending. apply (trok_frame g t); try reflexivity; [exact Hv|].
    apply tinv_set_fin_pending; assumption. }
  destruct (st t) eqn:Hst; cbn [fst snd]; (split; [|reflexivity]); try exact H; apply Hc; reflexivity.
Qed.

Lemma advance_time_rel t t' dt : TR t t' ->
  TR (fst (advance_time t dt)) (fst (advance_time t' dt)) /\ snd (advance_time t' dt) = snd (advance_time t dt).
Proof.
  intros (g & -> & Hv). unfold advance_time. tcb_cbn.
  set (t1 := if rto t <? dt then _ else _).
  set (t1' := if rto t <? dt then _ else _).
  assert (H1 : t1' = G g t1 /\ RV g t1).
  { subst t1 t1'. destruct (rto t <? dt).
    - split; [|revert Hv; apply RV_frame; reflexivity].
      rewrite G_set_rto. rewrite <- G_set_retx. f_equal. rewrite !map_map. reflexivity.
    - split; [reflexivity | revert Hv; apply RV_frame; reflexivity]. }
  destruct H1 as [-> Hv1]. clearbody t1. tcb_cbn.
  destruct (time_wait t1) as [tw|]; [|cbn [fst snd]; split; [apply trel_intro; exact Hv1 | reflexivity]].
  destruct (tw <? dt); cbn [fst snd]; (split; [|reflexivity]); [apply trel_intro; exact Hv1|].
  rewrite G_set_time_wait. apply trel_intro. revert Hv1. apply RV_frame; reflexivity.
Qed.

Lemma seg_loop_ok fuel : forall t t' mss rem, trok t t' -> 0 <= mss -> 0 <= rem ->
  rrel trok (seg_loop fuel t mss rem) (seg_loop fuel t' mss rem).
Proof.
  induction fuel as [|f IH]; intros t t' mss rem H Hmss Hrem; cbn [seg_loop]; [exact I|]. cbv zeta.
  pose proof H as [(g & -> & Hv) Hi]. tcb_cbn. rewrite wsub_shift.
  set (bytes := Z.min (Z.min mss (Z.max 0 (snd_wnd t - wsub (snd_nxt t) (snd_una t)))) rem).
  destruct (bytes =? 0) eqn:Eb; [exact H|].
  destruct (65535 <? bytes + 20); [reflexivity|].
  assert (Hst : is_synsent (st t) = false).
  { destruct (is_synsent (st t)) eqn:E; [|reflexivity]. exfalso.
    pose proof (i_swnd _ Hi) as Hsw. rewrite E in Hsw. destruct Hsw as [Hsw _].
    pose proof (wsub_u32 (snd_nxt t) (snd_una t)) as Hu. unfold u32 in Hu.
    subst bytes. rewrite Hsw in Eb. lia. }
  destruct (Hv Hst) as [Ei En]. rewrite En.
  rewrite (wadd_swap (snd_nxt t) dO bytes).
  apply IH; [| exact Hmss | subst bytes; lia].
  apply (trok_frame g t); try reflexivity; [| exact Hv |].
  - unfold gsh. tcb_cbn. rewrite map_app. reflexivity.
  - apply tinv_set_retx.
    + apply tinv_set_snd_nxt; [apply tinv_set_out_text; exact Hi | apply wadd_u32].
    + tcb_cbn. apply Forall_app. split; [apply Hi|]. constructor; [|constructor].
      destruct Hi. hok_tac.
Qed.

Definition ps_rel (p p' : tcb * list segment) : Prop := TR (fst p) (fst p') /\ snd p' = map SO (snd p).

Lemma tcb_segments_ok t t' : trok t t' ->
  rrel (fun p p' => ps_rel p p' /\ tinv (fst p) /\ Forall sok (snd p)) (tcb_segments t) (tcb_segments t').
Proof.
  intros [(g & -> & Hv) Hi]. unfold tcb_segments.
  change (oneshot (G g t)) with (map HO (oneshot t)).
  change (set_oneshot (G g t) []) with (G g (set_oneshot t [])).
  set (t0 := set_oneshot t []).
  assert (H0 : trok t0 (G g t0)).
  { apply (trok_frame g t); try reflexivity; [exact Hv | apply tinv_set_oneshot; [exact Hi | constructor]]. }
  assert (E0 : map (fun h => mkSeg h []) (map HO (oneshot t)) = map SO (map (fun h => mkSeg h []) (oneshot t))).
  { rewrite !map_map. reflexivity. }
  rewrite E0. clear E0.
  assert (Hout0 : Forall sok (map (fun h => mkSeg h []) (oneshot t))) by (apply Forall_map; exact (i_one _ Hi)).
  set (out0 := map (fun h => mkSeg h []) (oneshot t)) in *.
  clearbody t0 out0.
  change (st (G g t0)) with (st t0). change (mtu (G g t0)) with (mtu t0).
  change (out_text (G g t0)) with (out_text t0).
  match goal with |- rrel _ (match ?a with Ok _ => _ | _ => _ end) (match ?b with Ok _ => _ | _ => _ end) =>
    set (r1 := a); set (r1' := b) end.
  assert (Hr : rrel trok r1 r1').
  { subst r1 r1'. destruct (segmentizes (st t0)); [|exact H0].
    destruct (mtu t0 <? SPACE_FOR_HEADERS) eqn:Emtu; [reflexivity|].
    pose proof (seg_loop_ok (S (length (out_text t0))) t0 (G g t0) (mtu t0 - SPACE_FOR_HEADERS)
                  (zlen (out_text t0)) H0 ltac:(lia) ltac:(unfold zlen; lia)) as A.
    destruct (seg_loop _ t0 _ _) as [t1| | |]; destruct (seg_loop _ (G g t0) _ _) as [t1'| | |];
      cbn [rrel] in A |- *; try contradiction; auto.
    apply queue_pending_fin_ok; exact A. }
  clearbody r1 r1'.
  destruct r1 as [t1| | |]; destruct r1' as [t1'| | |]; cbn [rrel] in Hr |- *; try contradiction; auto.
  destruct Hr as [(g1 & -> & Hv1) Hi1]. tcb_cbn.
  assert (E1 : map t_seg (filter t_needs (map (sh_tx dO dP) (retx t1))) = map SO (map t_seg (filter t_needs (retx t1)))).
  { rewrite (filter_map_comm (sh_tx dO dP) t_needs t_needs) by reflexivity. rewrite !map_map. reflexivity. }
  rewrite E1. clear E1. rewrite <- map_app.
  assert (E2 : map (fun tx => mkTx (t_seg tx) false) (map (sh_tx dO dP) (retx t1)) =
               map (sh_tx dO dP) (map (fun tx => mkTx (t_seg tx) false) (retx t1))).
  { rewrite !map_map. reflexivity. }
  rewrite E2. clear E2. rewrite G_set_retx.
  set (t2 := set_retx t1 _).
  assert (H2 : trok t2 (G g1 t2)).
  { apply (trok_frame g1 t1); try reflexivity; [exact Hv1|].
    apply tinv_set_retx; [exact Hi1 | apply Forall_map; exact (i_retx _ Hi1)]. }
  pose proof (trok_set_rto _ _ RTO H2) as H3.
  unfold ps_rel. cbn [fst snd].
  assert (Hout : Forall sok (out0 ++ map t_seg (filter t_needs (retx t1)))).
  { apply Forall_app. split; [exact Hout0|]. apply Forall_map, (incl_Forall (incl_filter _ _)), (i_retx _ Hi1). }
  destruct (map t_seg (filter t_needs (retx t1))); cbn [map].
  - destruct H2 as [A B]. auto.
  - destruct H3 as [A B]. auto.
Qed.

End Ops.
