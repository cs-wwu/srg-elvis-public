(* C12 equivariance, part 2: [tinv] under the setters, the header builders and the
   operations whose relation lemma needs no invariant.  It is needed on the ORIGINAL run
   only: in the shifted run every sequence field is a [wadd], in range by construction. *)
From Elvis Require Import Model.Base Model.U32 Model.Tcb Proofs.U32Facts Proofs.TcbEdges Proofs.TcbShift.
Local Open Scope Z_scope.

Local Hint Resolve wadd_u32 wsub_u32 u32_0 : tinv.
Ltac hok_tac :=
  unfold xok, sok, hok; tcb_cbn; cbn [orb andb negb]; (split; [|split]); auto with tinv;
  try (intro; discriminate); try reflexivity.

Lemma tinv_set_retx t v : tinv t -> Forall xok v -> tinv (set_retx t v).
Proof. intros [] H. constructor; tcb_cbn; assumption. Qed.
Lemma tinv_set_oneshot t v : tinv t -> Forall hok v -> tinv (set_oneshot t v).
Proof. intros [] H. constructor; tcb_cbn; assumption. Qed.
Lemma tinv_set_in_segs t v : tinv t -> Forall sok v -> tinv (set_in_segs t v).
Proof. intros [] H. constructor; tcb_cbn; assumption. Qed.
Lemma tinv_set_out_text t v : tinv t -> tinv (set_out_text t v).
Proof. intros []. constructor; tcb_cbn; assumption. Qed.
Lemma tinv_set_in_text t v : tinv t -> tinv (set_in_text t v).
Proof. intros []. constructor; tcb_cbn; assumption. Qed.
Lemma tinv_set_rto t v : tinv t -> tinv (set_rto t v).
Proof. intros []. constructor; tcb_cbn; assumption. Qed.
Lemma tinv_set_time_wait t v : tinv t -> tinv (set_time_wait t v).
Proof. intros []. constructor; tcb_cbn; assumption. Qed.
Lemma tinv_set_snd_una t v : tinv t -> u32 v -> tinv (set_snd_una t v).
Proof. intros [] H. constructor; tcb_cbn; assumption. Qed.
Lemma tinv_set_snd_nxt t v : tinv t -> u32 v -> tinv (set_snd_nxt t v).
Proof. intros [] H. constructor; tcb_cbn; assumption. Qed.
Lemma tinv_set_rcv_nxt t v : tinv t -> u32 v -> tinv (set_rcv_nxt t v).
Proof. intros [] H. constructor; tcb_cbn; assumption. Qed.
Lemma tinv_set_rcv_irs t v : tinv t -> tinv (set_rcv_irs t v).
Proof. intros []. constructor; tcb_cbn; assumption. Qed.
Lemma tinv_set_st t v : tinv t -> is_synsent v = is_synsent (st t) -> tinv (set_st t v).
Proof. intros [] H. constructor; tcb_cbn; try assumption. rewrite H. assumption. Qed.
Lemma tinv_set_snd_window t w a b : tinv t -> is_synsent (st t) = false -> w = DEFAULT_WND -> u32 a ->
  tinv (set_snd_window t w a b).
Proof. intros [] H -> Ha. constructor; tcb_cbn; try assumption. rewrite H. reflexivity. Qed.
Lemma tinv_set_fin_pending t v : tinv t -> is_synsent (st t) = false -> tinv (set_fin_pending t v).
Proof.
  intros [] H. constructor; tcb_cbn; try assumption. rewrite H in *. assumption.
Qed.

Lemma hok_ack_hdr t : tinv t -> hok (ack_hdr t).
Proof.
  intros []. unfold hok, ack_hdr. tcb_cbn. auto.
Qed.
Lemma hok_rst_hdr t seq : u32 seq -> hok (rst_hdr t seq).
Proof.
  intros H. unfold rst_hdr. hok_tac.
Qed.

Lemma tinv_enqueue t h : tinv t -> hok h -> tinv (enqueue t h).
Proof.
  intros Hi Hh. unfold enqueue. destruct (c_syn (h_ctl h) || c_fin (h_ctl h)).
  - apply tinv_set_retx; [assumption|]. apply Forall_app. split; [apply Hi|].
    constructor; [exact Hh | constructor].
  - apply tinv_set_oneshot; [assumption|]. apply Forall_app. split; [apply Hi|].
    constructor; [exact Hh | constructor].
Qed.

Lemma enqueue_snd_wnd t h : snd_wnd (enqueue t h) = snd_wnd t.
Proof. unfold enqueue. destruct (_ || _); reflexivity. Qed.
Lemma enqueue_fin_pending t h : fin_pending (enqueue t h) = fin_pending t.
Proof. unfold enqueue. destruct (_ || _); reflexivity. Qed.

Lemma tinv_remove_acked t una : tinv t -> tinv (remove_acked t una).
Proof.
  intros Hi. unfold remove_acked. apply tinv_set_retx; [assumption|].
  apply (incl_Forall (incl_filter _ _)), Hi.
Qed.

Lemma tinv_ack_est t h : tinv t -> hok h -> c_ack (h_ctl h) = true -> is_synsent (st t) = false ->
  tinv (fst (ack_est t h)).
Proof.
  intros Hi Hh Hack Hst. unfold ack_est.
  destruct (mod_leq _ _); [exact Hi|].
  destruct (mod_gt _ _); cbn [fst].
  - apply tinv_enqueue; [assumption | apply hok_ack_hdr; assumption].
  - assert (H1 : tinv (remove_acked (set_snd_una t (h_ack h)) (h_ack h))).
    { apply tinv_remove_acked. apply tinv_set_snd_una; [assumption | apply Hh]. }
    destruct (_ || _); [|exact H1].
    apply tinv_set_snd_window; [exact H1 | exact Hst | | apply Hh].
    apply Hh. rewrite Hack. reflexivity.
Qed.

(* six of the nine states of ps_ack run ack_est on the TCB as it is and differ in what
   they do with the answer *)
Definition runs_ack_est (s : state) : bool :=
  match s with Established | FinWait1 | FinWait2 | CloseWait | Closing | LastAck => true | _ => false end.
Definition ack_post (s : state) (t2 : tcb) : tcb :=
  match s with
  | FinWait1 => if is_fin_acked t2 then set_st t2 FinWait2 else t2
  | Closing => if is_fin_acked t2 then set_time_wait (set_st t2 TimeWait) (Some MSL2) else t2
  | _ => t2
  end.
Definition ack_res (s : state) (t2 : tcb) (r : psr) : option psr :=
  let o := match r with PSuccess => None | other => Some other end in
  match s with LastAck => if is_fin_acked t2 then Some PFinalizeClose else o | _ => o end.

Lemma ps_ack_est t h : c_ack (h_ctl h) = true -> runs_ack_est (st t) = true ->
  ps_ack t h = (ack_post (st t) (fst (ack_est t h)), ack_res (st t) (fst (ack_est t h)) (snd (ack_est t h))).
Proof.
  unfold ps_ack. intros -> H. cbn [negb].
  destruct (st t); try discriminate H; cbn [ack_post ack_res];
    destruct (ack_est t h) as [t2 r]; cbn [fst snd];
    try destruct (is_fin_acked t2); destruct r; reflexivity.
Qed.

Lemma ps_text_st t h text t1 : ps_text t h text = Ok t1 -> st t1 = st t.
Proof. exact (TcbEdges.ps_text_st t h text t1). Qed.

Lemma tinv_tcb_open lp rp iss m : u32 iss -> tinv (tcb_open lp rp iss m).
Proof.
  intros H. unfold tcb_open. apply tinv_enqueue.
  - constructor; tcb_cbn; auto with tinv. cbn. auto.
  - hok_tac.
Qed.

Lemma tinv_arrives_listen s iss m t : u32 iss -> sok s -> arrives_listen s iss m = LTcb t -> tinv t.
Proof.
  intros Hiss Hs. unfold arrives_listen.
  destruct (c_rst _); [discriminate|]. destruct (c_ack _) eqn:Hack; [discriminate|].
  destruct (c_syn _) eqn:Hsyn; [|discriminate]. intros [= <-].
  destruct Hs as (Hq & Ha & Hw).
  assert (Hw' : h_wnd (s_hdr s) = DEFAULT_WND) by (apply Hw; rewrite Hsyn; apply orb_true_r).
  match goal with |- tinv (set_in_segs ?a _) => assert (H1 : tinv a) end.
  { apply tinv_enqueue.
    - constructor; tcb_cbn; auto with tinv.
    - hok_tac. }
  apply tinv_set_in_segs; [exact H1|].
  apply heap_push_Forall; [apply H1|].
  hok_tac.
Qed.
Lemma hok_arrives_listen s iss m h : sok s -> arrives_listen s iss m = LResponse h -> hok h.
Proof.
  intros Hs. unfold arrives_listen.
  destruct (c_rst _); [discriminate|]. destruct (c_ack _) eqn:Hack.
  - intros [= <-]. destruct Hs as (Hq & Ha & Hw). hok_tac.
  - destruct (c_syn _); discriminate.
Qed.

Lemma tinv_tcb_send t b : tinv t -> tinv (tcb_send t b).
Proof. intros Hi. unfold tcb_send. destruct (accepts_send _); [apply tinv_set_out_text|]; exact Hi. Qed.
Lemma tinv_tcb_receive t : tinv t -> tinv (fst (tcb_receive t)).
Proof. intros Hi. apply tinv_set_in_text. exact Hi. Qed.

Lemma tinv_advance_time t dt : tinv t -> tinv (fst (advance_time t dt)).
Proof.
  intros Hi. unfold advance_time.
  set (t1 := if rto t <? dt then _ else _).
  assert (H1 : tinv t1).
  { subst t1. destruct (rto t <? dt); [|apply tinv_set_rto; exact Hi].
    apply tinv_set_retx; [apply tinv_set_rto; exact Hi|].
    apply Forall_map. pose proof (i_retx _ Hi) as H. revert H. apply Forall_impl. intros a Ha. exact Ha. }
  clearbody t1. destruct (time_wait t1) as [tw|]; [|exact H1].
  destruct (tw <? dt); cbn [fst]; [exact H1 | apply tinv_set_time_wait; exact H1].
Qed.

