(* C01 liveness (partial): quiescent states - both endpoints ESTABLISHED, everything acknowledged,
   nothing in flight - are silent, and in a reachable one everything submitted has been delivered. *)
From Elvis Require Import Model.Base Model.U32 Model.Tcb Model.TcpNet Proofs.U32Facts Proofs.TcbSafetyDefs
  Proofs.TcbSafetyBase Proofs.TcbSafetySnd Proofs.TcbSafetySys Proofs.TcbSafetyStep
  Proofs.TcbLive Proofs.TcbLiveSys.
Local Open Scope Z_scope.

Definition sel {A} (x : side) (a b : A) : A := match x with SA => a | SB => b end.

(* a = SND.UNA = SND.NXT of A = RCV.NXT of B;  b likewise for B *)
Definition Quiescent (c : config) (s : sys) (a b : Z) : Prop :=
  exists tA tB, endA s = ELive tA /\ endB s = ELive tB /\ quiet tA a b /\ quiet tB b a /\
    mtu tA = mtuA c /\ mtu tB = mtuB c /\ netA s = [] /\ netB s = [] /\ panicked s = false.

Lemma quiescent_at c s a b x : Quiescent c s a b ->
  exists tx ty, end_of s x = ELive tx /\ end_of s (other x) = ELive ty /\
    quiet tx (sel x a b) (sel x b a) /\ quiet ty (sel x b a) (sel x a b) /\
    mtu tx = mtu_of c x /\ mtu ty = mtu_of c (other x) /\
    net_of s x = [] /\ net_of s (other x) = [] /\ panicked s = false.
Proof.
  intros (tA & tB & H1 & H2 & H3 & H4 & H5 & H6 & H7 & H8 & H9).
  destruct x; cbn [sel other end_of net_of mtu_of]; [exists tA, tB|exists tB, tA]; auto 12.
Qed.

Lemma quiescent_from c s x tx ty p q :
  end_of s x = ELive tx -> end_of s (other x) = ELive ty -> quiet tx p q -> quiet ty q p ->
  mtu tx = mtu_of c x -> mtu ty = mtu_of c (other x) ->
  net_of s x = [] -> net_of s (other x) = [] -> panicked s = false ->
  Quiescent c s (sel x p q) (sel x q p).
Proof.
  intros H1 H2 H3 H4 H5 H6 H7 H8 H9. unfold Quiescent.
  destruct x; cbn [sel other end_of net_of mtu_of] in *; [exists tx, ty|exists ty, tx]; auto 12.
Qed.

(* a quiescent system is silent: neither endpoint has anything to transmit, also after a tick of any length *)
Lemma quiescent_silent c s a b x t ms : Quiescent c s a b -> end_of s x = ELive t ->
  st t = Established /\ retx t = [] /\ out_text t = [] /\ oneshot t = [] /\ snd_una t = snd_nxt t /\
  net_of s x = [] /\
  exists t', tcb_segments t = Ok (t', []) /\
  exists t'', tcb_segments (fst (advance_time t' ms)) = Ok (t'', []).
Proof.
  intros HQ El. destruct (quiescent_at c s a b x HQ) as (tx & ty & Ex & _ & Q & _ & _ & _ & Nx & _).
  rewrite El in Ex. injection Ex as <-.
  destruct Q as (Q1 & Q2 & Q3 & Q4 & Q5 & Q6 & Q7 & Q8 & Q9 & Q10 & Q11 & Q12 & Q13 & Q14 & Q15 & Q16 & Q17).
  repeat (split; [congruence|]).
  rewrite (segments_idle t Q7 Q10 ltac:(lia)), Q8, Q9. cbn [map filter app]. eexists. split; [reflexivity|].
  set (t1 := set_retx (set_oneshot t []) []).
  (* whether or not the retransmission timer fires, the queue it would flag is empty *)
  assert (E : forall t2, out_text t2 = [] -> fin_pending t2 = false -> 50 <= mtu t2 -> retx t2 = [] -> oneshot t2 = [] ->
              exists t'', tcb_segments t2 = Ok (t'', [])).
  { intros t2 H1 H2 H3 H4 H5. rewrite (segments_idle t2 H1 H2 H3), H4, H5. cbn [map filter app]. eauto. }
  unfold advance_time. destruct (rto t1 <? ms); subst t1; tcb_simpl; rewrite Q14; cbn [fst map];
    apply E; tcb_simpl; auto; lia.
Qed.

Section Round.
  Variable c : config.

  Lemma send_step s x tx : panicked s = false -> end_of s x = ELive tx -> st tx = Established ->
    forall bytes, fst (sys_step c s (LSend x bytes)) =
      set_end (set_sub s x (sub_of s x ++ bytes)) x (ELive (tcb_send tx bytes)).
  Proof. intros Pn Ex Est bytes. unfold sys_step. rewrite Pn, Ex, Est. reflexivity. Qed.

  Lemma fairk s k : panicked s = false -> fst (sys_step c s (LFair k)) = fair_rounds k c s.
  Proof. intros Pn. unfold sys_step. now rewrite Pn. Qed.
End Round.

Definition side_eqb (x y : side) : bool :=
  match x, y with SA, SA | SB, SB => true | _, _ => false end.

Fixpoint write_trace (ws : list (side * list Z)) : list label :=
  match ws with
  | [] => []
  | (x, bytes) :: r => LSend x bytes :: LFair 2 :: write_trace r
  end.

Fixpoint chunks (x : side) (ws : list (side * list Z)) : list (list Z) :=
  match ws with
  | [] => []
  | (y, bytes) :: r => if side_eqb y x then bytes :: chunks x r else chunks x r
  end.

Lemma quiescent_all_delivered c s a b : SysInv c s -> Quiescent c s a b ->
  forall x, delivered s (other x) = sub_of s x.
Proof.
  intros HI HQ x. pose proof HI as (P & W & E & N).
  destruct (quiescent_at c s a b (other x) HQ) as (ty & tx & Ey & Ex & Qy & Qx & _).
  rewrite other_other in Ex.
  destruct (live_parts c s (other x) ty HI Ey) as (_ & HR & _).
  destruct (live_parts c s x tx HI Ex) as (HS & _ & Hb & Epv).
  rewrite other_other in HR. rewrite Epv in HR.
  pose proof (W x) as Wx. rewrite Epv in Wx. destruct Wx as (Hu & _).
  destruct HS as (A1 & A2 & A3 & A4 & A5 & A6 & _).
  pose proof (quiet_nxt Qx) as X3. pose proof (quiet_rcv Qy) as Y4.
  destruct HR as (R1 & R2 & R3). rewrite (quiet_st Qy) in R3. cbn [state_eqb] in R3.
  destruct R3 as (R3 & R4 & R5 & R6 & R7).
  unfold rcv_n, pv_base in *. rewrite (quiet_st Qy) in *. cbn [fin_consumed b2z my_pv pv_iss pv_sub pv_lim] in *.
  rewrite (quiet_in_text Qy), app_nil_r in R6. rewrite R6.
  assert (Hq : finq tx = false) by (unfold finq; rewrite (quiet_st Qx); reflexivity).
  assert (Hds : data_sent (sub_of s x) tx = zlen (sub_of s x)).
  { unfold data_sent. rewrite (quiet_out_text Qx). cbn. lia. }
  assert (En : wsub (rcv_nxt ty) (wadd (iss_of c x) 1) - 0 = zlen (sub_of s x)).
  { rewrite Y4. destruct x; cbn [sel other] in *; rewrite <- X3, A6, Hq, Hds; cbn [b2z];
      rewrite wsub_spec, wadd_spec; pose proof (zlen_nonneg (sub_of s SA)); pose proof (zlen_nonneg (sub_of s SB));
      unfold u32, M32, SEQ_BOUND in *; cbn [cmp_offset] in *; lia. }
  rewrite En. unfold zlen. rewrite Nat2Z.id. apply firstn_all.
Qed.

(* the full liveness statement (not claimed): from every reachable state, every continuation
   without Drop in which each in-flight segment is eventually delivered and both sides keep
   ticking, emitting and reading reaches within a bounded number of retransmission timeouts a
   state where everything submitted is delivered and acknowledged and both sides are silent *)
Definition no_drop (l : label) : bool := match l with LDrop _ _ | LInject _ _ => false | _ => true end.
Definition all_done (s : sys) : Prop :=
  delivered s SB = subA s /\ delivered s SA = subB s /\ netA s = [] /\ netB s = [] /\
  forall x t, end_of s x = ELive t ->
    retx t = [] /\ out_text t = [] /\ exists t', tcb_segments t = Ok (t', []).
Definition C01_liveness_full_stmt : Prop :=
  forall (c : config) (b : bool) (ls : list label),
    cfg_ok c -> forallb no_inject ls = true -> sub_bound (run c (init_sys b) ls) ->
    let s := run c (init_sys b) ls in
    (exists tA tB, endA s = ELive tA /\ endB s = ELive tB /\ st tA = Established /\ st tB = Established) ->
    exists k, forall k', (k <= k')%nat -> all_done (run c s [LFair k']).

From Elvis Require Import Proofs.TcbSafetyEx.

Definition hs_trace : list label := [LOpen SA; LFair 2].
Definition hs_state : sys := run ex_cfg (init_sys true) hs_trace.
(* handshake, then writes in both directions (including one of exactly one MSS = 50 bytes) *)
Definition ex_writes : list (side * list Z) :=
  [(SA, bytes_from 1 50); (SB, bytes_from 9 37); (SA, bytes_from 100 1); (SB, bytes_from 77 1450)].

Lemma run_app c s l1 l2 : run c s (l1 ++ l2) = run c (run c s l1) l2.
Proof. unfold run. apply fold_left_app. Qed.

From Elvis Require Import Proofs.TcbSafetyThms.

Lemma quiescent_delivered_explicit : forall (c : config) (bl : bool) (ls : list label) (a b : Z),
  u32 (issA c) -> u32 (issB c) -> 100 <= mtuA c <= 65535 -> 100 <= mtuB c <= 65535 ->
  closed_trace ls ->
  let s := run c (init_sys bl) ls in
  zlen (subA s) < 2 ^ 31 - 2 ^ 17 -> zlen (subB s) < 2 ^ 31 - 2 ^ 17 ->
  Quiescent c s a b ->
  delivered s SB = subA s /\ delivered s SA = subB s.
Proof.
  intros c bl ls a b H1 H2 H3 H4 Hcl s Ha Hb HQ. rewrite bound_eq in Ha, Hb.
  assert (Hc : cfg_ok c) by (unfold cfg_ok; auto).
  pose proof (reachable_inv c bl ls Hc (closed_trace_forallb _ Hcl) (conj Ha Hb)) as HI.
  split; [apply (quiescent_all_delivered c s a b HI HQ SA)|apply (quiescent_all_delivered c s a b HI HQ SB)].
Qed.
