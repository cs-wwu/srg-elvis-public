(* C03 (d) / C01 liveness: evaluation of the closing handshake, TCB level. *)
From Elvis Require Import Model.Base Model.U32 Model.Tcb Model.TcpNet Proofs.U32Facts Proofs.TcbSafetySnd
  Proofs.TcbSafetyRcv Proofs.TcbLive Proofs.TcbLiveHs.
Local Open Scope Z_scope.

(* FIN + ACK, nothing else *)
Definition fin_ack (h : header) : Prop :=
  c_ack (h_ctl h) = true /\ c_fin (h_ctl h) = true /\ c_rst (h_ctl h) = false /\ c_syn (h_ctl h) = false.

Lemma seq_ok_fin_at_nxt t sq : u32 (rcv_nxt t) -> rcv_wnd t = 65535 -> sq = rcv_nxt t ->
  is_seq_ok t 0 sq false true = true.
Proof.
  intros Hu Hw ->. now apply is_seq_ok_at_nxt.
Qed.

Lemma seq_ok_fin_before t sq : u32 sq -> rcv_nxt t = wadd sq 1 -> rcv_wnd t = 65535 ->
  is_seq_ok t 0 sq false true = true.
Proof.
  intros Hu Hr Hw. apply is_seq_ok_before; try assumption. cbn. lia.
Qed.

Lemma ps_fin_first t h : c_fin (h_ctl h) = true -> state_eqb (st t) SynSent = false ->
  u32 (h_seq h) -> h_seq h = rcv_nxt t ->
  let t0 := set_rcv_nxt t (wadd (rcv_nxt t) 1) in
  let t1 := set_oneshot t0 (oneshot t ++ [ack_hdr t0]) in
  ps_fin t h 0 =
  match st t with
  | SynReceived | Established => set_st t1 CloseWait
  | FinWait1 => if is_fin_acked t1 then set_time_wait (set_st t1 TimeWait) (Some MSL2) else set_st t1 Closing
  | FinWait2 => set_rto (set_time_wait (set_st t1 TimeWait) (Some MSL2)) RTO
  | TimeWait => set_time_wait t1 (Some MSL2)
  | _ => t1
  end.
Proof.
  intros Hf Hss Hu Hseq t0 t1. unfold ps_fin. rewrite Hf, Hss. cbn [negb].
  rewrite (wadd_0_u32 _ Hu), Hseq, Z.eqb_refl. cbn [orb].
  rewrite enqueue_plain by apply ack_hdr_plain. reflexivity.
Qed.

Lemma ps_fin_again t h : c_fin (h_ctl h) = true -> state_eqb (st t) SynSent = false ->
  u32 (h_seq h) -> rcv_nxt t = wadd (h_seq h) 1 ->
  let t1 := set_oneshot t (oneshot t ++ [ack_hdr t]) in
  ps_fin t h 0 =
  match st t with
  | SynReceived | Established => set_st t1 CloseWait
  | FinWait1 => if is_fin_acked t1 then set_time_wait (set_st t1 TimeWait) (Some MSL2) else set_st t1 Closing
  | FinWait2 => set_rto (set_time_wait (set_st t1 TimeWait) (Some MSL2)) RTO
  | TimeWait => set_time_wait t1 (Some MSL2)
  | _ => t1
  end.
Proof.
  intros Hf Hss Hu Hr t1. unfold ps_fin. rewrite Hf, Hss. cbn [negb].
  rewrite (wadd_0_u32 _ Hu), Hr, Z.eqb_refl, orb_true_r.
  rewrite enqueue_plain by apply ack_hdr_plain.
  assert (E : set_oneshot (set_rcv_nxt t (wadd (h_seq h) 1))
                (oneshot (set_rcv_nxt t (wadd (h_seq h) 1)) ++ [ack_hdr (set_rcv_nxt t (wadd (h_seq h) 1))]) = t1).
  { subst t1. tcb_eq.
    all: try (symmetry; exact Hr).
    all: unfold ack_hdr; tcb_simpl; rewrite <- ?Hr; reflexivity. }
  rewrite E. reflexivity.
Qed.

(* the first FIN, in a state with plain ACK processing *)
Lemma fin_arrives t h :
  plain_ack_state (st t) = true -> in_segs t = [] -> rcv_wnd t = 65535 -> u32 (rcv_nxt t) ->
  fin_ack h -> h_seq h = rcv_nxt t -> mod_leq (h_ack h) (snd_una t) = true ->
  segment_arrives t (mkSeg h []) = Ok (ps_fin (set_in_segs t []) h 0, AOk).
Proof.
  intros Hs Hi Hw Hu (Ha & Hf & Hr & Hsy) Hseq Hl.
  eapply arrives_single; try assumption; try reflexivity.
  - destruct (st t); try discriminate Hs; reflexivity.
  - tcb_simpl. rewrite Hseq. apply mod_gt_refl_false.
  - apply (process_fin_only (set_in_segs t []) h); try assumption; try reflexivity.
    rewrite Hf. apply seq_ok_fin_at_nxt; assumption.
  - reflexivity.
  - unfold ps_fin. rewrite Hf. cbn [negb]. tcb_simpl.
    replace (state_eqb (st t) SynSent) with false by (destruct (st t); try discriminate Hs; reflexivity).
    rewrite <- Hseq in Hu. rewrite (wadd_0_u32 _ Hu), Hseq, Z.eqb_refl. cbn [orb].
    rewrite enqueue_plain by apply ack_hdr_plain. tcb_simpl.
    destruct (st t); try discriminate Hs; reflexivity.
Qed.

(* a retransmitted FIN, in a state with plain ACK processing *)
Lemma fin_again_arrives t h :
  plain_ack_state (st t) = true -> in_segs t = [] -> rcv_wnd t = 65535 ->
  fin_ack h -> u32 (h_seq h) -> rcv_nxt t = wadd (h_seq h) 1 -> mod_leq (h_ack h) (snd_una t) = true ->
  segment_arrives t (mkSeg h []) = Ok (ps_fin (set_in_segs t []) h 0, AOk).
Proof.
  intros Hs Hi Hw (Ha & Hf & Hr & Hsy) Hu Hrn Hl.
  eapply arrives_single; try assumption; try reflexivity.
  - destruct (st t); try discriminate Hs; reflexivity.
  - tcb_simpl. rewrite Hrn. unfold mod_gt. apply mod_lt_succ_l.
  - apply (process_fin_only (set_in_segs t []) h); try assumption; try reflexivity.
    rewrite Hf. apply seq_ok_fin_before; assumption.
  - reflexivity.
  - unfold ps_fin. rewrite Hf. cbn [negb]. tcb_simpl.
    replace (state_eqb (st t) SynSent) with false by (destruct (st t); try discriminate Hs; reflexivity).
    rewrite (wadd_0_u32 _ Hu), Hrn, Z.eqb_refl, orb_true_r.
    rewrite enqueue_plain by apply ack_hdr_plain. tcb_simpl.
    destruct (st t); try discriminate Hs; reflexivity.
Qed.

(* the ACK of our FIN: the FIN leaves the retransmission queue; FIN-WAIT-1 -> FIN-WAIT-2,
   LAST-ACK -> the TCB is deleted *)
Lemma ack_of_fin_core t h tx :
  u32 (snd_una t) -> snd_nxt t = wadd (snd_una t) 1 ->
  h_ack h = snd_nxt t -> retx t = [tx] -> h_seq (s_hdr (t_seg tx)) = snd_una t -> seg_len (t_seg tx) = 1 ->
  exists t2, ack_est t h = (t2, PSuccess) /\
    (exists w wl1 wl2, t2 = set_snd_window (set_retx (set_snd_una t (snd_nxt t)) []) w wl1 wl2 /\
                       (w = snd_wnd t \/ w = h_wnd h)).
Proof.
  intros Huu Hnx Hack Hretx Htxs Htxl.
  destruct (ack_est_advance t h) as (w & wl1 & wl2 & Hwv & E).
  - rewrite Hack, Hnx. now apply mod_leq_succ.
  - rewrite Hack. apply mod_gt_refl_false.
  - eexists. split; [exact E|]. exists w, wl1, wl2. split; [|exact Hwv]. f_equal.
    unfold remove_acked. tcb_simpl. rewrite Hretx. cbn [filter].
    rewrite Hack, Hnx, Htxs, Htxl, mod_lt_irrefl. reflexivity.
Qed.

Lemma is_seq_ok_ack_at_nxt t sq : u32 (rcv_nxt t) -> rcv_wnd t = 65535 -> sq = rcv_nxt t ->
  is_seq_ok t 0 sq false false = true.
Proof.
  intros Hu Hw ->. now apply is_seq_ok_at_nxt.
Qed.

Lemma ack_of_fin_finwait1 t h tx :
  st t = FinWait1 -> fin_pending t = false -> in_segs t = [] -> rcv_wnd t = 65535 -> u32 (rcv_nxt t) ->
  ack_only h -> h_seq h = rcv_nxt t -> u32 (snd_una t) -> snd_nxt t = wadd (snd_una t) 1 ->
  h_ack h = snd_nxt t -> retx t = [tx] -> h_seq (s_hdr (t_seg tx)) = snd_una t -> seg_len (t_seg tx) = 1 ->
  exists w wl1 wl2,
    segment_arrives t (mkSeg h []) =
    Ok (set_st (set_snd_window (set_retx (set_snd_una (set_in_segs t []) (snd_nxt t)) []) w wl1 wl2) FinWait2, AOk) /\
    (w = snd_wnd t \/ w = h_wnd h).
Proof.
  intros Est Hfp Hi Hw Hu Hh Hseq Huu Hnx Hack Hretx Htxs Htxl.
  destruct (ack_of_fin_core (set_in_segs t []) h tx Huu Hnx Hack Hretx Htxs Htxl)
    as (t2 & E2 & w & wl1 & wl2 & Et2 & Hwv).
  exists w, wl1, wl2. split; [|exact Hwv].
  destruct Hh as (Ha & Hr & Hsy & Hf).
  eapply arrives_single; try assumption; try reflexivity.
  - now rewrite Est.
  - tcb_simpl. rewrite Hseq. apply mod_gt_refl_false.
  - rewrite process_nosyn; try assumption; [|tcb_simpl; now rewrite Est|rewrite Hf; now apply is_seq_ok_ack_at_nxt].
    unfold ps_ack. rewrite Ha. cbn [negb]. tcb_simpl. rewrite Est, E2.
    assert (Hacked : is_fin_acked t2 = true).
    { rewrite Et2. unfold is_fin_acked. tcb_simpl. now rewrite Hfp, Z.eqb_refl. }
    rewrite Hacked. cbn [set_st st state_eqb]. rewrite ps_text_nil, ps_fin_nofin by exact Hf. rewrite Et2. reflexivity.
  - reflexivity.
Qed.

(* the arrival loop when the segment deletes the TCB *)
Lemma arrives_delete t seg t1 r :
  in_segs t = [] -> state_eqb (st t) SynSent = false ->
  mod_gt (h_seq (s_hdr seg)) (rcv_nxt t) = false ->
  process_segment (set_in_segs t []) seg = Ok (t1, r) -> should_delete r = true ->
  segment_arrives t seg = Ok (t1, AClose).
Proof.
  intros Hs Hss Hgt Hp Hd. unfold segment_arrives. rewrite Hs.
  change (heap_push [] seg) with [seg]. cbn [length].
  rewrite (arrives_loop_step _ (set_in_segs t [seg]) seg [] t1 r), Hd; [reflexivity|reflexivity| |exact Hp].
  tcb_simpl. now rewrite Hss, Hgt.
Qed.

Lemma ack_of_fin_lastack t h tx :
  st t = LastAck -> fin_pending t = false -> in_segs t = [] -> rcv_wnd t = 65535 -> u32 (rcv_nxt t) ->
  ack_only h -> h_seq h = rcv_nxt t -> u32 (snd_una t) -> snd_nxt t = wadd (snd_una t) 1 ->
  h_ack h = snd_nxt t -> retx t = [tx] -> h_seq (s_hdr (t_seg tx)) = snd_una t -> seg_len (t_seg tx) = 1 ->
  exists t2, segment_arrives t (mkSeg h []) = Ok (t2, AClose) /\ in_text t2 = in_text t.
Proof.
  intros Est Hfp Hi Hw Hu Hh Hseq Huu Hnx Hack Hretx Htxs Htxl.
  destruct (ack_of_fin_core (set_in_segs t []) h tx Huu Hnx Hack Hretx Htxs Htxl)
    as (t2 & E2 & w & wl1 & wl2 & Et2 & Hwv).
  exists t2. split; [|rewrite Et2; reflexivity].
  destruct Hh as (Ha & Hr & Hsy & Hf).
  eapply (arrives_delete t _ t2 PFinalizeClose); try assumption; try reflexivity.
  - now rewrite Est.
  - tcb_simpl. rewrite Hseq. apply mod_gt_refl_false.
  - rewrite process_nosyn; try assumption; [|tcb_simpl; now rewrite Est|rewrite Hf; now apply is_seq_ok_ack_at_nxt].
    unfold ps_ack. rewrite Ha. cbn [negb]. tcb_simpl. rewrite Est, E2.
    assert (Hacked : is_fin_acked t2 = true).
    { rewrite Et2. unfold is_fin_acked. tcb_simpl. now rewrite Hfp, Z.eqb_refl. }
    rewrite Hacked. reflexivity.
Qed.

(* in TIME-WAIT: a retransmitted FIN is acknowledged twice and restarts the wait; other ACKs are ignored *)
Lemma fin_in_timewait t h :
  st t = TimeWait -> in_segs t = [] -> rcv_wnd t = 65535 ->
  fin_ack h -> u32 (h_seq h) -> rcv_nxt t = wadd (h_seq h) 1 ->
  let a := hb_wnd (hb_ack (hb t (snd_nxt t)) (wadd (h_seq h) 1)) (rcv_wnd t) in
  segment_arrives t (mkSeg h []) =
  Ok (set_time_wait (set_oneshot (set_in_segs t []) (oneshot t ++ [a; a])) (Some MSL2), AOk).
Proof.
  intros Est Hi Hw (Ha & Hf & Hr & Hsy) Hu Hrn a.
  eapply arrives_single; try assumption; try reflexivity.
  - now rewrite Est.
  - tcb_simpl. rewrite Hrn. unfold mod_gt. apply mod_lt_succ_l.
  - rewrite process_nosyn; try assumption; [|tcb_simpl; now rewrite Est|rewrite Hf; now apply seq_ok_fin_before].
    change (zlen (@nil Z)) with 0. unfold ps_ack. rewrite Ha. cbn [negb]. tcb_simpl. rewrite Est, Hf.
    rewrite enqueue_plain by (split; reflexivity).
    tcb_simpl. rewrite Est. cbn [state_eqb]. rewrite ps_text_nil.
    unfold ps_fin. rewrite Hf. cbn [negb]. tcb_simpl. rewrite Est. cbn [state_eqb].
    rewrite (wadd_0_u32 _ Hu), Hrn, Z.eqb_refl, orb_true_r.
    rewrite enqueue_plain by apply ack_hdr_plain. tcb_simpl. rewrite Est.
    f_equal. f_equal. tcb_eq.
    + symmetry. exact Hrn.
    + rewrite <- app_assoc. cbn [app]. reflexivity.
  - reflexivity.
Qed.

Lemma process_ack_timewait t h :
  st t = TimeWait -> rcv_wnd t = 65535 -> u32 (rcv_nxt t) -> ack_only h -> h_seq h = rcv_nxt t ->
  process_segment t (mkSeg h []) = Ok (t, PSuccess).
Proof.
  intros Est Hw Hu (Ha & Hr & Hsy & Hf) Hseq.
  rewrite process_nosyn; try assumption; [|now rewrite Est|rewrite Hf; now apply is_seq_ok_ack_at_nxt].
  unfold ps_ack. rewrite Ha, Est, Hf. cbn [negb]. rewrite Est. cbn [state_eqb].
  rewrite ps_text_nil, ps_fin_nofin by exact Hf. reflexivity.
Qed.

Lemma ack_in_timewait t h :
  st t = TimeWait -> in_segs t = [] -> rcv_wnd t = 65535 -> u32 (rcv_nxt t) ->
  ack_only h -> h_seq h = rcv_nxt t ->
  segment_arrives t (mkSeg h []) = Ok (set_in_segs t [], AOk).
Proof.
  intros Est Hi Hw Hu Hh Hseq.
  eapply arrives_single; try assumption; try reflexivity.
  - now rewrite Est.
  - tcb_simpl. rewrite Hseq. apply mod_gt_refl_false.
  - apply (process_ack_timewait (set_in_segs t [])); assumption.
  - reflexivity.
Qed.
