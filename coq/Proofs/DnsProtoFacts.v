(* Name resolution (property C20): tables, client map and codec facts of Model/DnsProto.v; the transition
   system seen client by client, its invariant and the property theorems; trace validation; progress. *)
From Elvis Require Import Model.Base Model.AppBytes Model.Dns Proofs.ListFacts Proofs.AppBytesFacts
  Proofs.DnsFacts Model.DnsProto.
Local Open Scope Z_scope.

Lemma in_snoc {A} (x : A) l e : In x l -> In x (l ++ [e]).
Proof. intros H. apply in_or_app. left. exact H. Qed.
Lemma in_snoc_last {A} l (e : A) : In e (l ++ [e]).
Proof. apply in_elt. Qed.
Lemma in_snoc_inv {A} (x : A) l e : In x (l ++ [e]) -> In x l \/ x = e.
Proof. intros H. apply in_app_or in H as [H|[H|[]]]; [left; exact H|right; symmetry; exact H]. Qed.

Lemma existsb_false {A} (f : A -> bool) l : (forall x, In x l -> f x = false) -> existsb f l = false.
Proof.
  intros H. destruct (existsb f l) eqn:E; [|reflexivity].
  apply existsb_exists in E as [x [I F]]. rewrite (H x I) in F. discriminate.
Qed.

Definition zcount {A} (p : A -> bool) (l : list A) : Z := Z.of_nat (length (filter p l)).
Lemma zcount_cons {A} (p : A -> bool) x l : zcount p (x :: l) = (if p x then 1 else 0) + zcount p l.
Proof. unfold zcount. cbn [filter]. destruct (p x); cbn [length]; lia. Qed.
Lemma zcount_snoc {A} (p : A -> bool) l x : zcount p (l ++ [x]) = zcount p l + (if p x then 1 else 0).
Proof. unfold zcount. rewrite filter_app, app_length. cbn [filter]. destruct (p x); cbn [length]; lia. Qed.
Lemma zcount_nonneg {A} (p : A -> bool) l : 0 <= zcount p l.
Proof. unfold zcount. lia. Qed.
Lemma zcount_pos {A} (p : A -> bool) l : 0 < zcount p l <-> exists x, In x l /\ p x = true.
Proof.
  induction l as [|y l IH]; [cbn; split; [lia|intros (x & [] & _)]|]. rewrite zcount_cons. split.
  - destruct (p y) eqn:E; [exists y; split; [left; reflexivity|exact E]|].
    intros H. apply IH in H as (x & I & Px). exists x. split; [right; exact I|exact Px].
  - intros (x & [->|I] & Px); [rewrite Px; pose proof (zcount_nonneg p l); lia|].
    assert (0 < zcount p l) by (apply IH; exists x; auto). destruct (p y); lia.
Qed.

Lemma list_eqb_eq a b : list_eqb a b = true <-> a = b.
Proof. apply (list_eqb_spec_gen list_eqb Z.eqb Z.eqb_eq); reflexivity. Qed.
Lemma list_eqb_refl a : list_eqb a a = true.
Proof. apply list_eqb_eq. reflexivity. Qed.
Lemma list_eqb_neq a b : list_eqb a b = false <-> a <> b.
Proof. rewrite <- not_true_iff_false, list_eqb_eq. reflexivity. Qed.

Lemma tbl_get_insert t n a m :
  tbl_get (tbl_insert t n a) m = if list_eqb n m then Some a else tbl_get t m.
Proof. reflexivity. Qed.
Lemma tbl_get_insert_same t n a : tbl_get (tbl_insert t n a) n = Some a.
Proof. rewrite tbl_get_insert, list_eqb_refl. reflexivity. Qed.
Lemma tbl_get_insert_absent t n a m :
  tbl_get (tbl_insert_absent t n a) m =
  match tbl_get t m with Some v => Some v | None => if list_eqb n m then Some a else None end.
Proof.
  unfold tbl_insert_absent. destruct (tbl_get t n) eqn:E.
  - destruct (tbl_get t m) eqn:F; [reflexivity|].
    destruct (list_eqb n m) eqn:G; [|reflexivity]. apply list_eqb_eq in G. congruence.
  - cbn [tbl_get]. destruct (list_eqb n m) eqn:G.
    + apply list_eqb_eq in G. subst. rewrite E. reflexivity.
    + destruct (tbl_get t m); reflexivity.
Qed.
Lemma tbl_insert_names t n a m : tbl_get (tbl_insert t n a) m <> None <-> tbl_get t m <> None \/ m = n.
Proof.
  rewrite tbl_get_insert. destruct (list_eqb n m) eqn:E.
  - apply list_eqb_eq in E. split; [right; congruence|discriminate].
  - apply list_eqb_neq in E. split; [left; assumption|intros [H|H]; [exact H|congruence]].
Qed.

Lemma getc_setc_list l c v c' :
  getc_list (setc_list l c v) c' = if c =? c' then v else getc_list l c'.
Proof.
  induction l as [|[k w] l IH]; cbn [setc_list getc_list].
  - destruct (c =? c'); reflexivity.
  - destruct (k =? c) eqn:E; cbn [getc_list].
    + assert (k = c) by lia. subst. destruct (c =? c'); reflexivity.
    + rewrite IH. destruct (k =? c') eqn:F; [|reflexivity].
      assert (E' : (c =? c') = false) by lia. rewrite E'. reflexivity.
Qed.
Lemma getc_setc st c v c' : getc (setc st c v) c' = if c =? c' then v else getc st c'.
Proof. apply getc_setc_list. Qed.
Lemma getc_setc_same st c v : getc (setc st c v) c = v.
Proof. rewrite getc_setc, Z.eqb_refl. reflexivity. Qed.

Lemma getc_list_Forall (P : cstate -> Prop) l c :
  P init_client -> Forall (fun x => P (snd x)) l -> P (getc_list l c).
Proof.
  intros P0 F. induction F as [|[k w] l Pw F IH]; cbn [getc_list]; [exact P0|].
  destruct (k =? c); [exact Pw|exact IH].
Qed.
Lemma setc_list_Forall (P : cstate -> Prop) l c v :
  P v -> Forall (fun x => P (snd x)) l -> Forall (fun x => P (snd x)) (setc_list l c v).
Proof.
  intros Pv F. induction F as [|[k w] l Pw F IH]; cbn [setc_list]; [repeat constructor; exact Pv|].
  destruct (k =? c); constructor; assumption.
Qed.

Lemma name_ok_iff n : name_ok n = true <-> bytes n = true /\ free_of SP n = true /\ utf8_valid n = true.
Proof. unfold name_ok. rewrite !andb_true_iff. tauto. Qed.
Lemma addr_ok_iff a : addr_ok a = true <-> length a = 4%nat /\ bytes a = true.
Proof. unfold addr_ok. rewrite andb_true_iff. split; intros [H1 H2]; split; try assumption; lia. Qed.

(* the fields of a message built by one of the create_ functions *)
Ltac fields_of_message :=
  cbn [m_header m_question m_answer d_id d_properties d_qdcount d_ancount d_nscount d_arcount
       q_qname q_qtype q_qclass r_name r_rec_type r_class r_ttl r_rdlength r_rdata] in *.

Lemma request_wf id n : name_ok n = true -> 0 <= id < 65536 -> dns_wf (create_request id n) = true.
Proof.
  intros N I. apply name_ok_iff in N as (B & F & _).
  unfold dns_wf, dns_header_wf, dns_question_wf, dns_rr_wf, create_request. fields_of_message.
  rewrite B, F. assert (R : rng 65536 id = true) by (apply rng_iff; lia). rewrite R. reflexivity.
Qed.

Lemma response_wf q a : dns_wf q = true -> addr_ok a = true -> dns_wf (create_response q a) = true.
Proof.
  intros W A. apply addr_ok_iff in A as (L & B).
  destruct q as [[id pr qd an ns ar] [qn qt qc] [nm rt cl ttl rl rdt]].
  unfold dns_wf, dns_header_wf, dns_question_wf, dns_rr_wf, create_response in *. fields_of_message.
  repeat match goal with H : (_ && _) = true |- _ => apply andb_prop in H as [? ?] end.
  rewrite L. cbn [Z.of_nat Pos.of_succ_nat Pos.succ Z.eqb Pos.eqb].
  repeat match goal with H : _ = true |- _ => rewrite H; clear H end. reflexivity.
Qed.

Lemma wf_bytes m : dns_wf m = true -> bytes (dns_to_message m) = true.
Proof.
  destruct m as [[id pr qd an ns ar] [qn qt qc] [nm rt cl ttl rl rdt]].
  unfold dns_wf, dns_header_wf, dns_question_wf, dns_rr_wf, dns_to_message,
    dns_header_build, dns_question_build, dns_rr_build. fields_of_message.
  intros W. repeat match goal with H : (_ && _) = true |- _ => apply andb_prop in H as [? ?] end.
  rewrite !bytes_app, !bytes_be16, bytes_be32. cbn [bytes forallb].
  repeat (apply andb_true_intro; split); try assumption; reflexivity.
Qed.

Lemma request_length id n : length (request_bytes id n) = (2 * length n + 32)%nat.
Proof.
  unfold request_bytes, dns_to_message, dns_header_build, dns_question_build, dns_rr_build, create_request.
  fields_of_message. rewrite !app_length. cbn [length be16 be32]. lia.
Qed.

Lemma dns_decode_whole m : dns_wf m = true -> dns_from_bytes (dns_to_message m) = Ok (m, []).
Proof. intros W. rewrite <- (app_nil_r (dns_to_message m)) at 1. apply (dns_decode_encode m [] W). Qed.

Lemma truncated_fails m k : dns_wf m = true -> (k < length (dns_to_message m))%nat ->
  exists e, dns_from_bytes (firstn k (dns_to_message m)) = Err e.
Proof.
  intros W K. pose proof (wf_bytes m W) as B.
  assert (Bf : bytes (firstn k (dns_to_message m)) = true).
  { rewrite <- (firstn_skipn k (dns_to_message m)), bytes_app in B. apply andb_prop in B. tauto. }
  destruct (dns_value_or_error _ Bf) as [[[m' rest'] H]|H]; [exfalso|exact H].
  destruct (dns_encode_decode _ _ _ Bf H) as (E & W' & _).
  pose proof (dns_decode_encode m' (rest' ++ skipn k (dns_to_message m)) W') as D.
  rewrite app_assoc, <- E, firstn_skipn in D.
  rewrite (dns_decode_whole m W) in D. inversion D as [[Em Er]]. symmetry in Er. apply app_eq_nil in Er as [_ Er].
  rewrite <- Em in Er.
  assert (L : length (skipn k (dns_to_message m)) = 0%nat) by (rewrite Er; reflexivity).
  rewrite skipn_length in L. lia.
Qed.

Lemma sock_recv_fits cfg id n : fits cfg n = true ->
  sock_recv (cfg_recv_cap cfg) (request_bytes id n) = request_bytes id n.
Proof.
  unfold fits, sock_recv. destruct (cfg_recv_cap cfg) as [cap|]; [|reflexivity].
  intros F. apply firstn_all2. rewrite request_length. lia.
Qed.

Lemma decode_request id n : name_ok n = true -> 0 <= id < 65536 ->
  dns_from_bytes (request_bytes id n) = Ok (create_request id n, []).
Proof.
  intros N I. apply dns_decode_whole, request_wf; assumption.
Qed.

(* the server's answer to a query: when the query does not fit its read, the truncated buffer fails to
   parse and the unwrap of l.61 fires *)
Lemma server_respond_eq cfg id n : name_ok n = true -> 0 <= id < 65536 ->
  server_respond cfg (request_bytes id n) =
  if fits cfg n then
    match tbl_get (server_table cfg) n with
    | Some a => Ok (response_bytes id n a)
    | None => Panic 141
    end
  else Panic 61.
Proof.
  intros N I. unfold server_respond. destruct (fits cfg n) eqn:F.
  - rewrite sock_recv_fits, decode_request by assumption.
    unfold dns_query_name. cbn [create_request m_question q_qname].
    apply name_ok_iff in N as (_ & _ & U). rewrite U. reflexivity.
  - unfold fits, sock_recv in *. destruct (cfg_recv_cap cfg) as [cap|]; [|discriminate].
    destruct (truncated_fails (create_request id n) (Z.to_nat cap) (request_wf id n N I)) as [e E].
    { fold (request_bytes id n). rewrite request_length. lia. }
    fold (request_bytes id n) in E. rewrite E. reflexivity.
Qed.

Lemma server_respond_inv cfg id n resp : name_ok n = true -> 0 <= id < 65536 ->
  server_respond cfg (request_bytes id n) = Ok resp ->
  fits cfg n = true /\ exists a, tbl_get (server_table cfg) n = Some a /\ resp = response_bytes id n a.
Proof.
  intros N I H. rewrite server_respond_eq in H by assumption. destruct (fits cfg n); [|discriminate].
  split; [reflexivity|]. destruct (tbl_get (server_table cfg) n) as [a|]; [|discriminate].
  exists a. split; [reflexivity|]. inversion H. reflexivity.
Qed.

Lemma client_accept_response cache id n a : name_ok n = true -> 0 <= id < 65536 -> addr_ok a = true ->
  client_accept cache n (response_bytes id n a) = Ok (tbl_insert cache n a, a).
Proof.
  intros N I A. unfold client_accept, response_bytes.
  rewrite (dns_decode_whole _ (response_wf _ a (request_wf id n N I) A)).
  cbn [create_response create_request m_answer m_header m_question r_name r_rdata].
  pose proof N as N'. apply name_ok_iff in N' as (_ & _ & U). rewrite U.
  apply addr_ok_iff in A as (L & _).
  destruct a as [|a0 [|a1 [|a2 [|a3 [|a4 a]]]]]; try discriminate L.
  rewrite tbl_get_insert_same. reflexivity.
Qed.

Lemma response_echo id n a : name_ok n = true -> 0 <= id < 65536 -> addr_ok a = true ->
  exists m, dns_from_bytes (response_bytes id n a) = Ok (m, []) /\
            d_id (m_header m) = id /\ d_properties (m_header m) = 32768 /\
            q_qname (m_question m) = n /\ r_name (m_answer m) = n /\ r_rdata (m_answer m) = a.
Proof.
  intros N I A. exists (create_response (create_request id n) a).
  split; [apply dns_decode_whole, response_wf; [apply request_wf|]; assumption|]. repeat split; reflexivity.
Qed.

Lemma query_of_bytes_spec bs id n : query_of_bytes bs = Some (id, n) -> bs = request_bytes id n.
Proof.
  unfold query_of_bytes. destruct (dns_from_bytes bs) as [[m [|x r]]| | |]; try discriminate.
  destruct (list_eqb _ bs) eqn:E; [|discriminate]. intros H. inversion H; subst.
  apply list_eqb_eq in E. symmetry. exact E.
Qed.
Lemma query_of_bytes_request id n : name_ok n = true -> 0 <= id < 65536 ->
  query_of_bytes (request_bytes id n) = Some (id, n).
Proof.
  intros N I. unfold query_of_bytes. rewrite decode_request by assumption.
  cbn [create_request m_header m_question d_id q_qname]. rewrite list_eqb_refl. reflexivity.
Qed.

Definition table_ok (t : table) : Prop := forall n a, tbl_get t n = Some a -> addr_ok a = true.

Lemma reg_table_ok cfg : records_ok cfg = true -> table_ok (reg_table cfg).
Proof.
  unfold records_ok, reg_table. intros R.
  assert (G : forall l t, forallb (fun r => addr_ok (snd r)) l = true -> table_ok t ->
            table_ok (fold_left (fun t r => tbl_insert t (fst r) (snd r)) l t)).
  { induction l as [|[k v] l IH]; intros t Hl Ht; cbn [fold_left]; [exact Ht|].
    cbn [forallb snd] in Hl. apply andb_prop in Hl as [Hv Hl]. apply IH; [exact Hl|].
    intros n a. rewrite tbl_get_insert. cbn [fst snd]. destruct (list_eqb k n).
    - intros E. inversion E; subst. exact Hv.
    - apply Ht. }
  apply G; [exact R|]. intros n a H. discriminate.
Qed.

Lemma server_table_ok cfg : records_ok cfg = true -> table_ok (server_table cfg).
Proof.
  intros R n a. pose proof (reg_table_ok cfg R) as T. unfold server_table.
  destruct (cfg_builtin_wins cfg).
  - rewrite !tbl_get_insert.
    destruct (list_eqb builtin2_name n); [intros E; inversion E; reflexivity|].
    destruct (list_eqb builtin1_name n); [intros E; inversion E; reflexivity|]. apply T.
  - rewrite !tbl_get_insert_absent. destruct (tbl_get (reg_table cfg) n) eqn:E.
    + intros H. inversion H; subst. apply (T _ _ E).
    + destruct (list_eqb builtin1_name n); [intros H; inversion H; reflexivity|].
      destruct (list_eqb builtin2_name n); [intros H; inversion H; reflexivity|]. discriminate.
Qed.

Lemma server_table_registered cfg n a : tbl_get (reg_table cfg) n = Some a ->
  cfg_builtin_wins cfg = false \/ (n <> builtin1_name /\ n <> builtin2_name) ->
  tbl_get (server_table cfg) n = Some a.
Proof.
  intros H D. unfold server_table. destruct (cfg_builtin_wins cfg).
  - destruct D as [D|[D1 D2]]; [discriminate|]. rewrite !tbl_get_insert.
    assert (E2 : list_eqb builtin2_name n = false) by (apply list_eqb_neq; congruence).
    assert (E1 : list_eqb builtin1_name n = false) by (apply list_eqb_neq; congruence).
    rewrite E2, E1. exact H.
  - rewrite !tbl_get_insert_absent, H. reflexivity.
Qed.

Definition ev_client (e : event) : option Z :=
  match e with EvL c _ _ | EvQ c _ _ _ | EvA c _ _ | EvR c _ _ _ => Some c | EvX _ => None end.

(* what a label of client c does to the state of c, with the guards of [step] as premises *)
Inductive cstep (cfg : config) (cs : cstate) : event -> cstate -> Prop :=
| CL_hit c h n a : tbl_get (c_cache cs) n = Some a ->
    cstep cfg cs (EvL c h n) (mkC (c_cache cs) (mkLookup h n (Hit a) :: c_looks cs) (c_owed cs) (c_socks cs))
| CL_miss c h n : tbl_get (c_cache cs) n = None ->
    cstep cfg cs (EvL c h n) (mkC (c_cache cs) (mkLookup h n Miss :: c_looks cs) (n :: c_owed cs) (c_socks cs))
| CQ c p id n owed' : remove_first n (c_owed cs) = Some owed' -> find_sock p (c_socks cs) = None ->
    49152 <= p <= 65535 -> 0 <= id < 65536 ->
    cstep cfg cs (EvQ c p id n) (mkC (c_cache cs) (c_looks cs) owed' (mkSock p n id Sent :: c_socks cs))
| CA c p bytes k : find_sock p (c_socks cs) = Some k -> k_status k = Sent ->
    server_respond cfg (request_bytes (k_id k) (k_name k)) = Ok bytes ->
    cstep cfg cs (EvA c p bytes)
          (mkC (c_cache cs) (c_looks cs) (c_owed cs) (set_sock p (Answered bytes) (c_socks cs)))
| CR_hit c h a l : find_look h (c_looks cs) = Some l -> l_kind l = Hit a ->
    cstep cfg cs (EvR c h (l_name l) a)
          (mkC (c_cache cs) (remove_look h (c_looks cs)) (c_owed cs) (c_socks cs))
| CR_reply c h a l p cache' : find_look h (c_looks cs) = Some l -> l_kind l = Miss ->
    take_reply (c_cache cs) (l_name l) a (c_socks cs) = Some (p, cache') ->
    cstep cfg cs (EvR c h (l_name l) a)
          (mkC cache' (remove_look h (c_looks cs)) (c_owed cs) (set_sock p Closed (c_socks cs))).

(* a step is taken by a live process; a label of client c is a step of c that leaves the other
   clients alone, a panic leaves all of them alone *)
Lemma step_inv cfg st e st' : step cfg st e = Some st' ->
  s_dead st = None /\
  match ev_client e with
  | Some c => exists cs', cstep cfg (getc st c) e cs' /\
                s_clients st' = setc_list (s_clients st) c cs' /\ s_dead st' = None
  | None => s_clients st' = s_clients st
  end.
Proof.
  unfold step. destruct (s_dead st) eqn:D; [discriminate|]. intros H. split; [reflexivity|].
  destruct e as [c h n|c p id n|c p bytes|c h n a|site]; cbn [ev_client].
  - destruct (tbl_get (c_cache (getc st c)) n) as [a|] eqn:Hc; inversion H; subst st'; eexists;
      (split; [|split; [reflexivity|exact D]]); [apply CL_hit|apply CL_miss]; exact Hc.
  - destruct (remove_first n (c_owed (getc st c))) as [owed'|] eqn:Ro; [|discriminate].
    destruct (find_sock p (c_socks (getc st c))) eqn:Fs; [discriminate|].
    destruct ((49152 <=? p) && (p <=? 65535) && (0 <=? id) && (id <? 65536)) eqn:Rg; [|discriminate].
    inversion H; subst st'. eexists. split; [|split; [reflexivity|exact D]]. apply CQ; (assumption || lia).
  - destruct (find_sock p (c_socks (getc st c))) as [k|] eqn:Fs; [|discriminate].
    destruct (k_status k) eqn:Ks; try discriminate.
    destruct (s_accepted st <? conn_limit cfg); [|discriminate].
    destruct (server_respond cfg (request_bytes (k_id k) (k_name k))) as [resp| | |] eqn:Sr; try discriminate.
    destruct (list_eqb resp bytes) eqn:Eb; [|discriminate]. apply list_eqb_eq in Eb. subst resp.
    inversion H; subst st'. eexists. split; [|split; reflexivity]. apply (CA _ _ _ _ _ k); assumption.
  - destruct (find_look h (c_looks (getc st c))) as [l|] eqn:Fl; [|discriminate].
    destruct (list_eqb (l_name l) n) eqn:En; [|discriminate]. apply list_eqb_eq in En. subst n.
    destruct (l_kind l) as [a'|] eqn:Kl.
    + destruct (list_eqb a' a) eqn:Ea; [|discriminate]. apply list_eqb_eq in Ea. subst a'.
      inversion H; subst st'. eexists. split; [|split; [reflexivity|exact D]]. apply CR_hit; assumption.
    + destruct (take_reply _ _ a _) as [[p cache']|] eqn:Tr; [|discriminate].
      inversion H; subst st'. eexists. split; [|split; [reflexivity|exact D]]. apply CR_reply; assumption.
  - destruct (_ || _); [|discriminate]. inversion H. reflexivity.
Qed.

Lemma step_client cfg st c e cs' : s_dead st = None -> ev_client e = Some c -> cstep cfg (getc st c) e cs' ->
  (forall p b, e <> EvA c p b) -> step cfg st e = Some (setc st c cs').
Proof.
  intros D Ec S NA. unfold step. rewrite D.
  destruct S as [c0 h n a Hc|c0 h n Hc|c0 p id n owed' Ro Fs Rp Ri|c0 p bytes k _ _ _|c0 h a l Fl Kl|c0 h a l p cache' Fl Kl Tr];
    inversion Ec; subst c0.
  - rewrite Hc. reflexivity.
  - rewrite Hc. reflexivity.
  - rewrite Ro, Fs. replace (_ && _) with true by lia. reflexivity.
  - destruct (NA p bytes eq_refl).
  - rewrite Fl, Kl, !list_eqb_refl. reflexivity.
  - rewrite Fl, Kl, list_eqb_refl, Tr. reflexivity.
Qed.
Lemma step_reply cfg st c p bytes cs' : s_dead st = None -> s_accepted st < conn_limit cfg ->
  cstep cfg (getc st c) (EvA c p bytes) cs' ->
  step cfg st (EvA c p bytes) = Some (mkS (s_clients (setc st c cs')) (s_accepted st + 1) None).
Proof.
  intros D Acc S. inversion S as [| | |c0 p0 b0 k Fs Ks Sr| |]; subst. unfold step.
  rewrite D, Fs, Ks, Sr, list_eqb_refl. replace (_ <? _) with true by lia. reflexivity.
Qed.

Lemma replay_app cfg tr1 : forall st tr2,
  replay cfg st (tr1 ++ tr2) =
  match replay cfg st tr1 with Some s => replay cfg s tr2 | None => None end.
Proof.
  induction tr1 as [|e tr1 IH]; intros st tr2; cbn [app replay]; [reflexivity|].
  destruct (step cfg st e); [apply IH|reflexivity].
Qed.

Lemma run_ind cfg (P : list event -> state -> Prop) : P [] init_state ->
  (forall tr st e st', run cfg tr st -> P tr st -> step cfg st e = Some st' -> P (tr ++ [e]) st') ->
  forall tr st, run cfg tr st -> P tr st.
Proof.
  intros P0 PS. unfold run. induction tr as [|e tr IH] using rev_ind; intros st R.
  - inversion R; subst. exact P0.
  - rewrite replay_app in R. destruct (replay cfg init_state tr) as [s|] eqn:Rs; [|discriminate].
    cbn [replay] in R. destruct (step cfg s e) as [s'|] eqn:S; inversion R; subst s'.
    apply (PS tr s e st Rs (IH s eq_refl) S).
Qed.

Definition owed_count (n : name) (l : list name) : Z := zcount (fun x => list_eqb x n) l.
Definition has_R (c : Z) (n : name) (tr : list event) : bool := existsb (is_R c n) tr.

Lemma count_Q_snoc c n tr e :
  count_Q c n (tr ++ [e]) = count_Q c n tr + (if is_Q c n e then 1 else 0).
Proof. apply zcount_snoc. Qed.

Lemma early_lookups_snoc c n tr e :
  early_lookups c n (tr ++ [e]) =
  if has_R c n tr then early_lookups c n tr
  else if is_R c n e then early_lookups c n tr
  else early_lookups c n tr + (if is_L c n e then 1 else 0).
Proof.
  unfold has_R. induction tr as [|x tr IH]; cbn [app early_lookups existsb orb].
  - destruct (is_R c n e); [reflexivity|]. destruct (is_L c n e); reflexivity.
  - destruct (is_R c n x); cbn [orb]; [reflexivity|]. rewrite IH.
    destruct (existsb (is_R c n) tr); [reflexivity|].
    destruct (is_R c n e); [reflexivity|]. lia.
Qed.
Lemma early_lookups_snoc_ge c n tr e : early_lookups c n tr <= early_lookups c n (tr ++ [e]).
Proof.
  rewrite early_lookups_snoc. destruct (has_R c n tr); [lia|].
  destruct (is_R c n e); [lia|]. destruct (is_L c n e); lia.
Qed.
Lemma early_lookups_snoc_other c n tr e : is_L c n e = false ->
  early_lookups c n (tr ++ [e]) = early_lookups c n tr.
Proof.
  intros H. rewrite early_lookups_snoc, H. destruct (has_R c n tr); [reflexivity|].
  destruct (is_R c n e); lia.
Qed.

Lemma has_R_false c n tr : has_R c n tr = false -> forall h a, ~ In (EvR c h n a) tr.
Proof.
  unfold has_R. intros H h a I. assert (E : existsb (is_R c n) tr = true).
  { apply existsb_exists. exists (EvR c h n a). split; [exact I|].
    cbn [is_R]. rewrite Z.eqb_refl, list_eqb_refl. reflexivity. }
  congruence.
Qed.
Lemma has_R_true c n tr : has_R c n tr = true -> exists h a, In (EvR c h n a) tr.
Proof.
  unfold has_R. intros H. apply existsb_exists in H as [e [I E]].
  destruct e as [| | |c' h n' a|]; cbn [is_R] in E; try discriminate.
  apply andb_prop in E as [E1 E2]. apply list_eqb_eq in E2. assert (c' = c) by lia. subst.
  exists h, a. exact I.
Qed.

Lemma remove_first_count n l l' : remove_first n l = Some l' ->
  forall m, owed_count m l = owed_count m l' + (if list_eqb n m then 1 else 0).
Proof.
  unfold owed_count. revert l'. induction l as [|x l IH]; intros l' H m; cbn [remove_first] in H; [discriminate|].
  rewrite zcount_cons. destruct (list_eqb x n) eqn:E.
  - inversion H; subst. apply list_eqb_eq in E. subst. lia.
  - destruct (remove_first n l) as [r'|] eqn:R; [|discriminate]. inversion H; subst.
    rewrite zcount_cons, (IH r' eq_refl m). lia.
Qed.
Lemma remove_first_in n l l' : remove_first n l = Some l' -> In n l /\ incl l' l.
Proof.
  revert l'. induction l as [|x l IH]; intros l' H; cbn [remove_first] in H; [discriminate|].
  destruct (list_eqb x n) eqn:E.
  - inversion H; subst. apply list_eqb_eq in E. subst. split; [left; reflexivity|]. apply incl_tl, incl_refl.
  - destruct (remove_first n l) as [r'|] eqn:R; [|discriminate]. inversion H; subst.
    destruct (IH r' eq_refl) as [I S]. split; [right; exact I|].
    intros y [Hy|Hy]; [left; exact Hy|right; apply S; exact Hy].
Qed.

Lemma remove_first_some n l : In n l -> exists l', remove_first n l = Some l'.
Proof.
  induction l as [|x l IH]; cbn [In remove_first]; [tauto|]. intros I.
  destruct (list_eqb x n) eqn:E; [eauto|]. destruct IH as [l' R]; [|rewrite R; eauto].
  destruct I as [->|I]; [rewrite list_eqb_refl in E; discriminate|exact I].
Qed.

Lemma find_sock_in p l k : find_sock p l = Some k -> In k l /\ k_port k = p.
Proof.
  induction l as [|x l IH]; cbn [find_sock]; [discriminate|].
  destruct (k_port x =? p) eqn:E.
  - intros H. inversion H; subst. split; [left; reflexivity|lia].
  - intros H. destruct (IH H). split; [right; assumption|assumption].
Qed.
Lemma find_sock_none p l : find_sock p l = None -> forall k, In k l -> k_port k <> p.
Proof.
  induction l as [|x l IH]; cbn [find_sock In]; [tauto|].
  destruct (k_port x =? p) eqn:E; [discriminate|].
  intros H k [Hk|Hk]; [subst; lia|apply IH; assumption].
Qed.
Lemma set_sock_in p s l k' : In k' (set_sock p s l) ->
  exists k, In k l /\ k_port k' = k_port k /\ k_name k' = k_name k /\ k_id k' = k_id k /\
            (k_status k' = k_status k \/ (k_status k' = s /\ k_port k = p)).
Proof.
  induction l as [|x l IH]; cbn [set_sock In]; [tauto|].
  destruct (k_port x =? p) eqn:E; cbn [In].
  - intros [H|H].
    + subst k'. exists x. cbn [k_port k_name k_id k_status]. repeat split; auto. right. split; [reflexivity|lia].
    + exists k'. repeat split; auto.
  - intros [H|H].
    + subst. exists k'. repeat split; auto.
    + destruct (IH H) as [k [I R]]. exists k. split; [right; exact I|exact R].
Qed.
Lemma set_sock_Forall (P : sock -> Prop) p s l : Forall P l ->
  (forall k, find_sock p l = Some k -> P (mkSock (k_port k) (k_name k) (k_id k) s)) ->
  Forall P (set_sock p s l).
Proof.
  induction 1 as [|x l Px F IH]; cbn [find_sock set_sock]; [constructor|].
  intros H. destruct (k_port x =? p); constructor; auto.
Qed.

Lemma find_look_in h l x : find_look h l = Some x -> In x l /\ l_h x = h.
Proof.
  induction l as [|y l IH]; cbn [find_look]; [discriminate|].
  destruct (l_h y =? h) eqn:E.
  - intros H. inversion H; subst. split; [left; reflexivity|lia].
  - intros H. destruct (IH H). split; [right; assumption|assumption].
Qed.
Lemma remove_look_incl h l : incl (remove_look h l) l.
Proof.
  induction l as [|y l IH]; cbn [remove_look]; [apply incl_refl|].
  destruct (l_h y =? h); [apply incl_tl, incl_refl|].
  intros z [Hz|Hz]; [left; exact Hz|right; apply IH; exact Hz].
Qed.

Lemma take_reply_spec cache n a l p cache' : take_reply cache n a l = Some (p, cache') ->
  exists k bytes, In k l /\ k_port k = p /\ k_name k = n /\ k_status k = Answered bytes /\
                  client_accept cache n bytes = Ok (cache', a).
Proof.
  induction l as [|k l IH]; cbn [take_reply]; [discriminate|].
  assert (G : take_reply cache n a l = Some (p, cache') ->
              exists k0 bytes, In k0 (k :: l) /\ k_port k0 = p /\ k_name k0 = n /\
                               k_status k0 = Answered bytes /\ client_accept cache n bytes = Ok (cache', a)).
  { intros H. destruct (IH H) as (k0 & b & I & R). exists k0, b. split; [right; exact I|exact R]. }
  destruct (k_status k) as [|bytes|] eqn:S; try exact G.
  destruct (list_eqb (k_name k) n) eqn:E; [|exact G].
  destruct (client_accept cache n bytes) as [[c1 a1]| | |] eqn:A; try exact G.
  destruct (list_eqb a1 a) eqn:Ea; [|exact G].
  intros H. inversion H; subst. apply list_eqb_eq in E, Ea. subst.
  exists k, bytes. split; [left; reflexivity|]. repeat split; assumption.
Qed.

(* [good] is a predicate on looked-up names that at least makes them names of the property's
   quantifier; the theorems instantiate it with name_ok, the no-crash theorem with
   "name_ok, fits the server's read, has a record". *)
Section Invariant.
Variable cfg : config.
Variable good : name -> bool.
Hypothesis good_name_ok : forall n, good n = true -> name_ok n = true.
Hypothesis Hrecords : records_ok cfg = true.

Definition sock_ok (k : sock) : Prop :=
  good (k_name k) = true /\ 0 <= k_id k < 65536 /\
  match k_status k with
  | Answered bytes => exists a, tbl_get (server_table cfg) (k_name k) = Some a /\
                                bytes = response_bytes (k_id k) (k_name k) a /\
                                fits cfg (k_name k) = true
  | _ => True
  end.

Definition look_ok (cache : table) (l : lookup) : Prop :=
  good (l_name l) = true /\
  match l_kind l with
  | Hit a => tbl_get (server_table cfg) (l_name l) = Some a /\ tbl_get cache (l_name l) <> None
  | Miss => True
  end.

Definition cache_ok (cache : table) : Prop :=
  forall n a, tbl_get cache n = Some a -> tbl_get (server_table cfg) n = Some a /\ fits cfg n = true.

Definition client_ok (cs : cstate) : Prop :=
  cache_ok (c_cache cs) /\ Forall (look_ok (c_cache cs)) (c_looks cs) /\
  Forall (fun n => good n = true) (c_owed cs) /\ Forall sock_ok (c_socks cs).

(* every return carries the server's address and leaves the name in the cache, and the cache holds
   only names that were returned *)
Definition rets_ok (tr : list event) (c : Z) (cache : table) : Prop :=
  (forall h n a, In (EvR c h n a) tr -> tbl_get (server_table cfg) n = Some a /\ tbl_get cache n <> None) /\
  (forall n, tbl_get cache n <> None -> exists h a, In (EvR c h n a) tr).
(* queries sent and still owed are covered by lookups that started before the first return *)
Definition owed_ok (tr : list event) (c : Z) (owed : list name) : Prop :=
  forall n, count_Q c n tr + owed_count n owed <= early_lookups c n tr.
(* every socket sent its query, every answered socket got its reply from the server *)
Definition socks_ok (tr : list event) (c : Z) (socks : list sock) : Prop :=
  forall k, In k socks -> In (EvQ c (k_port k) (k_id k) (k_name k)) tr /\
                          forall bytes, k_status k = Answered bytes -> In (EvA c (k_port k) bytes) tr.
Definition trace_ok (tr : list event) (c : Z) (cs : cstate) : Prop :=
  rets_ok tr c (c_cache cs) /\ owed_ok tr c (c_owed cs) /\ socks_ok tr c (c_socks cs).

Definition inv (tr : list event) (st : state) : Prop :=
  Forall (fun x => client_ok (snd x)) (s_clients st) /\ forall c, trace_ok tr c (getc st c).

Lemma client_ok_init : client_ok init_client.
Proof. split; [intros n a H; discriminate|]. repeat split; constructor. Qed.

Lemma inv_client_ok tr st c : inv tr st -> client_ok (getc st c).
Proof. intros [F _]. apply (getc_list_Forall client_ok); [apply client_ok_init|exact F]. Qed.

Lemma inv_init : inv [] init_state.
Proof.
  split; [constructor|]. intros c. split; [split|split].
  - intros h n a [].
  - intros n H. exfalso. apply H. reflexivity.
  - intros n. cbn. lia.
  - intros k [].
Qed.

Lemma rets_ok_snoc tr c cache e : (forall h n a, e <> EvR c h n a) -> rets_ok tr c cache ->
  rets_ok (tr ++ [e]) c cache.
Proof.
  intros NR [R1 R2]. split.
  - intros h n a I. apply in_snoc_inv in I as [I|I]; [apply (R1 _ _ _ I)|destruct (NR _ _ _ (eq_sym I))].
  - intros n I. destruct (R2 n I) as (h & a & I0). exists h, a. apply in_snoc. exact I0.
Qed.
Lemma owed_ok_snoc tr c owed e : (forall p id n, e <> EvQ c p id n) -> owed_ok tr c owed ->
  owed_ok (tr ++ [e]) c owed.
Proof.
  intros NQ O n. rewrite count_Q_snoc. replace (is_Q c n e) with false.
  - pose proof (O n). pose proof (early_lookups_snoc_ge c n tr e). lia.
  - destruct e as [|c0 p id n0| | |]; try reflexivity. cbn [is_Q].
    destruct (c0 =? c) eqn:E; [|reflexivity]. assert (c0 = c) by lia. subst c0.
    destruct (list_eqb n0 n) eqn:En; [|reflexivity]. destruct (NQ p id n0 eq_refl).
Qed.
Lemma socks_ok_snoc tr c socks e : socks_ok tr c socks -> socks_ok (tr ++ [e]) c socks.
Proof.
  intros K k I. destruct (K k I) as [Q A]. split; [apply in_snoc; exact Q|].
  intros b Hb. apply in_snoc, A, Hb.
Qed.
Lemma trace_ok_other tr c cs e : ev_client e <> Some c -> trace_ok tr c cs -> trace_ok (tr ++ [e]) c cs.
Proof.
  intros N (R & O & K). split; [|split].
  - apply rets_ok_snoc; [|exact R]. intros h n a ->. apply N. reflexivity.
  - apply owed_ok_snoc; [|exact O]. intros p id n ->. apply N. reflexivity.
  - apply socks_ok_snoc. exact K.
Qed.

Lemma owed_ok_L tr c h n owed : has_R c n tr = false -> owed_ok tr c owed ->
  owed_ok (tr ++ [EvL c h n]) c (n :: owed).
Proof.
  intros R O m. unfold owed_count. rewrite count_Q_snoc, zcount_cons. cbn [is_Q].
  pose proof (O m) as Om. unfold owed_count in Om. destruct (list_eqb n m) eqn:E.
  - apply list_eqb_eq in E. subst m. rewrite early_lookups_snoc, R. cbn [is_R is_L].
    rewrite Z.eqb_refl, list_eqb_refl. cbn [andb]. lia.
  - pose proof (early_lookups_snoc_ge c m tr (EvL c h n)). lia.
Qed.
Lemma owed_ok_Q tr c p id n owed owed' : remove_first n owed = Some owed' -> owed_ok tr c owed ->
  owed_ok (tr ++ [EvQ c p id n]) c owed'.
Proof.
  intros Ro O m. rewrite count_Q_snoc, early_lookups_snoc_other by reflexivity. cbn [is_Q].
  rewrite Z.eqb_refl. cbn [andb]. pose proof (O m). pose proof (remove_first_count _ _ _ Ro m). lia.
Qed.
Lemma socks_ok_set tr c p s socks e : (forall b, s = Answered b -> e = EvA c p b) ->
  socks_ok tr c socks -> socks_ok (tr ++ [e]) c (set_sock p s socks).
Proof.
  intros Hs K k' I. destruct (set_sock_in _ _ _ _ I) as (k & Ik & -> & -> & -> & St).
  destruct (K k Ik) as [Q A]. split; [apply in_snoc; exact Q|]. intros b Hb.
  destruct St as [St|[St <-]].
  - apply in_snoc, A. rewrite <- St. exact Hb.
  - rewrite St in Hb. rewrite <- (Hs b Hb). apply in_snoc_last.
Qed.
Lemma rets_ok_R tr c h n a cache cache' : tbl_get (server_table cfg) n = Some a ->
  (forall m, tbl_get cache' m <> None <-> tbl_get cache m <> None \/ m = n) ->
  rets_ok tr c cache -> rets_ok (tr ++ [EvR c h n a]) c cache'.
Proof.
  intros Sa Hc [R1 R2]. split.
  - intros h0 n0 a0 I. apply in_snoc_inv in I as [I|I].
    + destruct (R1 _ _ _ I) as [S0 C0]. split; [exact S0|]. apply Hc. left. exact C0.
    + inversion I; subst. split; [exact Sa|]. apply Hc. right. reflexivity.
  - intros m I. apply Hc in I as [I| ->]; [|exists h, a; apply in_snoc_last].
    destruct (R2 m I) as (h0 & a0 & I0). exists h0, a0. apply in_snoc. exact I0.
Qed.

Lemma look_ok_mono cache cache' l :
  (forall n, tbl_get cache n <> None -> tbl_get cache' n <> None) -> look_ok cache l -> look_ok cache' l.
Proof.
  intros M [G H]. split; [exact G|]. destruct (l_kind l); [|exact I].
  destruct H as [H1 H2]. split; [exact H1|apply M; exact H2].
Qed.

Lemma answered_sock cache k bytes : sock_ok k -> k_status k = Answered bytes ->
  exists a, tbl_get (server_table cfg) (k_name k) = Some a /\ fits cfg (k_name k) = true /\
            bytes = response_bytes (k_id k) (k_name k) a /\
            client_accept cache (k_name k) bytes = Ok (tbl_insert cache (k_name k) a, a).
Proof.
  intros (G & Id & R) S. rewrite S in R. destruct R as (a & Ta & -> & F). exists a.
  split; [exact Ta|]. split; [exact F|]. split; [reflexivity|].
  apply client_accept_response; [apply good_name_ok, G|exact Id|apply (server_table_ok cfg Hrecords _ _ Ta)].
Qed.
Lemma take_reply_ok cache n a socks p cache' : Forall sock_ok socks ->
  take_reply cache n a socks = Some (p, cache') ->
  tbl_get (server_table cfg) n = Some a /\ fits cfg n = true /\ cache' = tbl_insert cache n a /\
  exists k, In k socks /\ k_port k = p /\ k_name k = n /\ k_status k = Answered (response_bytes (k_id k) n a).
Proof.
  intros F Tr. destruct (take_reply_spec _ _ _ _ _ _ Tr) as (k & bytes & Ik & Pk & <- & Sk & Ak).
  rewrite Forall_forall in F. destruct (answered_sock cache k bytes (F k Ik) Sk) as (a0 & Ta & Fk & -> & Ac).
  rewrite Ac in Ak. inversion Ak; subst cache' a0. repeat split; try assumption.
  exists k. repeat split; assumption.
Qed.

(* the fields of client_ok and trace_ok one by one ([repeat split] would unfold them); those that the
   label leaves alone are closed by assumption or by a frame lemma *)
Ltac fields :=
  repeat match goal with |- _ /\ _ => split end; try assumption;
  try (apply rets_ok_snoc; [discriminate|assumption]); try (apply owed_ok_snoc; [discriminate|assumption]);
  try (apply socks_ok_snoc; assumption).

Lemma client_step tr c cs e cs' : ev_client e = Some c -> (forall h n, e = EvL c h n -> good n = true) ->
  cstep cfg cs e cs' -> client_ok cs -> trace_ok tr c cs -> client_ok cs' /\ trace_ok (tr ++ [e]) c cs'.
Proof.
  intros Ec G S (Cc & Cl & Co & Cs) (R & O & K).
  destruct S as [c0 h n a Hc|c0 h n Hc|c0 p id n owed' Ro Fs Rp Ri|c0 p bytes k Fs Ks Sr|c0 h a l Fl Kl
                |c0 h a l p cache' Fl Kl Tr]; inversion Ec; subst c0; unfold client_ok, trace_ok;
    cbn [c_cache c_looks c_owed c_socks].
  - (* cache hit *)
    fields. constructor; [|exact Cl]. split; [apply (G h n eq_refl)|]. cbn [l_kind l_name].
    split; [apply (Cc _ _ Hc)|congruence].
  - (* cache miss *)
    pose proof (G h n eq_refl) as Gn. fields.
    + constructor; [|exact Cl]. split; [exact Gn|exact I].
    + constructor; assumption.
    + apply owed_ok_L; [|exact O]. destruct (has_R c n tr) eqn:HR; [|reflexivity].
      apply has_R_true in HR as (h0 & a0 & I0). destruct (proj1 R _ _ _ I0) as [_ X]. congruence.
  - (* the query leaves *)
    destruct (remove_first_in _ _ _ Ro) as [In_n Sub]. fields.
    + apply (incl_Forall Sub Co).
    + constructor; [|exact Cs]. rewrite Forall_forall in Co. split; [apply Co, In_n|]. split; [exact Ri|exact I].
    + apply (owed_ok_Q _ _ _ _ _ _ _ Ro O).
    + intros k [<-|Ik]; [|exact (socks_ok_snoc _ _ _ _ K k Ik)]. cbn [k_port k_id k_name k_status].
      split; [apply in_snoc_last|discriminate].
  - (* the reply leaves *)
    fields.
    + destruct (find_sock_in _ _ _ Fs) as [Ik _]. pose proof Cs as Cs'. rewrite Forall_forall in Cs'.
      destruct (Cs' k Ik) as (Gk & Idk & _).
      destruct (server_respond_inv cfg _ _ _ (good_name_ok _ Gk) Idk Sr) as (Fk & a & Ta & Eb).
      apply set_sock_Forall; [exact Cs|]. intros k' Fs'. rewrite Fs in Fs'. inversion Fs'; subst k'.
      split; [exact Gk|]. split; [exact Idk|]. exists a. auto.
    + apply socks_ok_set; [|exact K]. intros b Hb. inversion Hb. reflexivity.
  - (* return from the cache *)
    fields.
    + apply (incl_Forall (remove_look_incl h _) Cl).
    + destruct (find_look_in _ _ _ Fl) as [Il _]. rewrite Forall_forall in Cl. destruct (Cl l Il) as [_ Lk].
      rewrite Kl in Lk. destruct Lk as [Sa Ca]. apply (rets_ok_R _ _ _ _ _ (c_cache cs)); [exact Sa| |exact R].
      intros m. split; [left; assumption|intros [H| ->]; assumption].
  - (* return with the reply of an answered socket *)
    destruct (take_reply_ok _ _ _ _ _ _ Cs Tr) as (Sa & Fn & -> & _). fields.
    + intros m b. rewrite tbl_get_insert. destruct (list_eqb (l_name l) m) eqn:E; [|apply Cc].
      apply list_eqb_eq in E. subst m. intros Hb. inversion Hb; subst b. auto.
    + apply (incl_Forall (remove_look_incl h _)). rewrite Forall_forall in *. intros x Ix.
      apply (look_ok_mono (c_cache cs)); [|apply Cl, Ix]. intros m Hm. apply tbl_insert_names. left. exact Hm.
    + apply set_sock_Forall; [exact Cs|]. intros k Fk. destruct (find_sock_in _ _ _ Fk) as [Ik _].
      rewrite Forall_forall in Cs. destruct (Cs k Ik) as (Gk & Idk & _). split; [exact Gk|]. split; [exact Idk|exact I].
    + apply (rets_ok_R _ _ _ _ _ (c_cache cs)); [exact Sa|apply tbl_insert_names|exact R].
    + apply socks_ok_set; [discriminate|exact K].
Qed.

Definition lookups_good (tr : list event) : Prop := forall c h n, In (EvL c h n) tr -> good n = true.

Lemma inv_step tr st e st' : inv tr st -> (forall c h n, e = EvL c h n -> good n = true) ->
  step cfg st e = Some st' -> inv (tr ++ [e]) st'.
Proof.
  intros I G H. pose proof I as [F T]. destruct (step_inv _ _ _ _ H) as [_ S]. unfold inv, getc.
  destruct (ev_client e) as [c|] eqn:Ec.
  - destruct S as (cs' & S & -> & _).
    destruct (client_step tr c _ e cs' Ec (G c) S (inv_client_ok tr st c I) (T c)) as [C' T'].
    split; [apply setc_list_Forall; assumption|]. intros c'. rewrite getc_setc_list.
    destruct (c =? c') eqn:E; [assert (c = c') by lia; subst c'; exact T'|].
    apply trace_ok_other; [|apply T]. rewrite Ec. intros X. inversion X. lia.
  - rewrite S. split; [exact F|]. intros c. apply trace_ok_other; [|apply T]. rewrite Ec. discriminate.
Qed.

Lemma inv_run tr st : run cfg tr st -> lookups_good tr -> inv tr st.
Proof.
  intros R. apply (run_ind cfg (fun tr st => lookups_good tr -> inv tr st)); [intros _; apply inv_init| |exact R].
  clear tr st R. intros tr st e st' _ IH S G. apply (inv_step tr st e st').
  - apply IH. intros c h n I. apply (G c h n), in_snoc, I.
  - intros c h n ->. apply (G c h n), in_snoc_last.
  - exact S.
Qed.

End Invariant.

Definition names_ok (tr : list event) : Prop := forall c h n, In (EvL c h n) tr -> name_ok n = true.
Lemma names_okb_spec tr : names_okb tr = true -> names_ok tr.
Proof. unfold names_okb. rewrite forallb_forall. intros H c h n I. apply (H _ I). Qed.

Lemma inv_run_names cfg tr st : records_ok cfg = true -> run cfg tr st -> names_ok tr ->
  inv cfg name_ok tr st.
Proof. intros R H N. apply inv_run; auto. Qed.

Lemma returned_ok cfg tr st : records_ok cfg = true -> run cfg tr st -> names_ok tr ->
  forall c h n a, In (EvR c h n a) tr -> tbl_get (server_table cfg) n = Some a /\ fits cfg n = true.
Proof.
  intros R H N c h n a I. pose proof (inv_run_names cfg tr st R H N) as J.
  destruct (inv_client_ok _ _ _ _ c J) as (Cc & _). destruct J as [_ T]. destruct (T c) as ((R1 & _) & _).
  destruct (R1 _ _ _ I) as [Sa Hc]. split; [exact Sa|].
  destruct (tbl_get (c_cache (getc st c)) n) as [b|] eqn:E; [|congruence].
  apply (Cc _ _ E).
Qed.

(* the code as it is: recv(80), built-in records win *)
Definition as_is (records : list (name * addr)) (conn : Z) : config := mkConfig records (Some 80) true conn.
(* the repaired code *)
Definition repaired (records : list (name * addr)) (conn : Z) : config := mkConfig records None false conn.

Definition name25 : name := repeat 97 25.

Lemma run_split cfg t1 e t2 st : run cfg (t1 ++ e :: t2) st ->
  exists s1 s2, run cfg t1 s1 /\ step cfg s1 e = Some s2 /\ replay cfg s2 t2 = Some st.
Proof.
  unfold run. rewrite replay_app. destruct (replay cfg init_state t1) as [s1|]; [|discriminate].
  cbn [replay]. destruct (step cfg s1 e) as [s2|] eqn:E; [|discriminate].
  intros H. exists s1, s2. auto.
Qed.
Lemma names_ok_prefix t1 t2 : names_ok (t1 ++ t2) -> names_ok t1.
Proof. intros N c h n I. apply (N c h n). apply in_or_app. left. exact I. Qed.

Lemma echo_reply cfg t1 c p bytes t2 st : records_ok cfg = true ->
  run cfg (t1 ++ EvA c p bytes :: t2) st -> names_ok (t1 ++ EvA c p bytes :: t2) ->
  exists id n a m, In (EvQ c p id n) t1 /\ dns_from_bytes bytes = Ok (m, []) /\
    d_id (m_header m) = id /\ d_properties (m_header m) = 32768 /\ q_qname (m_question m) = n /\
    r_name (m_answer m) = n /\ r_rdata (m_answer m) = a /\ tbl_get (server_table cfg) n = Some a.
Proof.
  intros R H N. destruct (run_split _ _ _ _ _ H) as (s1 & s2 & H1 & S & _).
  pose proof (inv_run_names cfg t1 s1 R H1 (names_ok_prefix _ _ N)) as J.
  destruct (inv_client_ok _ _ _ _ c J) as (_ & _ & _ & Cs). destruct J as [_ T]. destruct (T c) as (_ & _ & K).
  destruct (step_inv _ _ _ _ S) as (_ & cs' & CS & _). inversion CS as [| | |c0 p0 b0 k Fs Ks Sr| |]; subst.
  destruct (find_sock_in _ _ _ Fs) as [Ik <-]. rewrite Forall_forall in Cs. destruct (Cs _ Ik) as (Gk & Idk & _).
  destruct (server_respond_inv cfg _ _ _ Gk Idk Sr) as (_ & a & Ta & ->).
  destruct (response_echo (k_id k) (k_name k) a Gk Idk (server_table_ok cfg R _ _ Ta))
    as (m & D & E1 & E2 & E3 & E4 & E5).
  exists (k_id k), (k_name k), a, m. split; [apply (K _ Ik)|]. repeat split; assumption.
Qed.

Lemma echo_accept cfg t1 c h n a t2 st : records_ok cfg = true ->
  run cfg (t1 ++ EvR c h n a :: t2) st -> names_ok (t1 ++ EvR c h n a :: t2) ->
  (exists h', In (EvR c h' n a) t1) \/
  (exists p id bytes m, In (EvQ c p id n) t1 /\ In (EvA c p bytes) t1 /\
     dns_from_bytes bytes = Ok (m, []) /\ d_id (m_header m) = id /\
     d_properties (m_header m) = 32768 /\ q_qname (m_question m) = n /\
     r_name (m_answer m) = n /\ r_rdata (m_answer m) = a).
Proof.
  intros R H N. destruct (run_split _ _ _ _ _ H) as (s1 & s2 & H1 & S & _).
  pose proof (inv_run_names cfg t1 s1 R H1 (names_ok_prefix _ _ N)) as J.
  destruct (inv_client_ok _ _ _ _ c J) as (_ & Cl & _ & Cs). destruct J as [_ T].
  destruct (T c) as ((R1 & R2) & _ & K).
  destruct (step_inv _ _ _ _ S) as (_ & cs' & CS & _).
  inversion CS as [| | | |c0 h0 a0 l Fl Kl|c0 h0 a0 l p cache' Fl Kl Tr]; subst.
  - destruct (find_look_in _ _ _ Fl) as [Il _]. rewrite Forall_forall in Cl. destruct (Cl _ Il) as [_ Lk].
    rewrite Kl in Lk. destruct Lk as [Sa Ca]. destruct (R2 _ Ca) as (h0 & a0 & I0).
    left. exists h0. destruct (R1 _ _ _ I0) as [Sa0 _]. rewrite Sa in Sa0. inversion Sa0; subst a0. exact I0.
  - destruct (take_reply_ok cfg name_ok (fun _ G => G) R _ _ _ _ _ _ Cs Tr) as (Sa & _ & _ & k & Ik & <- & Nk & Sk).
    rewrite Forall_forall in Cs. destruct (Cs _ Ik) as (Gk & Idk & _). rewrite Nk in Gk.
    destruct (response_echo (k_id k) (l_name l) a Gk Idk (server_table_ok cfg R _ _ Sa))
      as (m & D & E1 & E2 & E3 & E4 & E5).
    destruct (K _ Ik) as [Iq Ia]. rewrite Nk in Iq. specialize (Ia _ Sk).
    right. exists (k_port k), (k_id k), (response_bytes (k_id k) (l_name l) a), m. repeat split; assumption.
Qed.

Lemma cache_silent_count cfg tr st : records_ok cfg = true -> run cfg tr st -> names_ok tr ->
  forall c n, count_Q c n tr <= early_lookups c n tr.
Proof.
  intros R H N c n. destruct (inv_run_names cfg tr st R H N) as [_ T]. destruct (T c) as (_ & O & _).
  pose proof (O n). pose proof (zcount_nonneg (fun x => list_eqb x n) (c_owed (getc st c))).
  unfold owed_count in *. lia.
Qed.

Lemma cache_silent_hit cfg t1 s1 c h0 n a h : records_ok cfg = true -> run cfg t1 s1 -> names_ok t1 ->
  In (EvR c h0 n a) t1 -> s_dead s1 = None ->
  exists s2, step cfg s1 (EvL c h n) = Some s2 /\
    (forall c', c_owed (getc s2 c') = c_owed (getc s1 c') /\ c_socks (getc s2 c') = c_socks (getc s1 c') /\
                c_cache (getc s2 c') = c_cache (getc s1 c')) /\
    s_accepted s2 = s_accepted s1 /\
    (forall a', step cfg s2 (EvR c h n a') <> None -> a' = a) /\
    step cfg s2 (EvR c h n a) <> None.
Proof.
  intros R H N I D. pose proof (inv_run_names cfg t1 s1 R H N) as J.
  destruct (inv_client_ok _ _ _ _ c J) as (Cc & _). destruct J as [_ T]. destruct (T c) as ((R1 & _) & _).
  destruct (R1 _ _ _ I) as [Sa Ca].
  destruct (tbl_get (c_cache (getc s1 c)) n) as [b|] eqn:E; [|congruence].
  destruct (Cc _ _ E) as [Sb _]. rewrite Sa in Sb. inversion Sb; subst b.
  eexists. split; [apply (step_client cfg s1 c (EvL c h n) _ D eq_refl (CL_hit _ _ c h n a E)); discriminate|].
  set (s2 := setc s1 c _).
  assert (Fl : find_look h (c_looks (getc s2 c)) = Some (mkLookup h n (Hit a))).
  { unfold s2. rewrite getc_setc_same. cbn [c_looks find_look l_h]. rewrite Z.eqb_refl. reflexivity. }
  split; [|split; [reflexivity|split]].
  - intros c'. unfold s2. rewrite getc_setc. destruct (c =? c') eqn:Ec; [|repeat split; reflexivity].
    assert (c = c') by lia. subst c'. repeat split; reflexivity.
  - intros a' Hs. destruct (step cfg s2 (EvR c h n a')) as [s3|] eqn:S3; [|congruence].
    destruct (step_inv _ _ _ _ S3) as (_ & cs' & CS & _).
    inversion CS as [| | | |c0 h1 a1 l Fl' Kl|c0 h1 a1 l p cache' Fl' Kl _]; subst;
      rewrite Fl in Fl'; injection Fl' as El; rewrite <- El in Kl; cbn [l_kind] in Kl; congruence.
  - rewrite (step_client cfg s2 c (EvR c h n a) _ D eq_refl (CR_hit _ _ c h a _ Fl eq_refl)); discriminate.
Qed.

Definition good3 (cfg : config) (n : name) : bool :=
  name_ok n && fits cfg n && match tbl_get (server_table cfg) n with Some _ => true | None => false end.
Lemma good3_iff cfg n : good3 cfg n = true <->
  name_ok n = true /\ fits cfg n = true /\ exists a, tbl_get (server_table cfg) n = Some a.
Proof.
  unfold good3. rewrite !andb_true_iff. destruct (tbl_get (server_table cfg) n) as [a|].
  - split; [intros [[N F] _]; eauto|tauto].
  - split; [intros [_ X]; discriminate|intros (_ & _ & a & X); discriminate].
Qed.
Lemma good3_name_ok cfg n : good3 cfg n = true -> name_ok n = true.
Proof. intros H. apply good3_iff in H. tauto. Qed.

Lemma no_panic_step cfg tr st site : records_ok cfg = true -> inv cfg (good3 cfg) tr st ->
  step cfg st (EvX site) = None.
Proof.
  intros R [F _]. unfold step. destruct (s_dead st); [reflexivity|]. rewrite Forall_forall in F.
  assert (S : existsb (fun x => server_panics cfg site (snd x)) (s_clients st) = false).
  { apply existsb_false. intros x Ix. destruct (F x Ix) as (_ & _ & _ & Cs).
    unfold server_panics. apply existsb_false. intros k Ik. rewrite Forall_forall in Cs.
    destruct (Cs k Ik) as (Gk & Idk & _). destruct (k_status k); try reflexivity.
    apply good3_iff in Gk as (Nk & Fk & a & Ta).
    rewrite (server_respond_eq cfg _ _ Nk Idk), Fk, Ta. reflexivity. }
  assert (K : existsb (fun x => client_panics site (snd x)) (s_clients st) = false).
  { apply existsb_false. intros x Ix. destruct (F x Ix) as (_ & _ & _ & Cs).
    unfold client_panics. apply existsb_false. intros k Ik. rewrite Forall_forall in Cs.
    destruct (k_status k) as [|bytes|] eqn:Sk; try reflexivity. apply existsb_false. intros l _.
    destruct (l_kind l); [reflexivity|]. destruct (list_eqb (l_name l) (k_name k)) eqn:E; [|reflexivity].
    apply list_eqb_eq in E.
    destruct (answered_sock cfg _ (good3_name_ok cfg) R (c_cache (snd x)) k bytes (Cs k Ik) Sk) as (a & _ & _ & _ & Ac).
    rewrite E, Ac. reflexivity. }
  rewrite S, K, andb_false_r. reflexivity.
Qed.

Lemma no_crash cfg tr : records_ok cfg = true ->
  forall st, run cfg tr st -> (forall c h n, In (EvL c h n) tr -> good3 cfg n = true) ->
  s_dead st = None /\ forall site, ~ In (EvX site) tr.
Proof.
  intros R st H. revert tr st H. apply (run_ind cfg (fun tr st =>
    (forall c h n, In (EvL c h n) tr -> good3 cfg n = true) -> s_dead st = None /\ forall site, ~ In (EvX site) tr)).
  - intros _. split; [reflexivity|intros site []].
  - intros tr st e st' H IH S G.
    assert (G' : forall c h n, In (EvL c h n) tr -> good3 cfg n = true) by (intros c h n I; apply (G c h n), in_snoc, I).
    destruct (IH G') as [_ NX]. destruct (step_inv _ _ _ _ S) as [_ S'].
    destruct e as [c h n|c p id n|c p bytes|c h n a|site]; cbn [ev_client] in S';
      try (destruct S' as (_ & _ & _ & D'); split; [exact D'|];
           intros s0 Is; apply in_snoc_inv in Is as [Is|Is]; [apply (NX s0 Is)|discriminate]).
    rewrite (no_panic_step cfg tr st site R (inv_run cfg _ (good3_name_ok cfg) R tr st H G')) in S. discriminate.
Qed.

Lemma validate_run cfg tr en finals : validate cfg tr en finals = true ->
  exists st, run cfg tr st /\
    match en with
    | EndDone => s_dead st = None /\ all_returned st = true /\ finals_ok st finals = true
    | EndCrash => exists site, s_dead st = Some site
    | EndHang => s_dead st = None /\ all_returned st = false /\ starved cfg st = true
    end.
Proof.
  unfold validate, run. destruct (replay cfg init_state tr) as [st|]; [|discriminate].
  intros H. exists st. split; [reflexivity|]. destruct en; destruct (s_dead st) as [site|]; try discriminate.
  - apply andb_prop in H as [H1 H2]. auto.
  - exists site. reflexivity.
  - apply andb_prop in H as [H1 H2]. split; [reflexivity|]. split; [|exact H2].
    destruct (all_returned st); [discriminate|reflexivity].
Qed.

Lemma opt_addr_eqb_eq a b : opt_addr_eqb a b = true -> a = b.
Proof.
  destruct a, b; cbn [opt_addr_eqb]; intros H; try discriminate; [|reflexivity].
  apply list_eqb_eq in H. congruence.
Qed.

Lemma validate_sound_run cfg tr en finals : records_ok cfg = true -> names_okb tr = true ->
  validate cfg tr en finals = true ->
  exists st, run cfg tr st /\ names_ok tr /\
    (en = EndDone -> forall c n a, In (c, n, Some a) finals -> tbl_get (server_table cfg) n = Some a).
Proof.
  intros R Nb V. pose proof (names_okb_spec tr Nb) as N.
  destruct (validate_run cfg tr en finals V) as (st & H & E). exists st. split; [exact H|]. split; [exact N|].
  intros Ed c n a I. subst en. destruct E as (_ & _ & F).
  unfold finals_ok in F. rewrite forallb_forall in F. specialize (F _ I). cbn beta iota in F.
  apply opt_addr_eqb_eq in F.
  destruct (inv_client_ok _ _ _ _ c (inv_run_names cfg tr st R H N)) as (Cc & _). apply (Cc _ _ F).
Qed.

Definition is_miss (n : name) (x : lookup) : bool :=
  match l_kind x with Miss => list_eqb (l_name x) n | Hit _ => false end.
Definition miss_count (n : name) (l : list lookup) : Z := zcount (is_miss n) l.
Definition open_sock (n : name) (k : sock) : bool :=
  list_eqb (k_name k) n && match k_status k with Closed => false | _ => true end.
Definition open_count (n : name) (l : list sock) : Z := zcount (open_sock n) l.
Definition ports_unique (l : list sock) : Prop := NoDup (map k_port l).

(* every waiting cache miss has its query still owed or a socket that is not closed *)
Definition live_ok (cs : cstate) : Prop :=
  ports_unique (c_socks cs) /\
  forall n, miss_count n (c_looks cs) <= owed_count n (c_owed cs) + open_count n (c_socks cs).
Definition live_inv (st : state) : Prop := forall c, live_ok (getc st c).

Lemma live_init : live_inv init_state.
Proof. intros c. split; [constructor|]. intros n. cbn. lia. Qed.

Lemma find_sock_none_ports p l : find_sock p l = None -> ~ In p (map k_port l).
Proof.
  intros H I. apply in_map_iff in I as (k & E & Ik). apply (find_sock_none _ _ H k Ik E).
Qed.
Lemma find_sock_unique l k : ports_unique l -> In k l -> find_sock (k_port k) l = Some k.
Proof.
  unfold ports_unique. induction l as [|x l IH]; cbn [In map find_sock]; [tauto|].
  intros U [E|I].
  - subst. rewrite Z.eqb_refl. reflexivity.
  - inversion U; subst. destruct (k_port x =? k_port k) eqn:E.
    + exfalso. apply H1. apply in_map_iff. exists k. split; [lia|exact I].
    + apply IH; assumption.
Qed.
Lemma set_sock_ports p s l : map k_port (set_sock p s l) = map k_port l.
Proof.
  induction l as [|x l IH]; cbn [set_sock map]; [reflexivity|].
  destruct (k_port x =? p); cbn [map k_port]; [reflexivity|]. rewrite IH. reflexivity.
Qed.
Lemma set_sock_member p s l k : find_sock p l = Some k ->
  In (mkSock (k_port k) (k_name k) (k_id k) s) (set_sock p s l).
Proof.
  induction l as [|x l IH]; cbn [find_sock set_sock]; [discriminate|].
  intros F. destruct (k_port x =? p).
  - inversion F; subst x. left. reflexivity.
  - right. apply IH. exact F.
Qed.

Lemma open_count_set p s l k : find_sock p l = Some k -> forall n,
  open_count n (set_sock p s l) =
  open_count n l - (if open_sock n k then 1 else 0)
                 + (if open_sock n (mkSock (k_port k) (k_name k) (k_id k) s) then 1 else 0).
Proof.
  unfold open_count. induction l as [|x l IH]; cbn [find_sock set_sock]; [discriminate|].
  intros F n. destruct (k_port x =? p) eqn:E; rewrite !zcount_cons.
  - inversion F; subst x. lia.
  - rewrite (IH F n). lia.
Qed.
Lemma miss_count_remove h l x : find_look h l = Some x -> forall n,
  miss_count n (remove_look h l) = miss_count n l - (if is_miss n x then 1 else 0).
Proof.
  unfold miss_count. induction l as [|y l IH]; cbn [find_look remove_look]; [discriminate|].
  intros F n. rewrite zcount_cons. destruct (l_h y =? h) eqn:E.
  - inversion F; subst y. lia.
  - rewrite zcount_cons, (IH F n). lia.
Qed.

Lemma live_cstep cfg cs e cs' : cstep cfg cs e cs' -> live_ok cs -> live_ok cs'.
Proof.
  intros S [U M].
  destruct S as [c h n a Hc|c h n Hc|c p id n owed' Ro Fs Rp Ri|c p bytes k Fs Ks Sr|c h a l Fl Kl
                |c h a l p cache' Fl Kl Tr]; split; cbn [c_looks c_owed c_socks]; try exact U;
    try (intros m; specialize (M m)).
  - unfold miss_count in *. rewrite zcount_cons. exact M.
  - unfold miss_count, owed_count in *. rewrite !zcount_cons. cbn [is_miss l_kind l_name].
    destruct (list_eqb n m); lia.
  - constructor; [apply find_sock_none_ports; exact Fs|exact U].
  - pose proof (remove_first_count _ _ _ Ro m) as RC. unfold open_count in *. rewrite zcount_cons.
    unfold open_sock at 1. cbn [k_name k_status]. rewrite andb_true_r. destruct (list_eqb n m); lia.
  - unfold ports_unique. rewrite set_sock_ports. exact U.
  - rewrite (open_count_set _ _ _ _ Fs m). unfold open_sock. cbn [k_name k_status]. rewrite Ks. lia.
  - rewrite (miss_count_remove _ _ _ Fl m). unfold is_miss. rewrite Kl. lia.
  - unfold ports_unique. rewrite set_sock_ports. exact U.
  - destruct (take_reply_spec _ _ _ _ _ _ Tr) as (k & b & Ik & <- & Nk & Sk & _).
    rewrite (miss_count_remove _ _ _ Fl m), (open_count_set _ _ _ _ (find_sock_unique _ _ U Ik) m).
    unfold is_miss, open_sock. cbn [k_name k_status]. rewrite Kl, Sk, Nk, andb_false_r.
    destruct (list_eqb (l_name l) m); cbn [andb]; lia.
Qed.

Lemma live_step cfg st e st' : live_inv st -> step cfg st e = Some st' -> live_inv st'.
Proof.
  intros L H c'. destruct (step_inv _ _ _ _ H) as [_ S]. unfold getc. destruct (ev_client e) as [c|].
  - destruct S as (cs' & S & -> & _). rewrite getc_setc_list.
    destruct (c =? c'); [apply (live_cstep _ _ _ _ S (L c))|apply L].
  - rewrite S. apply L.
Qed.

Lemma live_run cfg tr st : run cfg tr st -> live_inv st.
Proof.
  apply (run_ind cfg (fun _ st => live_inv st)); [apply live_init|].
  intros tr0 s e s' _ L S. apply (live_step cfg s e s' L S).
Qed.

Lemma take_reply_exists cache n a l :
  (forall k b, In k l -> k_status k = Answered b -> k_name k = n ->
     exists c', client_accept cache n b = Ok (c', a)) ->
  (exists k b, In k l /\ k_status k = Answered b /\ k_name k = n) ->
  exists p c', take_reply cache n a l = Some (p, c').
Proof.
  induction l as [|x l IH]; intros A (k & b & I & S & N); [destruct I|].
  assert (Tail : (exists k b, In k l /\ k_status k = Answered b /\ k_name k = n) ->
                 exists p c', take_reply cache n a l = Some (p, c')).
  { apply IH. intros k0 b0 I0. apply A. right. exact I0. }
  cbn [take_reply]. destruct (k_status x) as [|bx|] eqn:Sx.
  - apply Tail. destruct I as [I|I]; [subst; congruence|]. exists k, b. auto.
  - destruct (list_eqb (k_name x) n) eqn:Ex.
    + apply list_eqb_eq in Ex. destruct (A x bx (or_introl eq_refl) Sx Ex) as [c' Hc].
      rewrite Hc, list_eqb_refl. eauto.
    + apply Tail. destruct I as [I|I].
      * subst x. apply list_eqb_neq in Ex. contradiction.
      * exists k, b. auto.
  - apply Tail. destruct I as [I|I]; [subst; congruence|]. exists k, b. auto.
Qed.

Section Progress.
Variable cfg : config.
Hypothesis Hrecords : records_ok cfg = true.
Let ginv := inv cfg (good3 cfg).

Lemma enabled_R tr st c h l : ginv tr st -> s_dead st = None ->
  find_look h (c_looks (getc st c)) = Some l -> l_kind l = Miss ->
  (exists k b, In k (c_socks (getc st c)) /\ k_status k = Answered b /\ k_name k = l_name l) ->
  exists a st', step cfg st (EvR c h (l_name l) a) = Some st' /\
                tbl_get (server_table cfg) (l_name l) = Some a.
Proof.
  intros J D Fl Kl Ex. destruct (inv_client_ok _ _ _ _ c J) as (_ & _ & _ & Cs). rewrite Forall_forall in Cs.
  pose proof (fun k b I => answered_sock cfg _ (good3_name_ok cfg) Hrecords (c_cache (getc st c)) k b (Cs k I)) as An.
  destruct Ex as (k & b & Ik & Sk & Nk). destruct (An k b Ik Sk) as (a & Ta & _). rewrite Nk in Ta. exists a.
  destruct (take_reply_exists (c_cache (getc st c)) (l_name l) a (c_socks (getc st c))) as (p & c' & Tr).
  - intros k0 b0 I0 S0 N0. destruct (An k0 b0 I0 S0) as (a0 & Ta0 & _ & _ & Ac). rewrite N0 in *.
    rewrite Ta in Ta0. inversion Ta0; subst a0. eexists. exact Ac.
  - exists k, b. auto.
  - eexists. split; [|exact Ta].
    apply (step_client cfg st c (EvR c h (l_name l) a) _ D eq_refl (CR_reply _ _ c h a l p c' Fl Kl Tr)). discriminate.
Qed.

Lemma enabled_AR tr st c h l k : ginv tr st -> live_inv st -> s_dead st = None ->
  find_look h (c_looks (getc st c)) = Some l -> l_kind l = Miss ->
  In k (c_socks (getc st c)) -> k_status k = Sent -> k_name k = l_name l ->
  s_accepted st < conn_limit cfg ->
  exists e a st', replay cfg st [e; EvR c h (l_name l) a] = Some st' /\
                  tbl_get (server_table cfg) (l_name l) = Some a.
Proof.
  intros J L D Fl Kl Ik Sk Nk Acc.
  destruct (inv_client_ok _ _ _ _ c J) as (_ & _ & _ & Cs). rewrite Forall_forall in Cs.
  destruct (Cs k Ik) as (Gk & Idk & _). destruct (L c) as [U _]. pose proof (find_sock_unique _ _ U Ik) as Fk.
  apply good3_iff in Gk as (Nok & Fit & a & Ta).
  set (resp := response_bytes (k_id k) (k_name k) a).
  assert (Sr : server_respond cfg (request_bytes (k_id k) (k_name k)) = Ok resp)
    by (rewrite (server_respond_eq cfg _ _ Nok Idk), Fit, Ta; reflexivity).
  pose proof (step_reply cfg st c _ resp _ D Acc (CA _ _ c _ _ k Fk Sk Sr)) as S1.
  set (st1 := mkS _ _ _) in S1.
  assert (J1 : ginv (tr ++ [EvA c (k_port k) resp]) st1).
  { apply (inv_step cfg _ (good3_name_ok cfg) Hrecords tr st _ st1 J); [discriminate|exact S1]. }
  assert (G1 : getc st1 c = mkC (c_cache (getc st c)) (c_looks (getc st c)) (c_owed (getc st c))
                 (set_sock (k_port k) (Answered resp) (c_socks (getc st c)))) by apply getc_setc_same.
  destruct (enabled_R _ st1 c h l J1 eq_refl) as (a' & st2 & S2 & Ta').
  - rewrite G1. exact Fl.
  - exact Kl.
  - rewrite G1. exists (mkSock (k_port k) (k_name k) (k_id k) (Answered resp)), resp.
    split; [apply set_sock_member, Fk|]. split; [reflexivity|exact Nk].
  - exists (EvA c (k_port k) resp), a', st2. split; [|exact Ta']. cbn [replay]. rewrite S1, S2. reflexivity.
Qed.

Lemma progress_state tr st c h l : ginv tr st -> live_inv st -> s_dead st = None ->
  find_look h (c_looks (getc st c)) = Some l ->
  s_accepted st < conn_limit cfg ->
  (exists p, 49152 <= p <= 65535 /\ find_sock p (c_socks (getc st c)) = None) ->
  exists evs a st', (length evs <= 2)%nat /\
    replay cfg st (evs ++ [EvR c h (l_name l) a]) = Some st' /\
    tbl_get (server_table cfg) (l_name l) = Some a.
Proof.
  intros J L D Fl Acc (p & Pr & Pf).
  destruct (inv_client_ok _ _ _ _ c J) as (_ & Cl & _). destruct (find_look_in _ _ _ Fl) as [Il _].
  rewrite Forall_forall in Cl. destruct (Cl _ Il) as [_ Lk].
  destruct (l_kind l) as [a|] eqn:Kl.
  - (* answered from the cache *)
    destruct Lk as [Sa _]. exists [], a. eexists. split; [cbn; lia|]. split; [|exact Sa].
    cbn [app replay]. rewrite (step_client cfg st c (EvR c h (l_name l) a) _ D eq_refl (CR_hit _ _ c h a l Fl Kl)); [reflexivity|discriminate].
  - destruct (L c) as [U M]. specialize (M (l_name l)).
    assert (Mp : 0 < miss_count (l_name l) (c_looks (getc st c))).
    { apply zcount_pos. exists l. split; [exact Il|]. unfold is_miss. rewrite Kl. apply list_eqb_refl. }
    destruct (Z_lt_le_dec 0 (open_count (l_name l) (c_socks (getc st c)))) as [Op|Op].
    + apply zcount_pos in Op as (k & Ik & Ok). apply andb_prop in Ok as [Nk Sk]. apply list_eqb_eq in Nk.
      destruct (k_status k) as [|b|] eqn:Ks; [| |discriminate].
      * destruct (enabled_AR tr st c h l k J L D Fl Kl Ik Ks Nk Acc) as (e & a & st' & R & Ta).
        exists [e], a, st'. split; [cbn; lia|]. split; [exact R|exact Ta].
      * destruct (enabled_R tr st c h l J D Fl Kl) as (a & st' & R & Ta); [exists k, b; auto|].
        exists [], a, st'. split; [cbn; lia|]. split; [|exact Ta]. cbn [app replay]. rewrite R. reflexivity.
    + (* the query has not left yet *)
      assert (Ow : 0 < owed_count (l_name l) (c_owed (getc st c))) by lia.
      apply zcount_pos in Ow as (x & Ix & Ex). apply list_eqb_eq in Ex. subst x.
      destruct (remove_first_some _ _ Ix) as [owed' Ro].
      pose proof (step_client cfg st c (EvQ c p 0 (l_name l)) _ D eq_refl (CQ _ _ c p 0 _ owed' Ro Pf Pr ltac:(lia))) as S1.
      set (st1 := setc st c _) in S1. specialize (S1 ltac:(discriminate)).
      assert (J1 : ginv (tr ++ [EvQ c p 0 (l_name l)]) st1).
      { apply (inv_step cfg _ (good3_name_ok cfg) Hrecords tr st _ st1 J); [discriminate|exact S1]. }
      destruct (enabled_AR _ st1 c h l (mkSock p (l_name l) 0 Sent) J1 (live_step cfg st _ _ L S1))
        as (e & a & st' & R & Ta); try reflexivity; try assumption.
      * unfold st1. rewrite getc_setc_same. exact Fl.
      * unfold st1. rewrite getc_setc_same. left. reflexivity.
      * exists [EvQ c p 0 (l_name l); e], a, st'. split; [cbn; lia|]. split; [|exact Ta].
        cbn [app replay] in *. rewrite S1. exact R.
Qed.
End Progress.
