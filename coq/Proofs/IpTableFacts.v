(* Facts about Model/IpTable.v : the comparator is a lawful strict order, the table is a finite
   map whatever the history, lookup is longest-prefix match. *)
From Elvis Require Import Model.Base Model.Subnet Model.IpTable Proofs.SubnetFacts.
Local Open Scope N_scope.

Lemma obm_cmp_eq a b : obm_cmp a b = Eq <-> a = b.
Proof.
  destruct a as [i m], b as [i' m']. unfold obm_cmp. cbn [net_id net_mask].
  destruct (N.compare_spec m m') as [E | L | L].
  - rewrite N.compare_eq_iff. split.
    + intros ->. subst. reflexivity.
    + intros X. inversion X. reflexivity.
  - split; [discriminate | intros X; inversion X; lia].
  - split; [discriminate | intros X; inversion X; lia].
Qed.

Lemma obm_cmp_refl a : obm_cmp a a = Eq.
Proof. apply obm_cmp_eq. reflexivity. Qed.

Lemma obm_cmp_antisym a b : obm_cmp b a = CompOpp (obm_cmp a b).
Proof.
  unfold obm_cmp. rewrite (N.compare_antisym (net_mask b) (net_mask a)).
  destruct (net_mask b ?= net_mask a); cbn [CompOpp]; try reflexivity.
  apply N.compare_antisym.
Qed.

Lemma obm_lt_trans a b c : obm_cmp a b = Lt -> obm_cmp b c = Lt -> obm_cmp a c = Lt.
Proof.
  unfold obm_cmp.
  destruct (N.compare_spec (net_mask a) (net_mask b)) as [E1 | L1 | L1]; try discriminate;
  destruct (N.compare_spec (net_mask b) (net_mask c)) as [E2 | L2 | L2]; try discriminate;
  destruct (N.compare_spec (net_mask a) (net_mask c)) as [E3 | L3 | L3]; try lia; try reflexivity.
  rewrite !N.compare_lt_iff. lia.
Qed.

Lemma obm_not_gt_mask a b : obm_cmp a b <> Gt -> net_mask b <= net_mask a.
Proof.
  unfold obm_cmp. destruct (N.compare_spec (net_mask a) (net_mask b)) as [E | L | L]; intros H.
  - lia.
  - contradiction.
  - lia.
Qed.

Lemma obm_not_gt_masklen a b : wf_net a -> wf_net b -> obm_cmp a b <> Gt -> masklen b <= masklen a.
Proof. intros [Va _] [Vb _] H. apply (valid_mask_le_popcount _ _ Vb Va), obm_not_gt_mask, H. Qed.

Lemma obm_cmp_neqb a b : obm_cmp a b <> Eq -> net_eqb a b = false.
Proof.
  intros H. destruct (net_eqb a b) eqn:E; [| reflexivity].
  apply net_eqb_eq in E. subst. rewrite obm_cmp_refl in H. contradiction.
Qed.

Lemma obm_lt_neqb a b : obm_cmp a b = Lt -> net_eqb a b = false.
Proof. intros H. apply obm_cmp_neqb. rewrite H. discriminate. Qed.

Lemma net_eqb_sym a b : net_eqb a b = net_eqb b a.
Proof.
  destruct (net_eqb a b) eqn:E; symmetry.
  - apply net_eqb_eq in E. subst. apply net_eqb_refl.
  - destruct (net_eqb b a) eqn:E'; [| reflexivity].
    apply net_eqb_eq in E'. subst. rewrite net_eqb_refl in E. discriminate.
Qed.

Section Facts.
  Context {V : Type}.
  Implicit Types (t r : table V) (k n : net) (v : V).

  Fixpoint find t k : option V :=
    match t with
    | [] => None
    | (k', v) :: r => if net_eqb k k' then Some v else find r k
    end.

  Definition all_after k t : Prop := forall k' v', In (k', v') t -> obm_cmp k k' = Lt.

  Fixpoint sorted t : Prop :=
    match t with
    | [] => True
    | (k, _) :: r => all_after k r /\ sorted r
    end.

  Definition keys_wf t : Prop := forall k v, In (k, v) t -> wf_net k.

  (* what every reachable table satisfies *)
  Definition tbl_inv t : Prop := sorted t /\ keys_wf t.

  Lemma tbl_inv_nil : tbl_inv [].
  Proof. split; [exact I | intros k v []]. Qed.

  Lemma find_all_after t k : all_after k t -> find t k = None.
  Proof.
    induction t as [| [k0 v0] r IH]; intros A; [reflexivity |].
    cbn [find]. rewrite (obm_lt_neqb k k0) by (apply (A k0 v0); left; reflexivity).
    apply IH. intros k' v' H. apply (A k' v'). right. exact H.
  Qed.

  Lemma all_after_trans k k0 t : obm_cmp k k0 = Lt -> all_after k0 t -> all_after k t.
  Proof. intros L A k' v' H. apply (obm_lt_trans k k0 k' L). apply (A k' v' H). Qed.

  Lemma all_after_cons k k0 v0 t : obm_cmp k k0 = Lt -> all_after k0 t -> all_after k ((k0, v0) :: t).
  Proof.
    intros L A k' v' [X | X]; [inversion X; subst; exact L | exact (all_after_trans k k0 t L A k' v' X)].
  Qed.

  Lemma find_in t k v : sorted t -> (find t k = Some v <-> In (k, v) t).
  Proof.
    induction t as [| [k0 v0] r IH]; intros S.
    - split; [discriminate | intros []].
    - destruct S as [A S]. cbn [find In]. destruct (net_eqb k k0) eqn:E.
      + apply net_eqb_eq in E. subst k0. split.
        * intros X. inversion X. left. reflexivity.
        * intros [X | X]; [inversion X; reflexivity |].
          apply A in X. rewrite obm_cmp_refl in X. discriminate.
      + rewrite (IH S). split.
        * intros X. right. exact X.
        * intros [X | X]; [| exact X]. inversion X. subst.
          rewrite net_eqb_refl in E. discriminate.
  Qed.

  (* two ordered tables that agree as maps are the same list: the table is a function of the
     finite map it represents, hence independent of the order of the history *)
  Lemma sorted_ext t1 t2 : sorted t1 -> sorted t2 ->
    (forall k, find t1 k = find t2 k) -> t1 = t2.
  Proof.
    revert t2. induction t1 as [| [k1 v1] r1 IH]; intros t2 S1 S2 F.
    - destruct t2 as [| [k2 v2] r2]; [reflexivity |].
      specialize (F k2). cbn [find] in F. rewrite net_eqb_refl in F. discriminate.
    - destruct t2 as [| [k2 v2] r2].
      + specialize (F k1). cbn [find] in F. rewrite net_eqb_refl in F. discriminate.
      + destruct S1 as [A1 S1]. destruct S2 as [A2 S2].
        destruct (obm_cmp k1 k2) eqn:C.
        * apply obm_cmp_eq in C. subst k2.
          pose proof (F k1) as F1. cbn [find] in F1. rewrite net_eqb_refl in F1. inversion F1. subst v2.
          f_equal. apply IH; try assumption. intros k. specialize (F k). cbn [find] in F.
          destruct (net_eqb k k1) eqn:E; [| exact F].
          apply net_eqb_eq in E. subst k.
          rewrite (find_all_after r1 k1 A1), (find_all_after r2 k1 A2). reflexivity.
        * exfalso. pose proof (F k1) as F1. cbn [find] in F1. rewrite net_eqb_refl in F1.
          rewrite (obm_lt_neqb k1 k2 C) in F1.
          rewrite (find_all_after r2 k1 (all_after_trans k1 k2 r2 C A2)) in F1. discriminate.
        * exfalso. assert (C' : obm_cmp k2 k1 = Lt) by (rewrite obm_cmp_antisym, C; reflexivity).
          pose proof (F k2) as F2. cbn [find] in F2. rewrite net_eqb_refl in F2.
          rewrite (obm_lt_neqb k2 k1 C') in F2.
          rewrite (find_all_after r1 k2 (all_after_trans k2 k1 r1 C' A1)) in F2. discriminate.
  Qed.

  Definition fmap : Type := net -> option V.
  Definition fempty : fmap := fun _ => None.
  Definition upd (m : fmap) (k : net) (o : option V) : fmap :=
    fun k' => if net_eqb k' k then o else m k'.

  Lemma insert_spec k v t : sorted t ->
    exists t', tbl_insert k v t = (find t k, t') /\ sorted t' /\
      (forall k', find t' k' = upd (find t) k (Some v) k') /\
      (forall e, In e t' -> e = (k, v) \/ In e t).
  Proof.
    unfold upd. induction t as [| [k0 v0] r IH]; intros S; cbn [tbl_insert].
    - exists [(k, v)]. split; [reflexivity |]. split; [split; [intros k' v' [] | exact I] |].
      split; [reflexivity | intros e [X | []]; left; symmetry; exact X].
    - destruct S as [A S]. cbn [find]. destruct (obm_cmp k k0) eqn:C.
      + apply obm_cmp_eq in C. subst k0. rewrite net_eqb_refl. exists ((k, v) :: r).
        split; [reflexivity |]. split; [split; assumption |]. split.
        * intros k'. cbn [find]. destruct (net_eqb k' k); reflexivity.
        * intros e [X | X]; [left; symmetry; exact X | right; right; exact X].
      + pose proof (all_after_cons k k0 v0 r C A) as A'.
        rewrite (obm_lt_neqb k k0 C), (find_all_after r k (all_after_trans k k0 r C A)).
        exists ((k, v) :: (k0, v0) :: r). split; [reflexivity |]. split; [split; [exact A' | split; assumption] |].
        split; [reflexivity | intros e [X | X]; [left; symmetry; exact X | right; exact X]].
      + assert (Ne : obm_cmp k k0 <> Eq) by (rewrite C; discriminate).
        rewrite (obm_cmp_neqb k k0 Ne).
        destruct (IH S) as (r' & -> & S' & F & I'). exists ((k0, v0) :: r').
        split; [reflexivity |]. split; [| split].
        * split; [| exact S']. intros k' v' X. destruct (I' _ X) as [Y | Y].
          -- inversion Y. subst. rewrite obm_cmp_antisym, C. reflexivity.
          -- apply (A k' v' Y).
        * intros k'. cbn [find]. rewrite F. destruct (net_eqb k' k0) eqn:E0; [| reflexivity].
          destruct (net_eqb k' k) eqn:E; [| reflexivity].
          apply net_eqb_eq in E0. apply net_eqb_eq in E. subst. contradiction (Ne (obm_cmp_refl _)).
        * intros e [X | X]; [right; left; exact X |]. destruct (I' _ X) as [Y | Y]; [left; exact Y | right; right; exact Y].
  Qed.

  Lemma delete_spec k t : sorted t ->
    exists t', tbl_delete k t = (find t k, t') /\ sorted t' /\
      (forall k', find t' k' = upd (find t) k None k') /\
      (forall e, In e t' -> In e t).
  Proof.
    unfold upd. induction t as [| [k0 v0] r IH]; intros S; cbn [tbl_delete].
    - exists []. split; [reflexivity |]. split; [exact I |].
      split; [intros k'; cbn [find]; destruct (net_eqb k' k); reflexivity | intros e []].
    - destruct S as [A S]. cbn [find]. destruct (obm_cmp k k0) eqn:C.
      + apply obm_cmp_eq in C. subst k0. rewrite net_eqb_refl. exists r.
        split; [reflexivity |]. split; [exact S |]. split; [| intros e X; right; exact X].
        intros k'. destruct (net_eqb k' k) eqn:E; [| reflexivity].
        apply net_eqb_eq in E. subst k'. apply find_all_after. exact A.
      + rewrite (obm_lt_neqb k k0 C), (find_all_after r k (all_after_trans k k0 r C A)).
        exists ((k0, v0) :: r). split; [reflexivity |]. split; [split; assumption |]. split; [| intros e X; exact X].
        intros k'. destruct (net_eqb k' k) eqn:E; [| reflexivity].
        apply net_eqb_eq in E. subst k'. apply find_all_after. exact (all_after_cons k k0 v0 r C A).
      + assert (Ne : obm_cmp k k0 <> Eq) by (rewrite C; discriminate).
        rewrite (obm_cmp_neqb k k0 Ne).
        destruct (IH S) as (r' & -> & S' & F & I'). exists ((k0, v0) :: r').
        split; [reflexivity |]. split; [| split].
        * split; [| exact S']. intros k' v' X. apply (A k' v'), I', X.
        * intros k'. cbn [find]. rewrite F. destruct (net_eqb k' k0) eqn:E0; [| reflexivity].
          destruct (net_eqb k' k) eqn:E; [| reflexivity].
          apply net_eqb_eq in E0. apply net_eqb_eq in E. subst. contradiction (Ne (obm_cmp_refl _)).
        * intros e [X | X]; [left; exact X | right; apply I', X].
  Qed.

  Lemma insert_ok k v t : tbl_inv t -> wf_net k ->
    exists t', tbl_insert k v t = (find t k, t') /\ tbl_inv t' /\ forall k', find t' k' = upd (find t) k (Some v) k'.
  Proof.
    intros [S W] Wk. destruct (insert_spec k v t S) as (t' & E & S' & F & I'). exists t'.
    split; [exact E |]. split; [| exact F]. split; [exact S' |].
    intros k' v' X. destruct (I' _ X) as [Y | Y]; [inversion Y; subst; exact Wk | exact (W k' v' Y)].
  Qed.

  Lemma delete_ok k t : tbl_inv t ->
    exists t', tbl_delete k t = (find t k, t') /\ tbl_inv t' /\ forall k', find t' k' = upd (find t) k None k'.
  Proof.
    intros [S W]. destruct (delete_spec k t S) as (t' & E & S' & F & I'). exists t'.
    split; [exact E |]. split; [| exact F]. split; [exact S' |]. intros k' v' X. exact (W k' v' (I' _ X)).
  Qed.

  (* the /32 network of an address *)
  Definition direct_net (a : N) : net := mkNet a max32.

  (* the finite-map meaning of each public mutator *)
  Definition denote_step (m : fmap) (o : op V) : fmap :=
    match o with
    | OAdd n v => upd m n (Some v)
    | ORemove n => upd m n None
    | OAddDirect a v => upd m (direct_net a) (Some v)
    | ORemoveDirect a => upd m (direct_net a) None
    | OAddCidr s v => match from_cidr s with Ok n => upd m n (Some v) | _ => m end
    | ORemoveCidr s => match from_cidr s with Ok n => upd m n None | _ => m end
    end.

  Definition denote (ops : list (op V)) (m : fmap) : fmap := fold_left denote_step ops m.

  (* arguments a caller can actually pass: constructible networks, u32 addresses, and (for
     remove_cidr, which panics by contract otherwise) well-formed text *)
  Definition op_ok (o : op V) : Prop :=
    match o with
    | OAdd n _ | ORemove n => wf_net n
    | OAddDirect a _ | ORemoveDirect a => a < two32
    | OAddCidr _ _ => True
    | ORemoveCidr s => exists n, from_cidr s = Ok n
    end.

  (* what the call hands back to its caller *)
  Definition returned (t : table V) (o : op V) : option V :=
    match o with
    | OAdd n _ | ORemove n => find t n
    | ORemoveDirect a => find t (direct_net a)
    | _ => None
    end.

  Lemma direct_net_is_new a : a < two32 -> net_new a max32 = direct_net a.
  Proof. intros H. apply (net_new_1_is_new a H). Qed.

  Lemma step_obs_spec t o : tbl_inv t -> op_ok o ->
    exists t', step_obs t o = Ok (t', returned t o) /\ tbl_inv t' /\
               forall k, find t' k = denote_step (find t) o k.
  Proof.
    intros Inv Ok_o.
    destruct o as [n v | n | a v | a | s v | s]; cbn [op_ok] in Ok_o; cbn [step_obs returned denote_step].
    - destruct (insert_ok n v t Inv Ok_o) as (t' & -> & I' & F). exists t'. auto.
    - destruct (delete_ok n t Inv) as (t' & -> & I' & F). exists t'. auto.
    - rewrite from_bitcount_spec. cbn [bind]. change (prefix_mask (N.min 32 32)) with max32.
      rewrite (direct_net_is_new a Ok_o).
      destruct (insert_ok (direct_net a) v t Inv (net_new_1_wf a Ok_o)) as (t' & -> & I' & F). exists t'. auto.
    - rewrite from_bitcount_spec. cbn [bind]. change (prefix_mask (N.min 32 32)) with max32.
      rewrite (direct_net_is_new a Ok_o).
      destruct (delete_ok (direct_net a) t Inv) as (t' & -> & I' & F). exists t'. auto.
    - destruct (from_cidr_sound s) as [[n [E Wn]] | [e E]]; rewrite E.
      + destruct (insert_ok n v t Inv Wn) as (t' & -> & I' & F). exists t'. auto.
      + exists t. auto.
    - destruct Ok_o as [n E]. rewrite E.
      destruct (delete_ok n t Inv) as (t' & -> & I' & F). exists t'. auto.
  Qed.

  Lemma step_remove_cidr_malformed t s e :
    from_cidr s = Err e -> step t (ORemoveCidr s) = Panic site_remove_cidr.
  Proof. intros E. unfold step, step_obs. rewrite E. reflexivity. Qed.

  Lemma fmap_ext_step (m m' : fmap) o : (forall k, m k = m' k) ->
    forall k, denote_step m o k = denote_step m' o k.
  Proof.
    intros E k. destruct o as [n v | n | a v | a | s v | s]; cbn [denote_step]; unfold upd;
      try (destruct (net_eqb k _); [reflexivity | apply E]).
    - destruct (from_cidr s); try apply E. unfold upd. destruct (net_eqb k a); [reflexivity | apply E].
    - destruct (from_cidr s); try apply E. unfold upd. destruct (net_eqb k a); [reflexivity | apply E].
  Qed.

  Lemma fmap_ext_denote ops (m m' : fmap) : (forall k, m k = m' k) ->
    forall k, denote ops m k = denote ops m' k.
  Proof.
    revert m m'. induction ops as [| o ops IH]; intros m m' E k; [apply E |].
    cbn [denote fold_left]. apply IH. apply fmap_ext_step. exact E.
  Qed.

  Lemma run_spec ops : Forall op_ok ops -> forall t, tbl_inv t ->
    exists t', run ops t = Ok t' /\ tbl_inv t' /\ forall k, find t' k = denote ops (find t) k.
  Proof.
    induction 1 as [| o ops Ho Hops IH]; intros t Inv.
    - exists t. split; [reflexivity |]. split; [exact Inv |]. reflexivity.
    - destruct (step_obs_spec t o Inv Ho) as [t1 [E [Inv1 F1]]].
      destruct (IH t1 Inv1) as [t' [E' [Inv' F']]].
      exists t'. cbn [run]. unfold step. rewrite E. cbn [bind fst]. split; [exact E' |].
      split; [exact Inv' |]. intros k. rewrite F'. cbn [denote fold_left].
      apply fmap_ext_denote. exact F1.
  Qed.

  Lemma run_from_empty ops : Forall op_ok ops ->
    exists t, run ops [] = Ok t /\ tbl_inv t /\ forall k, find t k = denote ops fempty k.
  Proof. intros H. apply (run_spec ops H [] tbl_inv_nil). Qed.

  Lemma run_canonical ops1 ops2 : Forall op_ok ops1 -> Forall op_ok ops2 ->
    (forall k, denote ops1 fempty k = denote ops2 fempty k) -> run ops1 [] = run ops2 [].
  Proof.
    intros H1 H2 E.
    destruct (run_from_empty ops1 H1) as [t1 [E1 [[S1 _] F1]]].
    destruct (run_from_empty ops2 H2) as [t2 [E2 [[S2 _] F2]]].
    rewrite E1, E2. f_equal. apply sorted_ext; try assumption.
    intros k. rewrite F1, F2. apply E.
  Qed.

  Lemma denote_app ops1 ops2 m : denote (ops1 ++ ops2) m = denote ops2 (denote ops1 m).
  Proof. unfold denote. apply fold_left_app. Qed.

  Lemma add_twice_replaces ops n v1 v2 : Forall op_ok ops -> wf_net n ->
    run (ops ++ [OAdd n v1; OAdd n v2]) [] = run (ops ++ [OAdd n v2]) [].
  Proof.
    intros H W. apply run_canonical.
    - apply Forall_app. split; [exact H |]. repeat (apply Forall_cons; [exact W |]). apply Forall_nil.
    - apply Forall_app. split; [exact H |]. repeat (apply Forall_cons; [exact W |]). apply Forall_nil.
    - intros k. rewrite !denote_app. cbn [denote fold_left denote_step]. unfold upd.
      destruct (net_eqb k n); reflexivity.
  Qed.

  Lemma unrelated_steps_commute ops n1 o1 n2 o2 rest :
    Forall op_ok ops -> Forall op_ok rest -> wf_net n1 -> wf_net n2 -> n1 <> n2 ->
    let mk (n : net) (o : option V) := match o with Some v => OAdd n v | None => ORemove n end in
    run (ops ++ [mk n1 o1; mk n2 o2] ++ rest) [] = run (ops ++ [mk n2 o2; mk n1 o1] ++ rest) [].
  Proof.
    intros H Hr W1 W2 Ne mk.
    assert (Okm : forall n o, wf_net n -> op_ok (mk n o)) by (intros n [v |] W; exact W).
    assert (Dm : forall m n o, forall k, denote_step m (mk n o) k = upd m n o k)
      by (intros m n [v |] k; reflexivity).
    assert (Ok2 : forall n o n' o', wf_net n -> wf_net n' -> Forall op_ok (ops ++ [mk n o; mk n' o'] ++ rest)).
    { intros n o n' o' W W'. apply Forall_app. split; [exact H |]. apply Forall_app. split; [| exact Hr].
      apply Forall_cons; [apply Okm, W |]. apply Forall_cons; [apply Okm, W' |]. apply Forall_nil. }
    apply run_canonical; [apply Ok2; assumption | apply Ok2; assumption |].
    - intros k. rewrite !denote_app. apply fmap_ext_denote. clear k. intros k.
      cbn [denote fold_left]. rewrite (Dm _ n2 o2 k), (Dm _ n1 o1 k). unfold upd.
      rewrite (Dm _ n1 o1 k), (Dm _ n2 o2 k). unfold upd.
      destruct (net_eqb k n1) eqn:E1; destruct (net_eqb k n2) eqn:E2; try reflexivity.
      apply net_eqb_eq in E1. apply net_eqb_eq in E2. congruence.
  Qed.

  Lemma get_recipient_none t a :
    get_recipient t a = None <-> forall n v, In (n, v) t -> contains n a = false.
  Proof.
    induction t as [| [n0 v0] r IH]; cbn [get_recipient].
    - split; [intros _ n v [] | reflexivity].
    - destruct (contains n0 a) eqn:C.
      + split; [discriminate |]. intros H. rewrite (H n0 v0) in C by (left; reflexivity). discriminate.
      + rewrite IH. split.
        * intros H n v [X | X]; [inversion X; subst; exact C | apply (H n v X)].
        * intros H n v X. apply (H n v). right. exact X.
  Qed.

  Lemma get_recipient_first t a v : sorted t -> get_recipient t a = Some v ->
    exists n, In (n, v) t /\ contains n a = true /\
              forall n' v', In (n', v') t -> contains n' a = true -> obm_cmp n n' <> Gt.
  Proof.
    induction t as [| [n0 v0] r IH]; intros S G; [discriminate |].
    destruct S as [A S]. cbn [get_recipient] in G. destruct (contains n0 a) eqn:C.
    - inversion G. subst v0. exists n0. split; [left; reflexivity |]. split; [exact C |].
      intros n' v' [X | X] _.
      + inversion X. subst. rewrite obm_cmp_refl. discriminate.
      + rewrite (A n' v' X). discriminate.
    - destruct (IH S G) as [n [I' [Cn M]]]. exists n. split; [right; exact I' |]. split; [exact Cn |].
      intros n' v' [X | X] C'.
      + inversion X. subst. rewrite C in C'. discriminate.
      + apply (M n' v' X C').
  Qed.

  Lemma lpm_some t a v : tbl_inv t ->
    (get_recipient t a = Some v <->
     exists n, In (n, v) t /\ contains n a = true /\
               forall n' v', In (n', v') t -> contains n' a = true -> masklen n' <= masklen n).
  Proof.
    intros [S W]. split.
    - intros G. destruct (get_recipient_first t a v S G) as [n [I' [C M]]].
      exists n. split; [exact I' |]. split; [exact C |]. intros n' v' X C'.
      exact (obm_not_gt_masklen n n' (W n v I') (W n' v' X) (M n' v' X C')).
    - intros [n [I' [C M]]].
      destruct (get_recipient t a) as [v0 |] eqn:G.
      + destruct (get_recipient_first t a v0 S G) as [n0 [I0 [C0 M0]]].
        pose proof (obm_not_gt_masklen n0 n (W n0 v0 I0) (W n v I') (M0 n v I' C)) as L1.
        pose proof (M n0 v0 I0 C0) as L2.
        assert (n = n0).
        { apply (contains_same_len n n0 a (W n v I') (W n0 v0 I0) C C0). lia. }
        subst n0. apply (find_in t n v S) in I'. apply (find_in t n v0 S) in I0. congruence.
      + exfalso. rewrite get_recipient_none in G. rewrite (G n v I') in C. discriminate.
  Qed.

  Lemma lpm_history ops : Forall op_ok ops ->
    exists t, run ops [] = Ok t /\
      (forall a v,
         get_recipient t a = Some v <->
         exists n, denote ops fempty n = Some v /\ contains n a = true /\
                   forall n' v', denote ops fempty n' = Some v' -> contains n' a = true ->
                                 masklen n' <= masklen n) /\
      (forall a,
         get_recipient t a = None <->
         forall n v, denote ops fempty n = Some v -> contains n a = false).
  Proof.
    intros H. destruct (run_from_empty ops H) as [t [E [Inv F]]]. pose proof Inv as [S W].
    assert (Hin : forall n v, In (n, v) t <-> denote ops fempty n = Some v).
    { intros n v. rewrite <- F. symmetry. apply find_in. exact S. }
    exists t. split; [exact E |]. split.
    - intros a v. rewrite (lpm_some t a v Inv).
      split; intros [n [I' [C M]]]; exists n; (split; [apply Hin; exact I' |]); (split; [exact C |]);
        intros n' v' D; apply (M n' v'); apply Hin; exact D.
    - intros a. rewrite get_recipient_none. split; intros G n v D; apply (G n v); apply Hin; exact D.
  Qed.

  Lemma iter_history ops : Forall op_ok ops ->
    exists t, run ops [] = Ok t /\ sorted (tbl_iter t) /\
      forall n v, In (n, v) (tbl_iter t) <-> denote ops fempty n = Some v.
  Proof.
    intros H. destruct (run_from_empty ops H) as [t [E [[S W] F]]].
    exists t. split; [exact E |]. split; [exact S |]. intros n v. unfold tbl_iter.
    rewrite <- F. symmetry. apply find_in. exact S.
  Qed.

  Lemma sorted_masklen k t k' v' : keys_wf ((k, v') :: t) -> all_after k t -> In (k', v') t ->
    masklen k' <= masklen k.
  Proof.
    intros W A X. apply (obm_not_gt_masklen k k' (W k v' (or_introl eq_refl)) (W k' v' (or_intror X))).
    rewrite (A k' v' X). discriminate.
  Qed.
End Facts.
