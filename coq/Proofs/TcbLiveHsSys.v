(* C01 liveness: the handshake reaches a quiescent state, for every configuration: passive open
   (B listens, A opens) and simultaneous open, each followed by two loss-free rounds. *)
From Elvis Require Import Model.Base Model.U32 Model.Tcb Model.TcpNet Proofs.U32Facts Proofs.TcbSafetyDefs
  Proofs.TcbSafetySnd Proofs.TcbLive Proofs.TcbLiveSys Proofs.TcbLiveThm Proofs.TcbLiveHs.
Local Open Scope Z_scope.

Ltac sys_simpl :=
  cbn [set_end set_net set_sub set_del end_of net_of sub_of del_of
       endA endB netA netB subA subB delA delB panicked other] in *.

(* turn the endpoints in the goal into literal records (deeply nested setters make every later
   conversion check expensive) *)
Ltac tcb_norm :=
  cbv [flushed option_map tcb_open listen_tcb enqueue ack_hdr hb hb_ack hb_wnd hb_flag hb_syn hb_fin hb_rst ctl0
       set_st set_snd_una set_snd_nxt set_snd_window set_rcv_irs set_rcv_nxt set_out_text
       set_retx set_oneshot set_fin_pending set_in_segs set_in_text set_rto set_time_wait
       lport rport mtu listen_init st snd_una snd_nxt snd_wnd snd_wl1 snd_wl2 snd_iss
       rcv_irs rcv_nxt rcv_wnd out_text retx oneshot fin_pending in_segs in_text rto time_wait
       h_sport h_dport h_seq h_ack h_ctl h_wnd h_urg c_urg c_ack c_psh c_rst c_syn c_fin
       s_hdr s_text t_seg t_needs orb app map].

(* normal form of segments() when there is nothing to segmentize *)
Lemma segments_flush t :
  out_text t = [] -> fin_pending t = false -> segmentizes (st t) = true -> 50 <= mtu t ->
  exists t', tcb_segments t = Ok (t', map (fun h => mkSeg h []) (oneshot t) ++ map t_seg (filter t_needs (retx t))) /\
    t' = (let t2 := set_retx (set_oneshot t []) (map (fun tx => mkTx (t_seg tx) false) (retx t)) in
          match map t_seg (filter t_needs (retx t)) with [] => t2 | _ => set_rto t2 RTO end).
Proof. intros. eexists. split; [apply segments_nothing_new; assumption|reflexivity]. Qed.

Section Hs.
  Variable c : config.
  Hypothesis Hc : cfg_ok c.

  Definition fresh (s : sys) : Prop := subA s = [] /\ subB s = [] /\ delA s = [] /\ delB s = [].

  Lemma handshake_passive :
    Quiescent c (run c (init_sys true) [LOpen SA; LFair 2]) (wadd (issA c) 1) (wadd (issB c) 1) /\
    fresh (run c (init_sys true) [LOpen SA; LFair 2]).
  Proof.
    destruct Hc as (HuA & HuB & HmA & HmB).
    cbn [run fold_left].
    set (tA0 := tcb_open (portA c) (portB c) (issA c) (mtuA c)).
    assert (E0 : fst (sys_step c (init_sys true) (LOpen SA)) =
                 mkSys (ELive tA0) EListen [] [] [] [] [] [] false) by reflexivity.
    rewrite E0. clear E0. set (s1 := mkSys _ _ _ _ _ _ _ _ _).
    rewrite (fairk c s1 2 eq_refl). cbn [fair_rounds].
    (* half-round 1 (A): the SYN and its retransmitted copy *)
    set (synh := hb_wnd (hb_syn (mkHdr (portA c) (portB c) (issA c) 0 ctl0 0 0)) DEFAULT_WND).
    set (syn := mkSeg synh []).
    assert (Hsyn : syn_only synh) by (unfold syn_only; auto).
    assert (E1 : tcb_segments tA0 =
                 Ok (set_rto (set_retx (set_oneshot tA0 []) [mkTx syn false]) RTO, [syn])).
    { rewrite segments_nothing_new; try reflexivity. cbn. lia. }
    set (tA1 := set_rto _ RTO) in E1.
    pose proof (advance_101 tA1 eq_refl eq_refl) as E2.
    change (retx tA1) with [mkTx syn false] in E2. cbn [map t_seg] in E2.
    set (tA2 := set_retx _ _) in E2.
    assert (E3 : tcb_segments tA2 =
                 Ok (set_rto (set_retx (set_oneshot tA2 []) [mkTx syn false]) RTO, [syn])).
    { rewrite segments_nothing_new; try reflexivity. cbn. lia. }
    set (tA3 := set_rto _ RTO) in E3.
    assert (H1 : fair_half c s1 SA =
      mkSys (ELive (set_in_text tA3 []))
            (ELive (set_in_text (set_oneshot (set_in_segs (listen_tcb synh (issB c) (mtuB c)) [])
                                             [ack_hdr (listen_tcb synh (issB c) (mtuB c))]) []))
            [] [] [] [] [] [] false).
    { unfold fair_half, fair_half_t.
      rewrite (tick_eval s1 SA tA0 tA1 [syn] tA2 101 eq_refl E1 E2). subst s1. sys_simpl. cbn [app].
      set (s1' := mkSys _ _ _ _ _ _ _ _ _).
      rewrite (emit_eval s1' SA tA2 tA3 [syn] eq_refl E3). cbn iota beta. subst s1'. sys_simpl. cbn [app length].
      cbn iota.
      (* first SYN: LISTEN creates the TCB *)
      rewrite deliver_all_cons with (seg := syn) (rest := [syn]) by reflexivity. sys_simpl.
      unfold arrive at 1. sys_simpl. fold syn.
      change (iss_of c SB) with (issB c). change (mtu_of c SB) with (mtuB c).
      assert (EL : arrives_listen syn (issB c) (mtuB c) = LTcb (listen_tcb synh (issB c) (mtuB c)))
        by (apply syn_to_listen; exact Hsyn).
      rewrite EL. cbn [fst]. sys_simpl.
      set (tB0 := listen_tcb synh (issB c) (mtuB c)).
      (* second SYN: a duplicate in SYN-RECEIVED *)
      rewrite deliver_all_cons with (seg := syn) (rest := []) by reflexivity. sys_simpl.
      assert (E4 : segment_arrives tB0 syn =
                   Ok (set_oneshot (set_in_segs tB0 []) (oneshot tB0 ++ [ack_hdr tB0]), AOk)).
      { eapply dup_syn_after_listen; try reflexivity; try assumption. }
      erewrite (arrive_eval c _ SB tB0 syn); [|reflexivity|exact E4]. sys_simpl.
      rewrite deliver_all_nil by reflexivity.
      (* reads *)
      erewrite (recv_eval_empty _ SA (tA3)); [|reflexivity|reflexivity]. sys_simpl.
      erewrite (recv_eval_empty _ SB (set_oneshot (set_in_segs tB0 []) (oneshot tB0 ++ [ack_hdr tB0]))); [|reflexivity|reflexivity].
      sys_simpl. reflexivity. }
    rewrite H1. clear H1 E1 E2 E3. subst tA3 tA2 tA1 tA0. tcb_norm.
    match goal with |- context [mkSys (ELive ?a) (ELive ?b)] => set (tA4 := a); set (tB1 := b) end.
    set (s2 := mkSys _ _ _ _ _ _ _ _ _).
    (* half-round 1 (B): bare ACK, SYN-ACK and its copy *)
    set (ackB := ack_hdr tB1).
    set (sah := hb_wnd (hb_ack (hb_syn (mkHdr (portB c) (portA c) (issB c) 0 ctl0 0 0)) (wadd (issA c) 1)) DEFAULT_WND).
    set (synack := mkSeg sah []).
    (* what A does with the three segments *)
    assert (G1 : segment_arrives tA4 (mkSeg ackB []) = Ok (set_in_segs tA4 [], AOk)).
    { apply (ack_in_synsent tA4 ackB (issA c)); try reflexivity; try assumption; try apply ack_hdr_ack_only. }
    set (tA5 := set_in_segs tA4 []) in G1.
    pose proof (synack_in_synsent tA5 sah (issA c) (mkTx syn false) eq_refl eq_refl HuA eq_refl eq_refl eq_refl
                  eq_refl eq_refl eq_refl eq_refl eq_refl eq_refl eq_refl eq_refl) as G2.
    cbv zeta in G2. fold synack in G2. set (tA6 := set_oneshot _ _) in G2.
    assert (G3 : segment_arrives tA6 synack =
                 Ok (set_oneshot (set_in_segs tA6 []) (oneshot tA6 ++ [ack_hdr tA6]), AOk)).
    { apply syn_dup_established; try reflexivity; try assumption. intros _. apply mod_leq_refl. }
    set (tA7 := set_oneshot (set_in_segs tA6 []) _) in G3.
    rewrite (fair_half_flush c s2 SB tB1 tA4 ([mkSeg ackB []; synack] ++ [synack]) (Live tA7)); [|reflexivity..|cbn; lia|].
    2: { unfold s2. cbn [net_of netA netB app]. rewrite (feed_cons _ _ _ _ G1), (feed_cons _ _ _ _ G2), (feed_cons _ _ _ _ G3). reflexivity. }
    clear G1 G2 G3. subst tA7 tA6 tA5 tA4 tB1 s2. sys_simpl. cbn [fed_end]. tcb_norm.
    match goal with |- context [mkSys (ELive ?a) (ELive ?b)] => set (tA8 := a); set (tB5 := b) end.
    set (s3 := mkSys _ _ _ _ _ _ _ _ _).
    (* half-round 2 (A): the ACK of the SYN-ACK and its copy *)
    set (ackA := ack_hdr tA8).
    pose proof (ack_in_synrcvd_all tB5 ackA (issB c) eq_refl eq_refl eq_refl
                  ltac:(apply wadd_u32) HuB eq_refl eq_refl ltac:(repeat constructor)
                  (ack_hdr_ack_only tA8) eq_refl eq_refl) as M1.
    set (tB6 := set_snd_window _ _ _ _) in M1.
    assert (M2 : segment_arrives tB6 (mkSeg ackA []) = Ok (set_in_segs tB6 [], AOk)).
    { apply ack_noop_arrives; try reflexivity.
      - apply wadd_u32.
      - apply ack_hdr_ack_only.
      - apply mod_leq_refl. }
    set (tB7 := set_in_segs tB6 []) in M2.
    rewrite (fair_half_flush c s3 SA tA8 tB5 ([mkSeg ackA []; mkSeg ackA []] ++ []) (Live tB7)); [|reflexivity..|cbn; lia|].
    2: { unfold s3. cbn [net_of netA netB app]. rewrite (feed_cons _ _ _ _ M1), (feed_cons _ _ _ _ M2). reflexivity. }
    clear M1 M2. subst tA8 tB7 tB6 tB5 s3. sys_simpl. cbn [fed_end]. tcb_norm.
    match goal with |- context [mkSys (ELive ?a) (ELive ?b)] => set (tA12 := a); set (tB8 := b) end.
    set (s4 := mkSys _ _ _ _ _ _ _ _ _).
    (* both endpoints are quiet now *)
    assert (QA : quiet tA12 (wadd (issA c) 1) (wadd (issB c) 1)).
    { unfold quiet. splits; try reflexivity; try apply wadd_u32; cbn; lia. }
    assert (QB : quiet tB8 (wadd (issB c) 1) (wadd (issA c) 1)).
    { unfold quiet. splits; try reflexivity; try apply wadd_u32; cbn; lia. }
    (* half-round 2 (B): nothing to do *)
    rewrite (half_idle c s4 SB tB8 tA12 _ _ eq_refl QB eq_refl eq_refl eq_refl).
    split; [|unfold fresh; auto].
    exists tA12, tB8. splits; try reflexivity; assumption.
  Qed.

  (* simultaneous open: both sides open actively, two loss-free rounds *)
  Lemma handshake_simultaneous :
    Quiescent c (run c (init_sys false) [LOpen SA; LOpen SB; LFair 2]) (wadd (issA c) 1) (wadd (issB c) 1) /\
    fresh (run c (init_sys false) [LOpen SA; LOpen SB; LFair 2]).
  Proof.
    destruct Hc as (HuA & HuB & HmA & HmB).
    cbn [run fold_left].
    set (tA0 := tcb_open (portA c) (portB c) (issA c) (mtuA c)).
    set (tB0 := tcb_open (portB c) (portA c) (issB c) (mtuB c)).
    assert (E0 : fst (sys_step c (fst (sys_step c (init_sys false) (LOpen SA))) (LOpen SB)) =
                 mkSys (ELive tA0) (ELive tB0) [] [] [] [] [] [] false) by reflexivity.
    rewrite E0. clear E0. set (s1 := mkSys _ _ _ _ _ _ _ _ _).
    rewrite (fairk c s1 2 eq_refl). cbn [fair_rounds].
    (* half-round 1 (A): A's SYN and its copy reach B in SYN-SENT *)
    set (synAh := hb_wnd (hb_syn (mkHdr (portA c) (portB c) (issA c) 0 ctl0 0 0)) DEFAULT_WND).
    set (synA := mkSeg synAh []).
    set (synBh := hb_wnd (hb_syn (mkHdr (portB c) (portA c) (issB c) 0 ctl0 0 0)) DEFAULT_WND).
    set (synB := mkSeg synBh []).
    assert (HsynA : syn_only synAh) by (unfold syn_only; auto).
    assert (HsynB : syn_only synBh) by (unfold syn_only; auto).
    pose proof (syn_in_synsent tB0 synAh eq_refl eq_refl eq_refl HsynA) as E4.
    cbv zeta in E4. fold synA in E4. set (tB1 := set_retx _ _) in E4.
    assert (E5 : segment_arrives tB1 synA =
                 Ok (set_oneshot (set_in_segs tB1 []) (oneshot tB1 ++ [ack_hdr tB1]), AOk)).
    { apply dup_syn_arrives; try reflexivity; assumption. }
    set (tB2 := set_oneshot _ _) in E5.
    rewrite (fair_half_flush c s1 SA tA0 tB0 ([synA] ++ [synA]) (Live tB2)); [|reflexivity..|cbn; lia|].
    2: { unfold s1. cbn [net_of netA netB app]. rewrite (feed_cons _ _ _ _ E4), (feed_cons _ _ _ _ E5). reflexivity. }
    clear E4 E5. subst tA0 tB2 tB1 tB0 s1. sys_simpl. cbn [fed_end]. tcb_norm.
    match goal with |- context [mkSys (ELive ?a) (ELive ?b)] => set (tA4 := a); set (tB3 := b) end.
    set (s2 := mkSys _ _ _ _ _ _ _ _ _).
    (* half-round 1 (B): bare ACK, SYN, SYN-ACK and the two copies *)
    set (ackB := ack_hdr tB3).
    set (sah := hb_wnd (hb_ack (hb_syn (mkHdr (portB c) (portA c) (issB c) 0 ctl0 0 0)) (wadd (issA c) 1)) DEFAULT_WND).
    set (synackB := mkSeg sah []).
    assert (G1 : segment_arrives tA4 (mkSeg ackB []) = Ok (set_in_segs tA4 [], AOk)).
    { apply (ack_in_synsent tA4 ackB (issA c)); try reflexivity; try assumption; try apply ack_hdr_ack_only. }
    set (tA5 := set_in_segs tA4 []) in G1.
    pose proof (syn_in_synsent tA5 synBh eq_refl eq_refl eq_refl HsynB) as G2.
    cbv zeta in G2. fold synB in G2. set (tA6 := set_retx _ _) in G2.
    pose proof (synack_in_synrcvd tA6 sah (issA c) eq_refl eq_refl eq_refl HuB eq_refl HuA eq_refl eq_refl) as G3.
    specialize (G3 ltac:(repeat constructor) eq_refl eq_refl eq_refl eq_refl eq_refl).
    cbv zeta in G3. fold synackB in G3. set (tA7 := set_oneshot _ _) in G3.
    assert (G4 : segment_arrives tA7 synB =
                 Ok (set_oneshot (set_in_segs tA7 []) (oneshot tA7 ++ [ack_hdr tA7]), AOk)).
    { apply syn_dup_established; try reflexivity; try assumption. intros E; discriminate E. }
    set (tA8 := set_oneshot (set_in_segs tA7 []) _) in G4.
    assert (G5 : segment_arrives tA8 synackB =
                 Ok (set_oneshot (set_in_segs tA8 []) (oneshot tA8 ++ [ack_hdr tA8]), AOk)).
    { apply syn_dup_established; try reflexivity; try assumption. intros _. apply mod_leq_refl. }
    set (tA9 := set_oneshot (set_in_segs tA8 []) _) in G5.
    rewrite (fair_half_flush c s2 SB tB3 tA4 ([mkSeg ackB []; synB; synackB] ++ [synB; synackB]) (Live tA9)); [|reflexivity..|cbn; lia|].
    2: { unfold s2. cbn [net_of netA netB app]. rewrite (feed_cons _ _ _ _ G1), (feed_cons _ _ _ _ G2), (feed_cons _ _ _ _ G3), (feed_cons _ _ _ _ G4), (feed_cons _ _ _ _ G5). reflexivity. }
    clear G1 G2 G3 G4 G5. subst tA9 tA8 tA7 tA6 tA5 tA4 tB3 s2. sys_simpl. cbn [fed_end]. tcb_norm.
    match goal with |- context [mkSys (ELive ?a) (ELive ?b)] => set (tA10 := a); set (tB7 := b) end.
    set (s3 := mkSys _ _ _ _ _ _ _ _ _).
    (* half-round 2 (A): three ACKs *)
    set (ackA := ack_hdr tA10).
    pose proof (ack_in_synrcvd_all tB7 ackA (issB c) eq_refl eq_refl eq_refl
                  ltac:(apply wadd_u32) HuB eq_refl eq_refl ltac:(repeat constructor)
                  (ack_hdr_ack_only tA10) eq_refl eq_refl) as M1.
    set (tB8 := set_snd_window _ _ _ _) in M1.
    assert (M2 : segment_arrives tB8 (mkSeg ackA []) = Ok (set_in_segs tB8 [], AOk)).
    { apply ack_noop_arrives; try reflexivity.
      - apply wadd_u32.
      - apply ack_hdr_ack_only.
      - apply mod_leq_refl. }
    set (tB9 := set_in_segs tB8 []) in M2.
    assert (M3 : segment_arrives tB9 (mkSeg ackA []) = Ok (set_in_segs tB9 [], AOk)).
    { apply ack_noop_arrives; try reflexivity.
      - apply wadd_u32.
      - apply ack_hdr_ack_only.
      - apply mod_leq_refl. }
    set (tB10 := set_in_segs tB9 []) in M3.
    rewrite (fair_half_flush c s3 SA tA10 tB7 ([mkSeg ackA []; mkSeg ackA []; mkSeg ackA []] ++ []) (Live tB10)); [|reflexivity..|cbn; lia|].
    2: { unfold s3. cbn [net_of netA netB app]. rewrite (feed_cons _ _ _ _ M1), (feed_cons _ _ _ _ M2), (feed_cons _ _ _ _ M3). reflexivity. }
    clear M1 M2 M3. subst tA10 tB10 tB9 tB8 tB7 s3. sys_simpl. cbn [fed_end]. tcb_norm.
    match goal with |- context [mkSys (ELive ?a) (ELive ?b)] => set (tA14 := a); set (tB11 := b) end.
    set (s4 := mkSys _ _ _ _ _ _ _ _ _).
    assert (QA : quiet tA14 (wadd (issA c) 1) (wadd (issB c) 1)).
    { unfold quiet. splits; try reflexivity; try apply wadd_u32; cbn; lia. }
    assert (QB : quiet tB11 (wadd (issB c) 1) (wadd (issA c) 1)).
    { unfold quiet. splits; try reflexivity; try apply wadd_u32; cbn; lia. }
    rewrite (half_idle c s4 SB tB11 tA14 _ _ eq_refl QB eq_refl eq_refl eq_refl).
    split; [|unfold fresh; auto].
    exists tA14, tB11. splits; try reflexivity; assumption.
  Qed.
End Hs.
