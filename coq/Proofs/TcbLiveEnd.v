(* C01 liveness: open (passive or simultaneous) reaches a quiescent state, for every configuration. *)
From Elvis Require Import Model.Base Model.U32 Model.Tcb Model.TcpNet Proofs.TcbSafetyDefs Proofs.TcbLiveThm
  Proofs.TcbLiveHsSys.
Local Open Scope Z_scope.

Definition open_trace (listenB : bool) : list label :=
  if listenB then [LOpen SA; LFair 2] else [LOpen SA; LOpen SB; LFair 2].

Lemma handshake_explicit : forall (c : config) (listenB : bool),
  u32 (issA c) -> u32 (issB c) -> 100 <= mtuA c <= 65535 -> 100 <= mtuB c <= 65535 ->
  let s := run c (init_sys listenB) (open_trace listenB) in
  Quiescent c s (wadd (issA c) 1) (wadd (issB c) 1) /\
  subA s = [] /\ subB s = [] /\ delA s = [] /\ delB s = [].
Proof.
  intros c listenB H1 H2 H3 H4 s. assert (Hc : cfg_ok c) by (unfold cfg_ok; auto).
  subst s. destruct listenB; cbn [open_trace].
  - apply (handshake_passive c Hc).
  - apply (handshake_simultaneous c Hc).
Qed.
