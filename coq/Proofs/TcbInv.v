(* C17: the single-endpoint invariant of Model/Tcb.v and its preservation by
   every operation, for ARBITRARY well-formed segments (any flags, any seq /
   ack / window, any text up to the largest a TCP header can carry). *)
From Elvis Require Import Model.Base Model.U32 Model.Tcb Proofs.U32Facts Proofs.TcbSafetyBase Proofs.TcbEdges.
From Coq Require Import Permutation.
Local Open Scope Z_scope.

Definition u16 (x : Z) : Prop := 0 <= x <= 65535.
(* TcpHeader::from_bytes and TcpHeaderBuilder::build both need
   20 + text_len to fit a u16 (tcp_parsing.rs l.95 / l.238) *)
Definition MAXTEXT : Z := 65515.

Definition wf_hdr (h : header) : Prop :=
  u16 (h_sport h) /\ u16 (h_dport h) /\ u32 (h_seq h) /\ u32 (h_ack h) /\
  u16 (h_wnd h) /\ u16 (h_urg h).
(* the six flag bits and the payload bytes are unconstrained *)
Definition wf_seg (s : segment) : Prop := wf_hdr (s_hdr s) /\ zlen (s_text s) <= MAXTEXT.

Definition tw_ok (w : option Z) : Prop :=
  match w with Some x => 0 <= x <= MSL2 | None => True end.

Record Inv (t : tcb) : Prop := mkInv {
  i_lport : u16 (lport t);
  i_rport : u16 (rport t);
  i_mtu : SPACE_FOR_HEADERS <= mtu t <= 65535;
  i_una : u32 (snd_una t);
  i_nxt : u32 (snd_nxt t);
  i_swnd : u16 (snd_wnd t);
  i_wl1 : u32 (snd_wl1 t);
  i_wl2 : u32 (snd_wl2 t);
  i_iss : u32 (snd_iss t);
  i_irs : u32 (rcv_irs t);
  i_rnxt : u32 (rcv_nxt t);
  i_rwnd : rcv_wnd t = DEFAULT_WND;
  i_intext : zlen (in_text t) <= rcv_wnd t;
  i_insegs : Forall wf_seg (in_segs t);
  i_retx : Forall (fun tx => wf_seg (t_seg tx)) (retx t);
  i_oneshot : Forall wf_hdr (oneshot t);
  i_rto : 0 <= rto t <= RTO;
  i_tw : tw_ok (time_wait t) }.

Lemma Inv_set_st t v : Inv t -> Inv (set_st t v).
Proof. intros []; constructor; tsimpl; assumption. Qed.
Lemma Inv_set_snd_una t v : Inv t -> u32 v -> Inv (set_snd_una t v).
Proof. intros [] ?; constructor; tsimpl; assumption. Qed.
Lemma Inv_set_snd_nxt t v : Inv t -> u32 v -> Inv (set_snd_nxt t v).
Proof. intros [] ?; constructor; tsimpl; assumption. Qed.
Lemma Inv_set_snd_window t w a b : Inv t -> u16 w -> u32 a -> u32 b -> Inv (set_snd_window t w a b).
Proof. intros [] ? ? ?; constructor; tsimpl; assumption. Qed.
Lemma Inv_set_rcv_irs t v : Inv t -> u32 v -> Inv (set_rcv_irs t v).
Proof. intros [] ?; constructor; tsimpl; assumption. Qed.
Lemma Inv_set_rcv_nxt t v : Inv t -> u32 v -> Inv (set_rcv_nxt t v).
Proof. intros [] ?; constructor; tsimpl; assumption. Qed.
Lemma Inv_set_out_text t v : Inv t -> Inv (set_out_text t v).
Proof. intros []; constructor; tsimpl; assumption. Qed.
Lemma Inv_set_retx t v : Inv t -> Forall (fun tx => wf_seg (t_seg tx)) v -> Inv (set_retx t v).
Proof. intros [] ?; constructor; tsimpl; assumption. Qed.
Lemma Inv_set_oneshot t v : Inv t -> Forall wf_hdr v -> Inv (set_oneshot t v).
Proof. intros [] ?; constructor; tsimpl; assumption. Qed.
Lemma Inv_set_fin_pending t v : Inv t -> Inv (set_fin_pending t v).
Proof. intros []; constructor; tsimpl; assumption. Qed.
Lemma Inv_set_in_segs t v : Inv t -> Forall wf_seg v -> Inv (set_in_segs t v).
Proof. intros [] ?; constructor; tsimpl; assumption. Qed.
Lemma Inv_set_in_text t v : Inv t -> zlen v <= rcv_wnd t -> Inv (set_in_text t v).
Proof. intros [] ?; constructor; tsimpl; assumption. Qed.
Lemma Inv_set_rto t v : Inv t -> 0 <= v <= RTO -> Inv (set_rto t v).
Proof. intros [] ?; constructor; tsimpl; assumption. Qed.
Lemma Inv_set_time_wait t v : Inv t -> tw_ok v -> Inv (set_time_wait t v).
Proof. intros [] ?; constructor; tsimpl; assumption. Qed.

Lemma tw_ok_msl2 : tw_ok (Some MSL2).
Proof. unfold tw_ok, MSL2. lia. Qed.
Lemma rto_ok_RTO : 0 <= RTO <= RTO.
Proof. unfold RTO. lia. Qed.

Lemma hb_wf t seq : Inv t -> u32 seq -> wf_hdr (hb t seq).
Proof. intros [] ?. unfold wf_hdr, hb; tsimpl. unfold u16, u32, M32 in *. repeat split; try assumption; lia. Qed.
Lemma hb_ack_wf h a : wf_hdr h -> u32 a -> wf_hdr (hb_ack h a).
Proof. unfold wf_hdr, hb_ack; tsimpl. intuition. Qed.
Lemma hb_wnd_wf h w : wf_hdr h -> u16 w -> wf_hdr (hb_wnd h w).
Proof. unfold wf_hdr, hb_wnd; tsimpl. intuition. Qed.
Lemma hb_flag_wf h a b c : wf_hdr h -> wf_hdr (hb_flag h a b c).
Proof. unfold wf_hdr, hb_flag; tsimpl. intuition. Qed.
Lemma rcv_wnd_u16 t : Inv t -> u16 (rcv_wnd t).
Proof. intros []. rewrite i_rwnd0. unfold u16, DEFAULT_WND. lia. Qed.
Lemma ack_hdr_wf t : Inv t -> wf_hdr (ack_hdr t).
Proof.
  intros HI. unfold ack_hdr. apply hb_wnd_wf; [|apply rcv_wnd_u16; assumption].
  apply hb_ack_wf; [|apply HI]. apply hb_wf; [assumption|apply HI].
Qed.
Lemma rst_hdr_wf t seq : Inv t -> u32 seq -> wf_hdr (rst_hdr t seq).
Proof.
  intros HI Hs. unfold rst_hdr, hb_rst. apply hb_wnd_wf; [|apply rcv_wnd_u16; assumption].
  apply hb_flag_wf. apply hb_wf; assumption.
Qed.

Lemma wf_seg_nil h : wf_hdr h -> wf_seg (mkSeg h []).
Proof. intros H. split; [exact H|]. unfold zlen, MAXTEXT. cbn. lia. Qed.

Lemma enqueue_inv t h : Inv t -> wf_hdr h -> Inv (enqueue t h).
Proof.
  intros HI Hh. unfold enqueue. destruct (_ || _).
  - apply Inv_set_retx; [assumption|]. apply Forall_app. split; [apply HI|].
    constructor; [|constructor]. tsimpl. apply wf_seg_nil, Hh.
  - apply Inv_set_oneshot; [assumption|]. apply Forall_app. split; [apply HI|].
    constructor; [assumption|constructor].
Qed.

Lemma remove_acked_inv t u : Inv t -> Inv (remove_acked t u).
Proof. intros HI. unfold remove_acked. apply Inv_set_retx; [assumption|].
  eapply incl_Forall; [apply incl_filter|apply HI].
Qed.

Lemma ack_step_inv h a b : wf_hdr h -> ack_step h a b -> Inv a -> Inv b.
Proof.
  intros Hh Hs HI. pose proof Hh as (Hsp & Hdp & Hseq & Hack & Hwnd & Hurg).
  destruct Hs.
  - apply enqueue_inv; [assumption|apply ack_hdr_wf; assumption].
  - apply enqueue_inv; [assumption|apply rst_hdr_wf; assumption].
  - apply enqueue_inv; [assumption|].
    apply hb_wnd_wf; [|apply rcv_wnd_u16; assumption].
    apply hb_ack_wf; [|apply wadd_u32]. apply hb_wf; [assumption|apply HI].
  - apply remove_acked_inv, Inv_set_snd_una; assumption.
  - apply Inv_set_snd_window; assumption.
  - apply Inv_set_st; assumption.
  - apply Inv_set_time_wait; [assumption|apply tw_ok_msl2].
Qed.

Lemma ps_ack_inv t h : Inv t -> wf_hdr h -> Inv (fst (ps_ack t h)).
Proof.
  intros HI Hh. eapply ack_steps_pres; [|apply ps_ack_steps|exact HI].
  intros a b. apply ack_step_inv. exact Hh.
Qed.

Lemma ps_syn_inv t h : Inv t -> wf_hdr h -> Inv (fst (ps_syn t h)).
Proof.
  intros HI Hh. pose proof Hh as (Hsp & Hdp & Hseq & Hack & Hwnd & Hurg).
  unfold ps_syn. destruct (negb _); [exact HI|].
  assert (Hother : Inv (enqueue t (ack_hdr t))) by (apply enqueue_inv; [|apply ack_hdr_wf]; assumption).
  destruct (st t); cbn [fst]; try exact Hother.
  set (t1 := set_snd_window _ _ _ _).
  assert (H1 : Inv t1).
  { subst t1. apply Inv_set_snd_window; try assumption.
    apply Inv_set_rcv_nxt; [|apply wadd_u32]. apply Inv_set_rcv_irs; assumption. }
  destruct (mod_gt _ _); cbn [fst].
  - apply enqueue_inv; [apply Inv_set_st; assumption|]. apply ack_hdr_wf, Inv_set_st; assumption.
  - apply enqueue_inv; [apply Inv_set_st; assumption|].
    assert (H2 : Inv (set_st t1 SynReceived)) by (apply Inv_set_st; assumption).
    apply hb_wnd_wf; [|apply rcv_wnd_u16; assumption].
    apply hb_ack_wf; [|apply H2]. apply hb_flag_wf. apply hb_wf; [assumption|apply H2].
Qed.

(* n lies in [RCV.NXT-1, RCV.NXT+RCV.WND): the lower bound is the relaxed one of
   draft-gont-tcpm-tcp-seq-validation cited at tcb.rs l.757-762 *)
Definition in_window (t : tcb) (n : Z) : Prop := wsub n (wsub (rcv_nxt t) 1) <= rcv_wnd t.

(* just after a SYN was taken in SYN-SENT the segment's own seq is RCV.NXT-1 *)
Lemma syn_seq_in_window t seq : rcv_wnd t = DEFAULT_WND -> u32 seq -> rcv_nxt t = wadd seq 1 ->
  is_in_rcv_window t seq = true.
Proof.
  intros Hw Hs Hn.
  rewrite is_in_rcv_window_spec by (try assumption; rewrite Hw; unfold DEFAULT_WND; lia).
  rewrite Hn, Hw. unfold DEFAULT_WND. u32_unfold. lia.
Qed.

Definition asserts_state (s : state) : bool :=
  match s with Established | SynSent | SynReceived | FinWait1 | FinWait2 => true | _ => false end.
Definition text_pre (t : tcb) (h : header) (text : list Z) : Prop :=
  zlen text = 0 \/ asserts_state (st t) = false \/
  is_in_rcv_window t (h_seq h) || is_in_rcv_window t (wadd (h_seq h) (zlen text)) = true.

Lemma ps_text_ok t h text : Inv t -> text_pre t h text -> exists t', ps_text t h text = Ok t'.
Proof.
  intros HI Hp. unfold ps_text.
  destruct (zlen text =? 0) eqn:E0; [eauto|].
  destruct Hp as [Hp|[Hp|Hp]]; [lia| |].
  - destruct (st t); try discriminate Hp; eauto.
  - rewrite Hp. cbn [negb].
    assert (E : (rcv_wnd t <? zlen (in_text t)) = false) by (destruct HI; lia).
    rewrite E. destruct (st t); eauto.
Qed.

Lemma zlen_firstn_le {A} n (l : list A) : zlen (firstn (Z.to_nat n) l) <= Z.max 0 n.
Proof. unfold zlen. rewrite firstn_length. lia. Qed.

Lemma ps_text_inv t h text t' : Inv t -> ps_text t h text = Ok t' -> Inv t'.
Proof.
  intros HI H. destruct (ps_text_cases _ _ _ _ H) as [->|(n & piece & Hfit & ->)]; [exact HI|].
  cbv zeta.
  assert (H2 : Inv (set_in_text (set_rcv_nxt t (wadd (rcv_nxt t) n)) (in_text t ++ piece))).
  { apply Inv_set_in_text; [apply Inv_set_rcv_nxt; [assumption|apply wadd_u32]|].
    tsimpl. rewrite zlen_app. exact Hfit. }
  apply enqueue_inv; [exact H2|apply ack_hdr_wf; exact H2].
Qed.

(* stage 6 leaves alone everything but RCV.NXT, the receive buffer and the one-shot queue *)
Lemma ps_text_rcv_wnd t h text t' : ps_text t h text = Ok t' -> rcv_wnd t' = rcv_wnd t.
Proof.
  intros H. destruct (ps_text_cases _ _ _ _ H) as [->|(n & piece & _ & ->)]; [reflexivity|].
  cbv zeta. match goal with |- context [enqueue ?a ?b] => destruct (enqueue_same_rcv a b) as (_ & _ & E & _) end.
  rewrite E. reflexivity.
Qed.

Lemma ps_fin_inv t h n : Inv t -> Inv (ps_fin t h n).
Proof.
  intros HI. unfold ps_fin. destruct (negb _); [exact HI|].
  match goal with |- context [match st ?x with _ => _ end] => set (t1 := x) end.
  assert (H1 : Inv t1).
  { subst t1. repeat break_if; try exact HI.
    assert (H2 : Inv (set_rcv_nxt t (wadd (wadd (h_seq h) n) 1)))
      by (apply Inv_set_rcv_nxt; [assumption|apply wadd_u32]).
    apply enqueue_inv; [exact H2|apply ack_hdr_wf; exact H2]. }
  destruct (st t1); try destruct (is_fin_acked t1);
    repeat first [assumption | apply Inv_set_rto | apply Inv_set_time_wait | apply Inv_set_st
                 | apply tw_ok_msl2 | apply rto_ok_RTO].
Qed.

Lemma process_segment_inv t s t' r : Inv t -> wf_seg s -> process_segment t s = Ok (t', r) -> Inv t'.
Proof.
  intros HI [Hh Hl] H.
  pose proof (ps_ack_inv t (s_hdr s) HI Hh) as H2.
  pose proof (ps_syn_inv _ (s_hdr s) H2 Hh) as H4.
  destruct (process_segment_cases _ _ _ _ H); subst; try assumption.
  - apply enqueue_inv; [assumption|apply ack_hdr_wf; assumption].
  - apply ps_fin_inv. eapply ps_text_inv; eassumption.
Qed.

Lemma process_segment_ok t s : Inv t -> wf_seg s -> exists t' r, process_segment t s = Ok (t', r).
Proof.
  intros HI [Hh Hl]. pose proof Hh as (Hsp & Hdp & Hseq & Hack & Hwnd & Hurg).
  unfold process_segment.
  destruct (match st t with SynSent => false | _ => _ end) eqn:Ebad; [eauto|].
  pose proof (ps_ack_inv t (s_hdr s) HI Hh) as H2.
  pose proof (ps_ack_st t (s_hdr s)) as Ea.
  pose proof (ps_ack_same_rcv t (s_hdr s)) as (_ & Rn & Rw & _).
  destruct (ps_ack t (s_hdr s)) as [t2 r2]. cbn [fst] in *.
  destruct r2; [eauto|].
  destruct (ps_rst t2 (s_hdr s)); [eauto|].
  pose proof (ps_syn_inv t2 (s_hdr s) H2 Hh) as H4.
  destruct (c_syn (h_ctl (s_hdr s))) eqn:Esyn.
  - pose proof (ps_syn_continue t2 (s_hdr s) Esyn) as Hc.
    destruct (ps_syn t2 (s_hdr s)) as [t4 r4]. cbn [fst snd] in *.
    destruct r4; [eauto|]. destruct (Hc eq_refl) as (_ & E4 & En & Ew & _).
    rewrite E4. cbn [state_eqb].
    destruct (ps_text_ok t4 (s_hdr s) (s_text s) H4) as [t6 ->]; [|eauto].
    right. right. rewrite syn_seq_in_window; auto. destruct H4; assumption.
  - rewrite (ps_syn_nosyn _ _ Esyn) in *. cbn [fst] in *.
    destruct (state_eqb (st t2) SynSent) eqn:E2; [eauto|].
    destruct (ps_text_ok t2 (s_hdr s) (s_text s) H2) as [t6 ->]; [|eauto].
    destruct (zlen (s_text s) =? 0) eqn:E0; [left; lia|].
    pose proof (zlen_nonneg (s_text s)).
    destruct (st t) eqn:Est;
      try (right; right; rewrite !(is_in_rcv_window_ext t t2) by assumption;
           apply negb_false_iff in Ebad; try rewrite Esyn in Ebad;
           eapply seq_ok_assert; try eassumption; [apply HI|unfold MAXTEXT in Hl; lia]).
    (* only SynSent is left: it stays SynSent through the ACK stage.  (CLOSING is
       sequence-checked like every synchronised state since fix commit bbbdf8a3.) *)
    destruct (st t2); discriminate.
Qed.

Section Heap.
  Variable P : segment -> Prop.

  Lemma heap_push_length v x : length (heap_push v x) = S (length v).
  Proof using P. symmetry. apply (Permutation_length (heap_push_perm v x)). Qed.
End Heap.

Lemma segment_arrives_ok t s : Inv t -> wf_seg s ->
  exists t' r, segment_arrives t s = Ok (t', r) /\ Inv t'.
Proof.
  intros HI Hs. apply (segment_arrives_total Inv).
  - intros t0 s0 rest H0 Epop _.
    destruct (heap_pop_Forall wf_seg _ _ _ (i_insegs _ H0) Epop) as (Hs0 & Hrest).
    assert (H1 : Inv (set_in_segs t0 rest)) by (apply Inv_set_in_segs; assumption).
    destruct (process_segment_ok _ s0 H1 Hs0) as (t1 & r1 & Ep). exists t1, r1.
    split; [exact Ep|]. eapply process_segment_inv; eassumption.
  - apply Inv_set_in_segs; [assumption|]. apply heap_push_Forall; [apply HI|assumption].
Qed.

Lemma tcb_send_inv t b : Inv t -> Inv (tcb_send t b).
Proof. intros HI. unfold tcb_send. destruct (accepts_send _); [apply Inv_set_out_text|]; assumption. Qed.

Lemma tcb_receive_inv t : Inv t -> Inv (fst (tcb_receive t)).
Proof.
  intros HI. cbn [tcb_receive fst]. apply Inv_set_in_text; [assumption|].
  destruct HI. rewrite i_rwnd0. unfold zlen, DEFAULT_WND. cbn. lia.
Qed.

Lemma queue_pending_fin_inv t : Inv t -> Inv (queue_pending_fin t).
Proof.
  intros HI. unfold queue_pending_fin. destruct (_ && _); [|assumption].
  apply Inv_set_snd_nxt; [|apply wadd_u32].
  assert (H1 : Inv (set_fin_pending t false)) by (apply Inv_set_fin_pending; assumption).
  apply enqueue_inv; [exact H1|].
  apply hb_wnd_wf; [|apply rcv_wnd_u16; assumption].
  apply hb_ack_wf; [|apply H1]. apply hb_flag_wf. apply hb_wf; [assumption|apply H1].
Qed.

Lemma tcb_close_inv t : Inv t -> Inv (fst (tcb_close t)).
Proof.
  intros HI. unfold tcb_close.
  destruct (st t); cbn [fst]; try assumption;
    apply queue_pending_fin_inv, Inv_set_st, Inv_set_fin_pending; assumption.
Qed.

Lemma Forall_map_tx (f : transmit -> transmit) l :
  (forall tx, t_seg (f tx) = t_seg tx) ->
  Forall (fun tx => wf_seg (t_seg tx)) l -> Forall (fun tx => wf_seg (t_seg tx)) (map f l).
Proof.
  intros Hf H. induction H; cbn; constructor; auto. rewrite Hf. assumption.
Qed.

Lemma advance_time_inv t dt : Inv t -> 0 <= dt -> Inv (fst (advance_time t dt)).
Proof.
  intros HI Hdt. unfold advance_time.
  set (t1 := if rto t <? dt then _ else _).
  assert (H1 : Inv t1).
  { subst t1. destruct (rto t <? dt) eqn:E.
    - apply Inv_set_retx; [apply Inv_set_rto; [assumption|apply rto_ok_RTO]|].
      apply Forall_map_tx; [reflexivity|apply HI].
    - apply Inv_set_rto; [assumption|]. destruct HI. lia. }
  pose proof (i_tw _ H1) as Htw.
  destruct (time_wait t1) as [tw|]; [|assumption].
  destruct (tw <? dt) eqn:E; cbn [fst]; [assumption|].
  apply Inv_set_time_wait; [assumption|]. unfold tw_ok in *. lia.
Qed.

Lemma seg_step_inv t mss : Inv t -> 0 <= mss <= 65535 - SPACE_FOR_HEADERS -> 0 < seg_bytes t mss ->
  Inv (seg_step t (seg_bytes t mss)).
Proof.
  intros HI Hmss Hb. unfold seg_step. cbv zeta. apply Inv_set_retx.
  - apply Inv_set_snd_nxt; [apply Inv_set_out_text; assumption|apply wadd_u32].
  - tsimpl. apply Forall_app. split; [apply HI|]. constructor; [|constructor]. tsimpl.
    split; tsimpl.
    + apply hb_wnd_wf; [|apply rcv_wnd_u16; assumption].
      apply hb_ack_wf; [|apply HI]. apply hb_wf; [assumption|apply HI].
    + pose proof (zlen_firstn_le (seg_bytes t mss) (out_text t)).
      unfold seg_bytes, MAXTEXT, SPACE_FOR_HEADERS in *. lia.
Qed.

Lemma tcb_segments_ok t : Inv t ->
  exists t' segs, tcb_segments t = Ok (t', segs) /\ Inv t' /\ Forall wf_seg segs.
Proof.
  intros HI. rewrite tcb_segments_unfold.
  destruct (seg_mid_total Inv) with (t0 := set_oneshot t []) as (t1 & -> & H1).
  - intros t0. apply i_mtu.
  - intros t0 mss H0 Hmss Hb. apply seg_step_inv; assumption.
  - apply queue_pending_fin_inv.
  - apply Inv_set_oneshot; [assumption|constructor].
  - do 2 eexists; split; [reflexivity|]. split.
    + assert (H2 : Inv (set_retx t1 (map (fun tx => mkTx (t_seg tx) false) (retx t1)))).
      { apply Inv_set_retx; [assumption|]. apply Forall_map_tx; [reflexivity|apply H1]. }
      apply (seg_finish_cases (fun _ b => Inv b)); [exact H2|].
      apply Inv_set_rto; [exact H2|apply rto_ok_RTO].
    + apply Forall_app. split.
      * pose proof (i_oneshot _ HI) as Ho. induction Ho; cbn; constructor; auto. apply wf_seg_nil; assumption.
      * apply Forall_map. eapply incl_Forall; [apply incl_filter|apply H1].
Qed.

Lemma tcb_open_inv lp rp iss mtu0 : u16 lp -> u16 rp -> u32 iss ->
  SPACE_FOR_HEADERS <= mtu0 <= 65535 -> Inv (tcb_open lp rp iss mtu0).
Proof.
  intros Hl Hr Hi Hm. unfold tcb_open.
  match goal with |- Inv (enqueue ?a _) => assert (H0 : Inv a) end.
  { constructor; tsimpl; try assumption; try apply wadd_u32; try apply Forall_nil;
      unfold u16, u32, M32, DEFAULT_WND, zlen, RTO, tw_ok; cbn; lia. }
  apply enqueue_inv; [exact H0|].
  apply hb_wnd_wf; [|unfold u16, DEFAULT_WND; lia]. apply hb_flag_wf. apply hb_wf; assumption.
Qed.

Lemma arrives_listen_inv s iss mtu0 t : wf_seg s -> u32 iss ->
  SPACE_FOR_HEADERS <= mtu0 <= 65535 -> arrives_listen s iss mtu0 = LTcb t -> Inv t.
Proof.
  intros [Hh Hl] Hi Hm. pose proof Hh as (Hsp & Hdp & Hseq & Hack & Hwnd & Hurg).
  unfold arrives_listen. repeat break_if; try discriminate.
  intros H; inversion H; subst; clear H.
  match goal with |- Inv (set_in_segs (enqueue ?a ?hh) _) => assert (H0 : Inv a) end.
  { constructor; tsimpl; try assumption; try apply wadd_u32; try apply Forall_nil;
      unfold u16, u32, M32, DEFAULT_WND, zlen, RTO, tw_ok; cbn; lia. }
  match goal with |- Inv (set_in_segs ?a _) => assert (H1 : Inv a) end.
  { apply enqueue_inv; [exact H0|].
    apply hb_wnd_wf; [|unfold u16, DEFAULT_WND; lia].
    apply hb_ack_wf; [|apply wadd_u32]. apply hb_flag_wf. apply hb_wf; assumption. }
  apply Inv_set_in_segs; [exact H1|].
  apply heap_push_Forall; [apply H1|].
  split; tsimpl; [|assumption]. unfold wf_hdr; tsimpl.
  exact (conj Hsp (conj Hdp (conj Hseq (conj Hack (conj Hwnd Hurg))))).
Qed.

Inductive op :=
| OpArrive (s : segment)
| OpSend (bytes : list Z)
| OpReceive
| OpClose
| OpTick (dt : Z)
| OpSegments.

Definition wf_op (o : op) : Prop :=
  match o with OpArrive s => wf_seg s | OpTick dt => 0 <= dt | _ => True end.

(* None: the TCB was deleted (SegmentArrivesResult::Close / AdvanceTimeResult::CloseConnection) *)
Definition apply_op (t : tcb) (o : op) : result (option tcb) :=
  match o with
  | OpArrive s =>
    match segment_arrives t s with
    | Ok (t', AOk) => Ok (Some t') | Ok (_, AClose) => Ok None
    | Err e => Err e | Panic p => Panic p | OutOfFuel => OutOfFuel
    end
  | OpSend b => Ok (Some (tcb_send t b))
  | OpReceive => Ok (Some (fst (tcb_receive t)))
  | OpClose => Ok (Some (fst (tcb_close t)))
  | OpTick dt =>
    match advance_time t dt with (t', TIgnore) => Ok (Some t') | (_, TCloseConnection) => Ok None end
  | OpSegments =>
    match tcb_segments t with
    | Ok (t', _) => Ok (Some t')
    | Err e => Err e | Panic p => Panic p | OutOfFuel => OutOfFuel
    end
  end.

Fixpoint run_ops (t : tcb) (ops : list op) : result (option tcb) :=
  match ops with
  | [] => Ok (Some t)
  | o :: rest =>
    match apply_op t o with
    | Ok (Some t') => run_ops t' rest
    | other => other
    end
  end.

Definition Inv_opt (o : option tcb) : Prop := match o with Some t => Inv t | None => True end.

Lemma apply_op_ok t o : Inv t -> wf_op o -> exists r, apply_op t o = Ok r /\ Inv_opt r.
Proof.
  intros HI Ho. destruct o; cbn [apply_op wf_op] in *.
  - destruct (segment_arrives_ok t s HI Ho) as (t' & r & -> & H'). destruct r; eexists; split; eauto; exact I.
  - eexists; split; [reflexivity|]. apply tcb_send_inv; assumption.
  - eexists; split; [reflexivity|]. apply tcb_receive_inv; assumption.
  - eexists; split; [reflexivity|]. apply tcb_close_inv; assumption.
  - pose proof (advance_time_inv t dt HI Ho) as H'.
    destruct (advance_time t dt) as [t' []]; eexists; split; eauto; exact I.
  - destruct (tcb_segments_ok t HI) as (t' & segs & -> & H' & _). eexists; split; eauto.
Qed.

Lemma run_ops_rule (J : tcb -> Prop) :
  (forall t o, J t -> wf_op o ->
     exists r, apply_op t o = Ok r /\ match r with Some t' => J t' | None => True end) ->
  forall ops t, J t -> Forall wf_op ops ->
  exists r, run_ops t ops = Ok r /\ match r with Some t' => J t' | None => True end.
Proof.
  intros Hstep. induction ops as [|o rest IH]; intros t HI Hops; cbn [run_ops].
  - eexists; split; [reflexivity|exact HI].
  - inversion Hops; subst.
    destruct (Hstep t o HI) as (r & -> & Hr); [assumption|].
    destruct r as [t'|]; [apply IH; assumption|].
    eexists; split; [reflexivity|exact I].
Qed.

(* the invariant is satisfiable *)
Example Inv_open_example : Inv (tcb_open 1000 80 4294967295 1500).
Proof. apply tcb_open_inv; unfold u16, u32, M32, SPACE_FOR_HEADERS; lia. Qed.
