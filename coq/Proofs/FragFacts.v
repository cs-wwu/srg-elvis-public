(* Facts about the fragmentation model: basic lemmas, the Prop reading of the
   executable partition predicate, and correctness of one fragmentation. *)
From Elvis Require Import Model.Base Model.Frag Proofs.ListFacts.
Local Open Scope Z_scope.
Ltac Zify.zify_post_hook ::= Z.div_mod_to_equations.

Lemma land_set_mf_2 f : Z.land (set_mf f) 2 = Z.land f 2.
Proof.
  unfold set_mf. rewrite Z.land_lor_distr_l, <- Z.land_assoc.
  change (Z.land 2 2) with 2. change (Z.land 1 2) with 0. apply Z.lor_0_r.
Qed.

Lemma set_mf_idem f : set_mf (set_mf f) = set_mf f.
Proof. unfold set_mf at 1. rewrite land_set_mf_2. reflexivity. Qed.

Lemma may_fragment_set_mf f : may_fragment (set_mf f) = may_fragment f.
Proof. unfold may_fragment. rewrite land_set_mf_2. reflexivity. Qed.

Lemma is_last_set_mf f : is_last_fragment (set_mf f) = false.
Proof.
  unfold is_last_fragment, set_mf. rewrite Z.land_lor_distr_l, <- Z.land_assoc.
  change (Z.land 2 1) with 0. change (Z.land 1 1) with 1.
  rewrite Z.land_0_r. reflexivity.
Qed.

(* for the flag values a parsed header can carry (reserved bit clear) the
   first-fragment flags are the original flags with the MF bit set *)
Lemma set_mf_valid f : 0 <= f < 4 ->
  set_mf f = Z.lor f 1 /\ 0 <= set_mf f < 4.
Proof.
  intros Hf. assert (Hc : f = 0 \/ f = 1 \/ f = 2 \/ f = 3) by lia.
  destruct Hc as [-> | [-> | [-> | ->]]]; cbv; repeat split; congruence.
Qed.

Lemma others_eqb_spec a b : others_eqb a b = true <-> a = b.
Proof.
  destruct a as [a1 a2 a3 a4 a5 a6 a7], b as [b1 b2 b3 b4 b5 b6 b7].
  unfold others_eqb. cbn [tos ident ttl proto cksum src dst]. split.
  - intros H. f_equal; lia.
  - intros H. injection H as -> -> -> -> -> -> ->. lia.
Qed.

Lemma others_eqb_refl a : others_eqb a a = true.
Proof. apply others_eqb_spec. reflexivity. Qed.

Lemma hdr_eqb_spec a b : hdr_eqb a b = true <-> a = b.
Proof.
  destruct a as [i1 t1 f1 g1 o1], b as [i2 t2 f2 g2 o2]. unfold hdr_eqb.
  cbn [ihl total_length fragment_offset flags oth]. split.
  - intros H. apply andb_prop in H. destruct H as [H Ho].
    apply others_eqb_spec in Ho. subst. f_equal; lia.
  - intros H. injection H as -> -> -> -> ->. rewrite others_eqb_refl. lia.
Qed.

Section Facts.
Context {A : Type}.

Definition len (l : list A) : Z := Z.of_nat (length l).

Lemma len_nonneg l : 0 <= len l.
Proof. unfold len. lia. Qed.

Lemma len_app a b : len (a ++ b) = len a + len b.
Proof. unfold len. rewrite app_length. lia. Qed.

Lemma len_nil_iff l : len l = 0 <-> l = [].
Proof. unfold len. destruct l; cbn [length]; split; intros H; try reflexivity; try discriminate; lia. Qed.

Lemma cut_spec : forall n (l : list A), (n <= length l)%nat ->
  cut n l = Some (firstn n l, skipn n l).
Proof.
  induction n as [|n IH]; intros l Hn.
  - reflexivity.
  - destruct l as [|x t]; cbn [length] in Hn; [lia|].
    cbn [cut firstn skipn]. rewrite IH by lia. reflexivity.
Qed.

Lemma cut_none : forall n (l : list A), (length l < n)%nat -> cut n l = None.
Proof.
  induction n as [|n IH]; intros l Hn; [lia|].
  destruct l as [|x t]; cbn [cut]; [reflexivity|].
  cbn [length] in Hn. rewrite IH by lia. reflexivity.
Qed.

Lemma list_eqb_spec (eqb : A -> A -> bool) :
  (forall x y, eqb x y = true <-> x = y) ->
  forall a b, list_eqb eqb a b = true <-> a = b.
Proof. intros He. apply (list_eqb_spec_gen (list_eqb eqb) eqb He); reflexivity. Qed.

Fixpoint sumlen (frs : list (frag A)) : Z :=
  match frs with [] => 0 | f :: t => plen f + sumlen t end.

Lemma plen_nonneg (f : frag A) : 0 <= plen f.
Proof. unfold plen. lia. Qed.

Lemma sumlen_nonneg frs : 0 <= sumlen frs.
Proof. induction frs as [|f t IH]; cbn [sumlen]; [lia|]. pose proof (plen_nonneg f). lia. Qed.

Lemma sumlen_app a b : sumlen (a ++ b) = sumlen a + sumlen b.
Proof. induction a as [|f t IH]; cbn [sumlen app]; [lia|]. rewrite IH. lia. Qed.

Lemma len_payloads (frs : list (frag A)) : len (concat (map snd frs)) = sumlen frs.
Proof.
  induction frs as [|f t IH]; cbn [map concat sumlen]; [reflexivity|].
  rewrite len_app, IH. reflexivity.
Qed.

Lemma sumlen_firstn_le : forall i (frs : list (frag A)) f, nth_error frs i = Some f ->
  sumlen (firstn i frs) + plen f <= sumlen frs.
Proof.
  induction i as [|i IH]; intros [|g t] f H; cbn [nth_error] in H; try discriminate.
  - injection H as ->. cbn [firstn sumlen]. pose proof (sumlen_nonneg t). lia.
  - cbn [firstn sumlen]. specialize (IH t f H). lia.
Qed.

(* piece f of the datagram with header o: f's payload starts [acc] bytes into
   o's payload; [last] = f ends the datagram *)
Definition PieceOK (o : hdr) (mtu acc : Z) (last : bool) (f : frag A) : Prop :=
  total_length (fst f) <= mtu /\
  total_length (fst f) = 4 * ihl o + plen f /\
  ihl (fst f) = ihl o /\
  oth (fst f) = oth o /\
  8 * fragment_offset (fst f) = 8 * fragment_offset o + acc /\
  (if last then flags (fst f) = flags o
   else flags (fst f) = set_mf (flags o) /\ plen f mod 8 = 0).

Lemma piece_ok_iff o mtu acc last f :
  piece_ok o mtu acc last f = true <-> PieceOK o mtu acc last f.
Proof.
  unfold piece_ok, PieceOK. rewrite !andb_true_iff, others_eqb_spec.
  destruct last; [|rewrite andb_true_iff]; intuition lia.
Qed.

Lemma pieces_ok_iff : forall frs o mtu acc more,
  pieces_ok o mtu acc more frs = true <->
  (forall i f, nth_error frs i = Some f ->
     PieceOK o mtu (acc + sumlen (firstn i frs)) (Nat.eqb (S i) (length frs) && negb more) f).
Proof.
  induction frs as [|g rest IH]; intros o mtu acc more; cbn [pieces_ok].
  - split; [|reflexivity]. intros _ [|i] f H; discriminate.
  - split.
    + intros H. apply andb_prop in H. destruct H as [Hg Hrest].
      apply piece_ok_iff in Hg. rewrite IH in Hrest.
      intros [|i] f Hn; cbn [nth_error] in Hn.
      * injection Hn as <-. cbn [firstn sumlen length]. rewrite Z.add_0_r.
        replace (Nat.eqb 1 (S (length rest))) with (is_nil rest) by (destruct rest; reflexivity).
        exact Hg.
      * specialize (Hrest i f Hn). cbn [firstn sumlen length].
        replace (acc + (plen g + sumlen (firstn i rest))) with (acc + plen g + sumlen (firstn i rest)) by lia.
        exact Hrest.
    + intros H. apply andb_true_intro. split.
      * apply piece_ok_iff. specialize (H 0%nat g eq_refl).
        cbn [firstn sumlen length] in H. rewrite Z.add_0_r in H.
        replace (Nat.eqb 1 (S (length rest))) with (is_nil rest) in H by (destruct rest; reflexivity).
        exact H.
      * apply IH. intros i f Hn. specialize (H (S i) f Hn).
        cbn [firstn sumlen length] in H.
        replace (acc + (plen g + sumlen (firstn i rest))) with (acc + plen g + sumlen (firstn i rest)) in H by lia.
        exact H.
Qed.

Lemma nondeg_ok_iff (frs : list (frag A)) :
  nondeg_ok frs = true <-> (length frs = 1%nat \/ Forall (fun f : frag A => snd f <> []) frs).
Proof.
  assert (HF : forall l : list (frag A),
             forallb (fun f => negb (is_nil (snd f))) l = true <-> Forall (fun f : frag A => snd f <> []) l).
  { intros l. rewrite forallb_forall, Forall_forall. split; intros H f Hin; specialize (H f Hin).
    - destruct (snd f); [discriminate | congruence].
    - destruct (snd f); [congruence | reflexivity]. }
  unfold nondeg_ok. destruct frs as [|a [|b t]].
  - rewrite HF. split; intros _; [right; constructor | constructor].
  - split; intros _; [left|]; reflexivity.
  - rewrite HF. split; [intros H; right; exact H | intros [H|H]; [discriminate | exact H]].
Qed.

(* a partition of the datagram (o, body) into pieces for an MTU: the conjuncts of [partition_ok] *)
Definition POK (o : hdr) (body : list A) (mtu : Z) (frs : list (frag A)) : Prop :=
  frs <> [] /\ concat (map snd frs) = body /\ pieces_ok o mtu 0 false frs = true /\ nondeg_ok frs = true.

Lemma partition_ok_iff (eqb : A -> A -> bool) :
  (forall x y, eqb x y = true <-> x = y) ->
  forall o body mtu frs, partition_ok eqb o body mtu frs = true <-> POK o body mtu frs.
Proof.
  intros He o body mtu frs. unfold partition_ok, POK.
  rewrite !andb_true_iff, (list_eqb_spec eqb He).
  assert (Hn : negb (is_nil frs) = true <-> frs <> []).
  { destruct frs; cbn; split; intros H; congruence. }
  rewrite Hn. tauto.
Qed.

Lemma piece_ok_shift o o' mtu acc acc' last (f : frag A) :
  ihl o' = ihl o -> oth o' = oth o -> flags o' = flags o ->
  8 * fragment_offset o' + acc' = 8 * fragment_offset o + acc ->
  piece_ok o' mtu acc' last f = piece_ok o mtu acc last f.
Proof. intros Hi Ho Hf Hfo. unfold piece_ok. rewrite Hi, Ho, Hf, Hfo. reflexivity. Qed.

Lemma pieces_ok_shift : forall (frs : list (frag A)) o o' mtu acc acc' more,
  ihl o' = ihl o -> oth o' = oth o -> flags o' = flags o ->
  8 * fragment_offset o' + acc' = 8 * fragment_offset o + acc ->
  pieces_ok o' mtu acc' more frs = pieces_ok o mtu acc more frs.
Proof.
  induction frs as [|f rest IH]; intros o o' mtu acc acc' more Hi Ho Hf Hfo; cbn [pieces_ok]; [reflexivity|].
  rewrite (piece_ok_shift o o' mtu acc acc') by assumption.
  rewrite (IH o o' mtu (acc + plen f) (acc' + plen f)) by (try assumption; lia).
  reflexivity.
Qed.

Definition Valid (h : hdr) (body : list A) : Prop :=
  0 <= ihl h /\
  total_length h = 4 * ihl h + len body /\
  0 <= fragment_offset h /\
  fragment_offset h + len body / 8 <= U16MAX.

Definition MtuOk (h : hdr) (mtu : Z) : Prop := 4 * ihl h + 8 <= mtu /\ mtu <= U16MAX.

Lemma valid_ok_iff h body : valid_ok h body = true <-> Valid h body.
Proof. unfold valid_ok, Valid, len, U16MAX. lia. Qed.

Lemma mtu_ok_iff h mtu : mtu_ok h mtu = true <-> MtuOk h mtu.
Proof. unfold mtu_ok, MtuOk, U16MAX. lia. Qed.

(* what a parsed IPv4 header guarantees: 13-bit offset, 16-bit total length *)
Lemma Valid_of_fields h body :
  0 <= ihl h -> total_length h = 4 * ihl h + len body -> total_length h <= U16MAX ->
  0 <= fragment_offset h <= 8191 -> Valid h body.
Proof. unfold Valid, U16MAX. intros. pose proof (len_nonneg body). repeat split; lia. Qed.

Lemma mul16_ok s a b : 0 <= a * b <= U16MAX -> mul16 s a b = Ok (a * b).
Proof. unfold mul16. intros H. destruct (a * b >? U16MAX) eqn:E; [lia | reflexivity]. Qed.
Lemma add16_ok s a b : a + b <= U16MAX -> add16 s a b = Ok (a + b).
Proof. unfold add16. intros H. destruct (a + b >? U16MAX) eqn:E; [lia | reflexivity]. Qed.
Lemma sub16_ok s a b : b <= a -> sub16 s a b = Ok (a - b).
Proof. unfold sub16. intros H. destruct (a <? b) eqn:E; [lia | reflexivity]. Qed.

(* one call on a datagram that does not fit, none of the u16 operations overflowing:
   NFB blocks are cut off and the rest goes round again *)
Lemma frag_rec_step fuel mtu h (body : list A) nfb :
  nfb = (mtu - ihl h * 4) / 8 ->
  mtu < total_length h -> 0 <= ihl h -> ihl h * 4 <= mtu <= U16MAX ->
  nfb * 8 <= total_length h -> fragment_offset h + nfb <= U16MAX ->
  frag_rec (S fuel) mtu h body =
  match cut (Z.to_nat (nfb * 8)) body with
  | None => Panic SITE_CUT
  | Some (first, rest) =>
    do more <- frag_rec fuel mtu
         (set_fragment_offset (set_total_length h (total_length h - nfb * 8)) (fragment_offset h + nfb)) rest;
    Ok ((set_total_length (set_flags h (set_mf (flags h))) (ihl h * 4 + nfb * 8), first) :: more)
  end.
Proof.
  intros -> Hbig Hihl Hm Htl Hfo. unfold U16MAX in *. cbn [frag_rec].
  destruct (total_length h <=? mtu) eqn:E; [lia|].
  rewrite (mul16_ok SITE_IHL4) by (unfold U16MAX; lia). cbn [bind].
  rewrite (sub16_ok SITE_MTU_SUB) by lia. cbn [bind].
  set (nfb := (mtu - ihl h * 4) / 8) in *.
  assert (Hn : 0 <= nfb * 8 <= mtu - ihl h * 4) by (unfold nfb; lia).
  destruct (cut (Z.to_nat (nfb * 8)) body) as [[first rest]|]; [|reflexivity].
  rewrite (mul16_ok SITE_NFB8) by (unfold U16MAX; lia). cbn [bind].
  rewrite (add16_ok SITE_TL1) by (unfold U16MAX; lia). cbn [bind].
  rewrite (mul16_ok SITE_DEC) by (unfold U16MAX; lia). cbn [bind].
  replace ((ihl h - ihl h) * 4) with 0 by lia.
  rewrite (add16_ok SITE_DEC) by (unfold U16MAX; lia). cbn [bind]. rewrite Z.add_0_r.
  rewrite (sub16_ok SITE_TL2) by lia. cbn [bind].
  rewrite (add16_ok SITE_FO) by (unfold U16MAX; lia). reflexivity.
Qed.

Lemma pieces_ok_single h (body : list A) mtu :
  total_length h <= mtu -> total_length h = 4 * ihl h + len body -> pieces_ok h mtu 0 false [(h, body)] = true.
Proof.
  intros Hfit Htl. cbn [pieces_ok is_nil negb andb]. rewrite andb_true_r. apply piece_ok_iff.
  unfold PieceOK, plen; cbn [fst snd]. fold (len body). repeat split; lia.
Qed.

Lemma frag_rec_ok : forall fuel mtu h (body : list A),
  Valid h body -> MtuOk h mtu -> len body < Z.of_nat fuel ->
  exists frs, frag_rec fuel mtu h body = Ok frs /\
    pieces_ok h mtu 0 false frs = true /\
    concat (map snd frs) = body /\
    frs <> [] /\
    (0 < len body -> Forall (fun f : frag A => snd f <> []) frs) /\
    (mtu < total_length h -> (2 <= length frs)%nat).
Proof.
  induction fuel as [|fuel IH]; intros mtu h body Hv Hm Hfuel.
  { pose proof (len_nonneg body). lia. }
  pose proof Hv as (Hihl & Htl & Hfo & Hfob). pose proof Hm as (Hmlo & Hmhi).
  pose proof (len_nonneg body) as Hlen0.
  destruct (Z_le_gt_dec (total_length h) mtu) as [Hfit | Hbig].
  - exists [(h, body)]. cbn [frag_rec]. destruct (total_length h <=? mtu) eqn:E; [|lia].
    split; [reflexivity|]. split; [apply pieces_ok_single; assumption|].
    split; [cbn [map concat snd]; apply app_nil_r|]. split; [discriminate|]. split; [|lia].
    intros Hpos. constructor; [|constructor]. cbn [snd]. intros ->. cbn in Hpos. lia.
  - set (nfb := (mtu - ihl h * 4) / 8).
    assert (Hn : 8 <= nfb * 8 <= mtu - ihl h * 4) by (unfold nfb, U16MAX in *; lia).
    rewrite (frag_rec_step fuel mtu h body nfb) by (try reflexivity; lia).
    set (n := Z.to_nat (nfb * 8)).
    assert (Hnle : (n <= length body)%nat) by (unfold n, len in *; lia).
    rewrite cut_spec by exact Hnle.
    assert (Hl1 : len (firstn n body) = nfb * 8).
    { unfold len. rewrite firstn_length_le by exact Hnle. unfold n. lia. }
    assert (Hl2 : len (skipn n body) = len body - nfb * 8).
    { unfold len in *. rewrite skipn_length. unfold n. lia. }
    set (h2 := set_fragment_offset (set_total_length h (total_length h - nfb * 8)) (fragment_offset h + nfb)).
    destruct (IH mtu h2 (skipn n body)) as (more & Hrec & Hpo & Hcat & Hne & Hnd & _).
    { unfold Valid, h2; cbn [ihl total_length fragment_offset set_fragment_offset set_total_length].
      rewrite Hl2. repeat split; lia. }
    { exact Hm. }
    { rewrite Hl2. lia. }
    rewrite Hrec. cbn [bind]. eexists. split; [reflexivity|]. repeat split.
    + cbn [pieces_ok]. apply andb_true_intro. split.
      * replace (is_nil more && negb false) with false by (destruct more; [congruence | reflexivity]).
        apply piece_ok_iff. unfold PieceOK, plen; cbn [fst snd]. fold (len (firstn n body)).
        rewrite Hl1. cbn [ihl total_length fragment_offset flags oth set_total_length set_flags].
        repeat split; lia.
      * rewrite <- Hpo. symmetry. apply pieces_ok_shift; try reflexivity.
        unfold h2, plen; cbn [fragment_offset set_fragment_offset snd]. fold (len (firstn n body)). rewrite Hl1. lia.
    + cbn [map concat snd]. rewrite Hcat. apply firstn_skipn.
    + discriminate.
    + intros _. constructor.
      * cbn [snd]. intros E. rewrite E in Hl1. cbn in Hl1. lia.
      * apply Hnd. rewrite Hl2. lia.
    + intros _. cbn [length]. destruct more; [congruence | cbn [length]; lia].
Qed.

Lemma fragment_fits h (body : list A) mtu :
  total_length h <= mtu -> fragment h body mtu = Ok (DontFragment (h, body)).
Proof. intros H. unfold fragment. destruct (total_length h <=? mtu) eqn:E; [reflexivity | lia]. Qed.

Lemma fragment_discard h (body : list A) mtu :
  mtu < total_length h -> may_fragment (flags h) = false -> fragment h body mtu = Ok Discard.
Proof.
  intros H Hdf. unfold fragment. destruct (total_length h <=? mtu) eqn:E; [lia|].
  rewrite Hdf. reflexivity.
Qed.

Lemma POK_single h (body : list A) mtu :
  total_length h <= mtu -> total_length h = 4 * ihl h + len body -> POK h body mtu [(h, body)].
Proof.
  intros Hfit Htl. split; [discriminate|]. split; [cbn [map concat snd]; apply app_nil_r|].
  split; [apply pieces_ok_single; assumption | reflexivity].
Qed.

Lemma fragment_fragments h (body : list A) mtu :
  Valid h body -> MtuOk h mtu -> may_fragment (flags h) = true -> mtu < total_length h ->
  exists frs, fragment h body mtu = Ok (Fragmented frs) /\ POK h body mtu frs /\
              (2 <= length frs)%nat /\ Forall (fun f : frag A => snd f <> []) frs.
Proof.
  intros Hv Hm Hdf Hbig.
  pose proof Hv as (Hihl & Htl & _). pose proof Hm as (Hlo & _). pose proof (len_nonneg body) as Hl0.
  destruct (frag_rec_ok (fuel_for h) mtu h body Hv Hm) as (frs & Hrec & Hpo & Hcat & Hne & Hnd & Hlen).
  { unfold fuel_for. lia. }
  exists frs. unfold fragment. destruct (total_length h <=? mtu) eqn:E; [lia|].
  rewrite Hdf. cbn [negb]. rewrite Hrec. cbn [bind]. split; [reflexivity|].
  specialize (Hnd ltac:(lia)). split; [|split; [apply Hlen, Hbig | exact Hnd]].
  repeat split; try assumption. apply nondeg_ok_iff. right. exact Hnd.
Qed.

Lemma fragment_pieces h (body : list A) mtu :
  Valid h body -> MtuOk h mtu -> may_fragment (flags h) = true ->
  exists r ps, fragment h body mtu = Ok r /\ pieces r = Some ps /\ POK h body mtu ps.
Proof.
  intros Hv Hm Hdf. destruct (Z_le_gt_dec (total_length h) mtu) as [Hfit | Hbig].
  - exists (DontFragment (h, body)), [(h, body)]. split; [apply fragment_fits, Hfit|].
    split; [reflexivity|]. apply POK_single; [exact Hfit | apply Hv].
  - destruct (fragment_fragments h body mtu Hv Hm Hdf) as (frs & Hf & Hp & _); [lia|].
    exists (Fragmented frs), frs. split; [exact Hf | split; [reflexivity | exact Hp]].
Qed.

(* 4*ihl <= mtu < 4*ihl + 8: NFB = 0, every call recurses on an unchanged
   datagram: the model runs out of any fuel, i.e. the Rust recursion does not
   terminate (it pushes an empty fragment per call until memory/stack ends). *)
Lemma frag_rec_nfb0 : forall fuel mtu h (body : list A),
  0 <= ihl h -> 4 * ihl h <= mtu < 4 * ihl h + 8 -> mtu <= U16MAX ->
  mtu < total_length h -> 0 <= fragment_offset h <= U16MAX ->
  frag_rec fuel mtu h body = OutOfFuel.
Proof.
  induction fuel as [|fuel IH]; intros mtu h body Hihl Hm Hmax Hbig Hfo; [reflexivity|].
  rewrite (frag_rec_step fuel mtu h body 0) by lia.
  cbn [Z.mul Z.to_nat cut]. rewrite IH; [reflexivity | | | | |];
    cbn [ihl total_length fragment_offset set_fragment_offset set_total_length]; lia.
Qed.

(* mtu < 4*ihl: `self.mtu - header.ihl as u16 * 4` underflows *)
Lemma frag_rec_small_mtu_panics fuel mtu h (body : list A) :
  0 <= ihl h <= 255 -> mtu < 4 * ihl h -> mtu < total_length h ->
  frag_rec (S fuel) mtu h body = Panic SITE_MTU_SUB.
Proof.
  intros Hihl Hm Hbig. cbn [frag_rec]. destruct (total_length h <=? mtu) eqn:E; [lia|].
  rewrite (mul16_ok SITE_IHL4 (ihl h) 4) by (unfold U16MAX; lia). cbn [bind].
  unfold sub16. destruct (mtu <? ihl h * 4) eqn:E2; [reflexivity | lia].
Qed.

End Facts.
