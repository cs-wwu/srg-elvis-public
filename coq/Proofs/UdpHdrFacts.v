(* Lemmas about the UDP header codec model (Model/UdpHdr.v). *)
From Elvis Require Import Model.Base Model.Bytes Model.Checksum Model.UdpHdr
  Proofs.BytesFacts Proofs.ChecksumFacts.
Local Open Scope Z_scope.

(* what the decoder (l.41-60) and the builder (l.104-119) feed to the accumulator *)
Definition udp_items (sp dp len sa da : Z) (rest : list Z) : list ckitem :=
  [I16 sp; I16 dp; I16 len; I16 len; I32 sa; I32 da; I8 0 17; IRem rest].
Definition udp_bitems (sa sp da dp : Z) (text : list Z) (len : Z) : list ckitem :=
  [IRem text; I16 len; I16 len; I32 sa; I32 da; I8 0 17; I16 sp; I16 dp].
Definition udp_sum (ck : bool) (bs : list Z) (sa da : Z) : Z :=
  as_u16 ck (ck_run ck (udp_items (w16 bs 0) (w16 bs 2) (w16 bs 4) sa da (skipn 8 bs))).
Definition udp_view (bs : list Z) : udp_hdr := mk_udp (w16 bs 0) (w16 bs 2) (w16 bs 4) (w16 bs 6).

Lemma udp_decode_ge8 : forall ck bs plen sa da, (8 <= length bs)%nat ->
  udp_decode ck bs plen sa da =
  if negb (plen =? w16 bs 4) then Err EU_LEN else
  if negb (udp_sum ck bs sa da =? w16 bs 6) then Err (EU_CK (w16 bs 6) (udp_sum ck bs sa da))
  else Ok (udp_view bs).
Proof. intros ck bs plen sa da H. do 8 (destruct bs as [|? bs]; [cbn in H; lia|]). reflexivity. Qed.

Lemma udp_decode_short : forall ck bs plen sa da, (length bs < 8)%nat ->
  udp_decode ck bs plen sa da = Err EU_HTS.
Proof.
  intros ck bs plen sa da Hl.
  do 8 (destruct bs as [|? bs]; [reflexivity|]). cbn in Hl. lia.
Qed.

Lemma udp_decode_ok_iff : forall ck bs plen sa da h, udp_decode ck bs plen sa da = Ok h <->
  (8 <= length bs)%nat /\ plen = w16 bs 4 /\ udp_sum ck bs sa da = w16 bs 6 /\ h = udp_view bs.
Proof.
  intros ck bs plen sa da h. destruct (Nat.ltb_spec (length bs) 8) as [Hs|Hl].
  - rewrite udp_decode_short by assumption. split; [discriminate | lia].
  - rewrite udp_decode_ge8 by assumption.
    destruct (plen =? w16 bs 4) eqn:E1; cbn [negb]; [|split; [discriminate | lia]].
    destruct (udp_sum ck bs sa da =? w16 bs 6) eqn:E2; cbn [negb]; [|split; [discriminate | lia]].
    split; [intros [= <-] | intros (_ & _ & _ & ->)]; repeat split; lia.
Qed.

Lemma udp_items_ok : forall bs sa da, bytes bs -> u32 sa -> u32 da ->
  Forall item_ok (udp_items (w16 bs 0) (w16 bs 2) (w16 bs 4) sa da (skipn 8 bs)).
Proof. intros. items_ok. Qed.
Lemma udp_sum_on : forall bs sa da, bytes bs -> u32 sa -> u32 da ->
  udp_sum true bs sa da =
  as_u16 true (oc_norm (items_sum (udp_items (w16 bs 0) (w16 bs 2) (w16 bs 4) sa da (skipn 8 bs)))).
Proof. intros. unfold udp_sum. rewrite ck_run_norm by (apply udp_items_ok; assumption). reflexivity. Qed.

Lemma udp_build_ok : forall ck sa sp da dp text tlen, 0 <= tlen -> tlen + 8 <= 65535 ->
  udp_build ck sa sp da dp text tlen =
  Ok (be16 sp ++ be16 dp ++ be16 (tlen + 8)
        ++ be16 (as_u16 ck (ck_run ck (udp_bitems sa sp da dp text (tlen + 8))))).
Proof.
  intros. unfold udp_build. cbv zeta.
  replace (usize_max <? tlen + 8) with false by (unfold usize_max; lia).
  replace (65535 <? tlen + 8) with false by lia. reflexivity.
Qed.
(* the checked usize addition of udp_parsing.rs l.107 *)
Lemma udp_build_panics_iff : forall ck sa sp da dp text tlen,
  (exists s, udp_build ck sa sp da dp text tlen = Panic s) <-> usize_max < tlen + 8.
Proof.
  intros. unfold udp_build. cbv zeta.
  destruct (usize_max <? tlen + 8) eqn:E1.
  - split; [lia | eauto].
  - destruct (65535 <? tlen + 8); (split; [intros [s Hs]; discriminate | lia]).
Qed.

(* decoder and builder feed the same words, in another order *)
Lemma udp_runs_agree : forall ck sp dp len sa da text,
  u16 sp -> u16 dp -> u16 len -> u32 sa -> u32 da -> bytes text ->
  ck_run ck (udp_items sp dp len sa da text) = ck_run ck (udp_bitems sa sp da dp text len).
Proof. intros. apply ck_run_sum; [items_ok | items_ok |]. unfold items_sum. cbn [udp_items udp_bitems map item_sum zsum fold_right]. lia. Qed.

Lemma udp_decode_built : forall ck sa sp da dp text len,
  u32 sa -> u16 sp -> u32 da -> u16 dp -> bytes text -> u16 len ->
  let c := as_u16 ck (ck_run ck (udp_bitems sa sp da dp text len)) in
  u16 c /\
  udp_decode ck ((be16 sp ++ be16 dp ++ be16 len ++ be16 c) ++ text) len sa da = Ok (mk_udp sp dp len c).
Proof.
  intros ck sa sp da dp text len Hsa Hsp Hda Hdp Ht Hn c.
  assert (Hc : u16 c) by (apply cksum_u16; items_ok).
  split; [exact Hc|].
  unfold be16. cbn [app]. rewrite udp_decode_ge8 by (cbn [length]; lia).
  unfold udp_sum, udp_view, w16. cbn [nth skipn].
  rewrite !of_be16_be16 by assumption. rewrite udp_runs_agree by assumption. fold c.
  rewrite !Z.eqb_refl. reflexivity.
Qed.

Lemma udp_encode_decode : forall ck bs sa da h, bytes bs -> u32 sa -> u32 da ->
  udp_decode ck bs (Z.of_nat (length bs)) sa da = Ok h ->
  udp_build ck sa (ud_sport h) da (ud_dport h) (skipn 8 bs) (ud_len h - 8) = Ok (firstn 8 bs).
Proof.
  intros ck bs sa da h Hb Hsa Hda H.
  apply udp_decode_ok_iff in H as (L & Hlen & Hck & ->). cbn [udp_view ud_sport ud_dport ud_len].
  pose proof (w16_range bs 4 Hb) as R. unfold u16 in R.
  rewrite udp_build_ok by lia. replace (w16 bs 4 - 8 + 8) with (w16 bs 4) by lia.
  rewrite <- udp_runs_agree by auto with ck. fold (udp_sum ck bs sa da). rewrite Hck.
  rewrite !be16_w16, firstn_nth by assumption. reflexivity.
Qed.

Lemma udp_matches_rfc : forall sp dp len c, u16 sp -> u16 dp -> u16 len -> u16 c ->
  be16 sp ++ be16 dp ++ be16 len ++ be16 c = rfc768_bytes sp dp len c.
Proof.
  intros sp dp len c Hsp Hdp Hlen Hc.
  unfold rfc768_bytes, octets32u, be16, u16 in *. norm_pow. cbn [app]. list_eq.
Qed.
Lemma udp_decode_fields_rfc : forall ck bs plen sa da h, bytes bs ->
  udp_decode ck bs plen sa da = Ok h -> h = rfc768_fields bs.
Proof.
  intros ck bs plen sa da h Hb H. apply udp_decode_ok_iff in H as (_ & _ & _ & ->).
  unfold udp_view, rfc768_fields, urow, w16. cbn [Nat.mul Nat.add].
  pose proof (bytes_nth bs 0 Hb). pose proof (bytes_nth bs 1 Hb). pose proof (bytes_nth bs 2 Hb).
  pose proof (bytes_nth bs 3 Hb). pose proof (bytes_nth bs 4 Hb). pose proof (bytes_nth bs 5 Hb).
  pose proof (bytes_nth bs 6 Hb). pose proof (bytes_nth bs 7 Hb).
  unfold of_be16, byte in *. norm_pow. f_equal; lia.
Qed.

Lemma udp_total_sum : forall sa da bs, bytes bs -> (8 <= length bs)%nat -> u32 sa -> u32 da ->
  wsum (pseudo sa da 17 (w16 bs 4) ++ bs) =
  items_sum (udp_items (w16 bs 0) (w16 bs 2) (w16 bs 4) sa da (skipn 8 bs)) + w16 bs 6.
Proof.
  intros sa da bs Hb L Hsa Hda. rewrite wsum_app_even by reflexivity.
  rewrite wsum_pseudo by auto with ck.
  do 8 (destruct bs as [|? bs]; [cbn in L; lia|]).
  rewrite !wsum_two. unfold items_sum, udp_items, w16, of_be16.
  cbn [map item_sum zsum fold_right nth skipn]. lia.
Qed.

Lemma udp_sum_pos : forall bs sa da, bytes bs -> u32 sa -> u32 da ->
  0 < items_sum (udp_items (w16 bs 0) (w16 bs 2) (w16 bs 4) sa da (skipn 8 bs)).
Proof.
  intros. apply (items_sum_pos _ 0 17); [apply udp_items_ok; assumption | cbn; tauto | lia].
Qed.

Lemma udp_accepted_verifies : forall plen sa da, u32 sa -> u32 da -> forall bs h, bytes bs ->
  udp_decode true bs plen sa da = Ok h -> rfc1071_verifies (pseudo sa da 17 plen ++ bs) = true.
Proof.
  intros plen sa da Hsa Hda bs h Hb H.
  apply udp_decode_ok_iff in H as (L & -> & Hck & ->).
  rewrite verifies_wsum by (apply bytes_app; split; [apply pseudo_bytes; auto with ck | assumption]).
  rewrite udp_total_sum by assumption. rewrite <- Hck, udp_sum_on by assumption.
  apply Z.eqb_eq, emitted_sum_verifies, Z.lt_le_incl, udp_sum_pos; assumption.
Qed.

Lemma udp_accept_iff : forall bs plen sa da, bytes bs -> (8 <= length bs)%nat -> u32 sa -> u32 da ->
  let len := of_be16 (nth 4 bs 0) (nth 5 bs 0) in
  let field := of_be16 (nth 6 bs 0) (nth 7 bs 0) in
  ((exists h, udp_decode true bs plen sa da = Ok h) <->
   plen = len /\ field <> 0 /\ rfc1071_verifies (pseudo sa da 17 len ++ bs) = true).
Proof.
  intros bs plen sa da Hb Hl Hsa Hda. cbv zeta. fold (w16 bs 4) (w16 bs 6).
  rewrite verifies_wsum by (apply bytes_app; split; [apply pseudo_bytes; auto with ck | assumption]).
  rewrite udp_total_sum by assumption.
  pose proof (udp_sum_pos bs sa da Hb Hsa Hda) as Hpos. pose proof (w16_range bs 6 Hb) as Hf.
  assert (E : udp_sum true bs sa da = w16 bs 6 <->
              w16 bs 6 <> 0 /\ (oc_norm (items_sum (udp_items (w16 bs 0) (w16 bs 2) (w16 bs 4) sa da (skipn 8 bs))
                                         + w16 bs 6) =? 65535) = true).
  { rewrite udp_sum_on by assumption.
    rewrite as_u16_on by (apply oc_norm_range; lia).
    generalize dependent (items_sum (udp_items (w16 bs 0) (w16 bs 2) (w16 bs 4) sa da (skipn 8 bs))).
    generalize dependent (w16 bs 6). intros f Hf S Hpos. unfold oc_norm, u16 in *. split_ifs; lia. }
  split.
  - intros [h H]. apply udp_decode_ok_iff in H as (_ & -> & Hck & _). split; [reflexivity | apply E, Hck].
  - intros (-> & H2 & H3). exists (udp_view bs). apply udp_decode_ok_iff. repeat split; try assumption.
    apply E. split; assumption.
Qed.

Lemma udp_emitted_verifies : forall sa sp da dp text hdr,
  u32 sa -> u16 sp -> u32 da -> u16 dp -> bytes text -> Z.of_nat (length text) + 8 <= 65535 ->
  udp_build true sa sp da dp text (Z.of_nat (length text)) = Ok hdr ->
  length hdr = 8%nat /\
  rfc1071_verifies (pseudo sa da 17 (Z.of_nat (length text) + 8) ++ hdr ++ text) = true /\
  of_be16 (nth 6 hdr 0) (nth 7 hdr 0) <> 0.
Proof.
  intros sa sp da dp text hdr Hsa Hsp Hda Hdp Ht Hlen H.
  assert (Hn : u16 (Z.of_nat (length text) + 8)) by (unfold u16; lia).
  rewrite udp_build_ok in H by lia. apply Ok_inj in H. subst hdr.
  destruct (udp_decode_built true sa sp da dp text _ Hsa Hsp Hda Hdp Ht Hn) as [Hc Hd].
  split; [reflexivity|]. split.
  - refine (udp_accepted_verifies _ _ _ Hsa Hda _ _ _ Hd).
    repeat (apply bytes_app; split); try apply be16_bytes. assumption.
  - unfold be16 at 1 2 3 4. cbn [app nth]. rewrite of_be16_be16 by assumption.
    apply as_u16_nonzero. rewrite ck_run_norm by items_ok. apply oc_norm_range, items_sum_nonneg. items_ok.
Qed.

Lemma udp_accepts_reference : forall sa sp da dp text,
  u32 sa -> u16 sp -> u32 da -> u16 dp -> bytes text -> Z.of_nat (length text) + 8 <= 65535 ->
  let len := Z.of_nat (length text) + 8 in
  let zeroed := be16 sp ++ be16 dp ++ be16 len ++ [0; 0] in
  let c0 := rfc1071_checksum (pseudo sa da 17 len ++ zeroed ++ text) in
  let c := if c0 =? 0 then 65535 else c0 in
  udp_decode true ((be16 sp ++ be16 dp ++ be16 len ++ be16 c) ++ text) len sa da
    = Ok (mk_udp sp dp len c).
Proof.
  intros sa sp da dp text Hsa Hsp Hda Hdp Ht Hlen len zeroed c0 c.
  assert (Hn : u16 len) by (subst len; unfold u16; lia).
  set (S := items_sum (udp_items sp dp len sa da text)).
  assert (Hok : Forall item_ok (udp_items sp dp len sa da text)) by items_ok.
  assert (Hpos : 0 < S) by (apply (items_sum_pos _ 0 17); [exact Hok | cbn; tauto | lia]).
  assert (Hc0 : c0 = 65535 - oc_norm S).
  { subst c0 zeroed. rewrite checksum_wsum.
    2:{ apply bytes_app. split; [apply pseudo_bytes; auto with ck|].
        repeat (apply bytes_app; split); try apply be16_bytes; try assumption.
        repeat (apply bytes_cons; split; auto with ck). constructor. }
    do 2 f_equal. rewrite wsum_app_even, wsum_pseudo by (reflexivity || auto with ck).
    unfold be16. cbn [app]. rewrite !wsum_two. subst S. unfold items_sum, udp_items, u16 in *.
    cbn [map item_sum zsum fold_right]. lia. }
  pose proof (oc_norm_range S (Z.lt_le_incl _ _ Hpos)) as Rn.
  assert (Rc : u16 c) by (subst c; unfold u16; destruct (c0 =? 0); lia).
  unfold be16. cbn [app]. rewrite udp_decode_ge8 by (cbn [length]; lia).
  unfold udp_sum, udp_view, w16. cbn [nth skipn]. rewrite !of_be16_be16 by assumption.
  rewrite Z.eqb_refl, ck_run_norm by exact Hok. fold S.
  rewrite as_u16_on by (apply oc_norm_range; lia). cbn [negb].
  replace ((if oc_norm S =? 65535 then 65535 else 65535 - oc_norm S) =? c) with true; [reflexivity|].
  subst c. rewrite Hc0. clearbody S. unfold oc_norm in *. split_ifs; lia.
Qed.
