(* Facts about the byte helpers of Model/AppBytes.v. *)
From Elvis Require Import Proofs.BaseFacts Model.Base Model.AppBytes.
Local Open Scope Z_scope.
Ltac Zify.zify_post_hook ::= Z.div_mod_to_equations.

Lemma bind_no_panic {A B} (r : result A) (f : A -> result B) :
  is_panic r = false -> (forall x, r = Ok x -> is_panic (f x) = false) ->
  is_panic (bind r f) = false.
Proof. destruct r; cbn [bind is_panic]; intros H K; auto; discriminate. Qed.

Lemma bind_answers {A B} (r : result A) (f : A -> result B) :
  answers r = true -> (forall x, r = Ok x -> answers (f x) = true) ->
  answers (bind r f) = true.
Proof. destruct r; cbn [bind answers]; intros H K; auto; discriminate. Qed.

Lemma answers_no_panic {A} (r : result A) : answers r = true -> is_panic r = false.
Proof. destruct r; cbn; intros H; auto; discriminate. Qed.

Lemma answers_cases {A} (r : result A) : answers r = true ->
  (exists x, r = Ok x) \/ (exists e, r = Err e).
Proof. destruct r; cbn; intros H; try discriminate; eauto. Qed.

Lemma rd_ok {A} (o : option A) (x : A) : rd o = Ok x -> o = Some x.
Proof. destruct o; cbn [rd]; intros H; inversion H; reflexivity. Qed.

Lemma rd_no_panic {A} (o : option A) : is_panic (rd o) = false.
Proof. destruct o; reflexivity. Qed.

Lemma rd_answers {A} (o : option A) : answers (rd o) = true.
Proof. destruct o; reflexivity. Qed.
Ltac step_rd := apply bind_answers; [apply rd_answers | intros [? ?] _].

Lemma bytes_app a b : bytes (a ++ b) = bytes a && bytes b.
Proof. apply forallb_app. Qed.

Lemma bytes_cons c l : bytes (c :: l) = byte c && bytes l.
Proof. reflexivity. Qed.

Lemma byte_iff b : byte b = true <-> 0 <= b < 256.
Proof. unfold byte. lia. Qed.

Lemma rng_iff hi v : rng hi v = true <-> 0 <= v < hi.
Proof. unfold rng. lia. Qed.

(* a boolean well-formedness conjunction in the context: one hypothesis per clause, ranges as inequalities *)
Ltac split_wf :=
  repeat match goal with
         | H : (_ && _) = true |- _ => apply andb_prop in H as [? ?]
         end;
  repeat match goal with H : rng _ _ = true |- _ => apply rng_iff in H end.
Lemma bytes_be8 v : bytes (be8 v) = true.
Proof. unfold be8, bytes, forallb, byte. lia. Qed.
Lemma bytes_be16 v : bytes (be16 v) = true.
Proof. unfold be16, bytes, forallb, byte. lia. Qed.
Lemma bytes_be32 v : bytes (be32 v) = true.
Proof. unfold be32, bytes, forallb, byte. lia. Qed.
Lemma bytes_be48 v : bytes (be48 v) = true.
Proof. unfold be48, bytes, forallb, byte. lia. Qed.

Lemma consumed_firstn (bs enc rest : list Z) : bs = enc ++ rest ->
  enc = firstn (length bs - length rest) bs.
Proof.
  intros ->. rewrite app_length, Nat.add_sub, firstn_app, Nat.sub_diag, firstn_all.
  cbn [firstn]. rewrite app_nil_r. reflexivity.
Qed.

Lemma next_u8_be8 v r : 0 <= v < 256 -> next_u8 (be8 v ++ r) = Some (v, r).
Proof. intros H. unfold be8. cbn [app next_u8]. do 2 f_equal. lia. Qed.

Lemma next_u16_be16 v r : 0 <= v < 65536 -> next_u16 (be16 v ++ r) = Some (v, r).
Proof. intros H. unfold be16. cbn [app next_u16]. do 2 f_equal. lia. Qed.

Lemma next_u32_be32 v r : 0 <= v < 4294967296 -> next_u32 (be32 v ++ r) = Some (v, r).
Proof. intros H. unfold be32. cbn [app next_u32]. do 2 f_equal. lia. Qed.

(* for a full u64 the two top bytes are lost: the reader sees v mod 2^48 *)
Lemma next_u48_be48_mod v r : 0 <= v ->
  next_u48 (be48 v ++ r) = Some (v mod 281474976710656, r).
Proof. intros H. unfold be48. cbn [app next_u48]. do 2 f_equal. lia. Qed.

Lemma next_u48_be48 v r : 0 <= v < 281474976710656 -> next_u48 (be48 v ++ r) = Some (v, r).
Proof.
  intros H. rewrite next_u48_be48_mod by lia. do 2 f_equal. apply Z.mod_small. lia.
Qed.

(* [Hb : bytes (a :: b :: .. :: r) = true]: one range fact per leading byte, Hb for the rest *)
Ltac split_bytes Hb :=
  rewrite ?bytes_cons in Hb;
  repeat (let B := fresh "Bb" in apply andb_prop in Hb as [B Hb]; apply byte_iff in B).
Ltac reader_inv Hb := unfold rng; cbn [app]; split; [repeat (f_equal; try lia) | split; [lia | exact Hb]].

(* a reader inverts its writer: one inversion step of a decoder *)
Definition reads (next : list Z -> option (Z * list Z)) (enc : Z -> list Z) (hi : Z) : Prop :=
  forall bs v r, bytes bs = true -> next bs = Some (v, r) ->
  bs = enc v ++ r /\ rng hi v = true /\ bytes r = true.
Lemma next_u8_inv : reads next_u8 be8 256.
Proof.
  intros bs v r. destruct bs as [|a r0]; cbn [next_u8]; intros Hb H; inversion H; subst.
  split_bytes Hb. unfold be8. reader_inv Hb.
Qed.
Lemma next_u16_inv : reads next_u16 be16 65536.
Proof.
  intros bs v r. destruct bs as [|a [|b r0]]; cbn [next_u16]; intros Hb H; inversion H; subst.
  split_bytes Hb. unfold be16. reader_inv Hb.
Qed.
Lemma next_u32_inv : reads next_u32 be32 4294967296.
Proof.
  intros bs v r. destruct bs as [|a [|b [|c [|d r0]]]]; cbn [next_u32]; intros Hb H; inversion H; subst.
  split_bytes Hb. unfold be32. reader_inv Hb.
Qed.
Lemma next_u48_inv : reads next_u48 be48 281474976710656.
Proof.
  intros bs v r. destruct bs as [|a [|b [|c [|d [|e [|f r0]]]]]]; cbn [next_u48]; intros Hb H; inversion H; subst.
  split_bytes Hb. unfold be48. reader_inv Hb.
Qed.

Lemma read_until_app d n r : free_of d n = true -> read_until d (n ++ d :: r) = Ok (n, r).
Proof.
  induction n as [|c n IH]; cbn [app read_until free_of forallb]; intros H.
  - rewrite Z.eqb_refl. reflexivity.
  - apply andb_prop in H as [Hc Hn]. apply negb_true_iff in Hc. rewrite Hc.
    fold (free_of d n) in Hn. rewrite (IH Hn). reflexivity.
Qed.

Lemma read_until_inv d bs n r : read_until d bs = Ok (n, r) ->
  bs = n ++ d :: r /\ free_of d n = true.
Proof.
  revert n r. induction bs as [|c bs IH]; cbn [read_until]; intros n r H; [discriminate|].
  destruct (c =? d) eqn:E.
  - inversion H; subst. apply Z.eqb_eq in E. subst. split; reflexivity.
  - apply bind_ok_inv in H as [[n0 r0] [H0 H1]]. inversion H1; subst.
    destruct (IH _ _ H0) as [-> Hf]. split; [reflexivity|].
    cbn [free_of forallb]. rewrite E. exact Hf.
Qed.

Lemma read_until_no_panic d bs : is_panic (read_until d bs) = false.
Proof.
  induction bs as [|c bs IH]; cbn [read_until]; [reflexivity|].
  destruct (c =? d); [reflexivity|].
  destruct (read_until d bs) as [[n r]| | |]; cbn [bind is_panic] in *; auto.
Qed.

Lemma read_until_answers d bs : answers (read_until d bs) = true.
Proof.
  induction bs as [|c bs IH]; cbn [read_until]; [reflexivity|].
  destruct (c =? d); [reflexivity|].
  destruct (read_until d bs) as [[n r]| | |]; cbn [bind answers] in *; auto.
Qed.

Lemma bytes_split a c b : bytes (a ++ c :: b) = true ->
  bytes a = true /\ byte c = true /\ bytes b = true.
Proof.
  rewrite bytes_app, bytes_cons. intros H.
  apply andb_prop in H as [Ha H]. apply andb_prop in H as [Hc Hb]. auto.
Qed.

Lemma bind_rd_ok {B} next enc hi (R : reads next enc hi) bs (k : Z * list Z -> result B) y :
  bytes bs = true -> bind (rd (next bs)) k = Ok y ->
  exists v r, bs = enc v ++ r /\ rng hi v = true /\ bytes r = true /\ k (v, r) = Ok y.
Proof.
  intros Hb H. apply bind_ok_inv in H as [[v r] [E H]]. apply rd_ok in E.
  destruct (R _ _ _ Hb E) as (-> & Hr & Hb'). eauto 6.
Qed.
(* [B : bytes input], [H : bind (rd (next_uN input)) k = Ok y]: name the value, rewrite the input, keep B for the rest *)
Ltac rd_step B H :=
  first [ apply (bind_rd_ok _ _ _ next_u16_inv _ _ _ B) in H
        | apply (bind_rd_ok _ _ _ next_u8_inv _ _ _ B) in H
        | apply (bind_rd_ok _ _ _ next_u48_inv _ _ _ B) in H
        | apply (bind_rd_ok _ _ _ next_u32_inv _ _ _ B) in H ];
  let v := fresh "v" in let r := fresh "r" in let R := fresh "R" in let B' := fresh "B" in
  destruct H as (v & r & -> & R & B' & H); clear B; rename B' into B.
Lemma bind_until_ok {B} d bs (k : list Z * list Z -> result B) y :
  bytes bs = true -> bind (read_until d bs) k = Ok y ->
  exists n r, bs = n ++ d :: r /\ free_of d n = true /\ bytes n = true /\ bytes r = true /\ k (n, r) = Ok y.
Proof.
  intros Hb H. apply bind_ok_inv in H as [[n r] [E H]]. apply read_until_inv in E as [-> F].
  apply bytes_split in Hb as (Bn & _ & Br). eauto 8.
Qed.
Ltac until_step B H :=
  apply (bind_until_ok _ _ _ _ B) in H;
  let n := fresh "n" in let r := fresh "r" in let F := fresh "F" in let Bn := fresh "Bn" in let B' := fresh "B" in
  destruct H as (n & r & -> & F & Bn & B' & H); clear B; rename B' into B.

(* sanity anchors of utf8_valid (its tie to std::str::from_utf8 is the lock-step run) *)
Lemma utf8_ascii l : forallb (fun b => b <? 128) l = true -> utf8_valid l = true.
Proof.
  induction l as [|b l IH]; cbn [forallb utf8_valid]; intros H; [reflexivity|].
  apply andb_prop in H as [Hb Hl]. rewrite Hb. auto.
Qed.

Example utf8_examples :
  utf8_valid [195; 169] = true /\            (* U+00E9 *)
  utf8_valid [226; 130; 172] = true /\       (* U+20AC *)
  utf8_valid [240; 159; 152; 128] = true /\  (* U+1F600 *)
  utf8_valid [244; 143; 191; 191] = true /\  (* U+10FFFF *)
  utf8_valid [192; 128] = false /\           (* overlong *)
  utf8_valid [224; 159; 191] = false /\      (* overlong 3 *)
  utf8_valid [237; 160; 128] = false /\      (* surrogate U+D800 *)
  utf8_valid [244; 144; 128; 128] = false /\ (* above U+10FFFF *)
  utf8_valid [128] = false /\ utf8_valid [255] = false /\ utf8_valid [195] = false.
Proof. vm_compute. repeat split. Qed.
