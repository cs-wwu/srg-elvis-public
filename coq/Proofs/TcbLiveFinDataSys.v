(* C03 (c) at system level: write, close at once (the text is still queued), emit.  The network
   then holds the flight of data segments followed by the FIN, sequenced after the last byte; after
   in-order delivery the peer's application has read every byte and the peer is in CLOSE-WAIT. *)
From Elvis Require Import Model.Base Model.U32 Model.Tcb Model.TcpNet Proofs.U32Facts Proofs.TcbSafetySnd
  Proofs.TcbSafetySys Proofs.TcbLive Proofs.TcbLiveSys Proofs.TcbLiveThm Proofs.TcbLiveWin
  Proofs.TcbLiveWinSys Proofs.TcbLiveLossRound Proofs.TcbLiveAckRound Proofs.TcbLiveClose
  Proofs.TcbLiveFinData.
Local Open Scope Z_scope.

Section FinData.
  Variable c : config.

  Lemma lclose_step s x t : panicked s = false -> end_of s x = ELive t -> st t = Established ->
    out_text t <> [] ->
    fst (sys_step c s (LClose x)) = set_end s x (ELive (set_st (set_fin_pending t true) FinWait1)).
  Proof.
    intros Pn El Est Hne. unfold sys_step. rewrite Pn, El, (close_with_text t Est Hne). reflexivity.
  Qed.

  Theorem close_after_write s a b x bytes :
    Quiescent c s a b -> 0 < zlen bytes <= 65535 ->
    let n := zlen bytes in
    let p := sel x a b in
    let q := sel x b a in
    let s1 := run c s [LSend x bytes; LClose x; LEmit x] in
    let s2 := run c s1 (repeat (LDeliver x 0) (length (net_of s1 x)) ++ [LRecv (other x)]) in
    (exists lp rp segs, net_of s1 x = segs ++ [mkSeg (fin_hdr lp rp (wadd p n) q) []] /\
        flight lp rp q p segs /\ flight_bytes segs = bytes) /\
    (exists tx ty, end_of s2 x = ELive tx /\ end_of s2 (other x) = ELive ty /\
        st tx = FinWait1 /\ snd_una tx = p /\ snd_nxt tx = wadd (wadd p n) 1 /\ out_text tx = [] /\
        st ty = CloseWait /\ rcv_nxt ty = wadd (wadd p n) 1 /\ in_text ty = [] /\ in_segs ty = []) /\
    net_of s2 x = [] /\ net_of s2 (other x) = [] /\ panicked s2 = false /\
    sub_of s2 x = sub_of s x ++ bytes /\ sub_of s2 (other x) = sub_of s (other x) /\
    delivered s2 (other x) = delivered s (other x) ++ bytes /\ delivered s2 x = delivered s x.
  Proof.
    intros HQ Hn n p q s1 s2.
    destruct (quiescent_at c s a b x HQ) as (tx & ty & Ex & Ey & Qx & Qy & Mx & My & Nx & Ny & Pn).
    fold p q in Qx, Qy.
    assert (Est : st tx = Established) by apply Qx.
    set (s0 := fst (sys_step c s (LSend x bytes))).
    assert (E0 : s0 = set_end (set_sub s x (sub_of s x ++ bytes)) x (ELive (tcb_send tx bytes)))
      by (apply (send_step c s x tx Pn Ex Est)).
    pose proof (writer_of_quiet tx p q bytes Qx) as W.
    set (tx0 := tcb_send tx bytes) in *.
    destruct W as (W1 & W2 & W3 & W4 & W5 & W6 & W7 & W8 & W9 & W10 & W11 & W12 & W13 & W14 & W15 & W16 & W17).
    assert (Hbne : bytes <> []) by (intros ->; cbn in Hn; lia).
    (* the close: the FIN is deferred *)
    assert (P0 : panicked s0 = false) by (rewrite E0; sysr; first [reflexivity|assumption]).
    assert (Ex0 : end_of s0 x = ELive tx0) by (rewrite E0; sysr; first [reflexivity|assumption]).
    pose proof (lclose_step s0 x tx0 P0 Ex0 W1 ltac:(rewrite W7; exact Hbne)) as EC.
    set (tx1 := set_st (set_fin_pending tx0 true) FinWait1) in EC.
    set (sC := set_end s0 x (ELive tx1)) in EC.
    (* the emission: the flight, then the FIN *)
    destruct (segments_flight_fin tx1 bytes) as (segs & E1 & F & B & Hne);
      try (subst tx1; tcb_simpl; first [reflexivity | assumption | congruence]).
    cbv zeta in E1. set (tx2 := set_rto _ RTO) in E1.
    change (lport tx1) with (lport tx0) in *. change (rport tx1) with (rport tx0) in *.
    change (rcv_nxt tx1) with (rcv_nxt tx0) in *. change (snd_nxt tx1) with (snd_nxt tx0) in *.
    rewrite W3, W4 in *. fold n in E1.
    set (fin := mkSeg (fin_hdr (lport tx0) (rport tx0) (wadd p n) q) []) in *.
    assert (PC : panicked sC = false) by (subst sC; sysr; first [reflexivity|assumption]).
    assert (ExC : end_of sC x = ELive tx1) by (subst sC; sysr; first [reflexivity|assumption]).
    pose proof (lemit_step c sC x tx1 tx2 (segs ++ [fin]) PC ExC E1) as EE.
    assert (NxC : net_of sC x = []) by (subst sC; rewrite E0; sysr; first [reflexivity|assumption]).
    rewrite NxC in EE. cbn [app] in EE.
    assert (Es1 : s1 = set_net (set_end sC x (ELive tx2)) x (segs ++ [fin])).
    { subst s1. unfold run. cbn [fold_left]. fold s0. rewrite EC. exact EE. }
    assert (Nx1 : net_of s1 x = segs ++ [fin]) by (rewrite Es1; sysr; first [reflexivity|assumption]).
    assert (Ey1 : end_of s1 (other x) = ELive ty) by (rewrite Es1; subst sC; rewrite E0; sysr; first [reflexivity|assumption]).
    assert (P1 : panicked s1 = false) by (rewrite Es1; sysr; first [reflexivity|assumption]).
    (* delivery of the data *)
    assert (F' : flight (lport tx0) (rport tx0) q (rcv_nxt ty) segs) by (rewrite (quiet_rcv Qy); exact F).
    assert (Hu' : u32 (rcv_nxt ty)) by (rewrite (quiet_rcv Qy); exact (quiet_u32_rcv Qy)).
    assert (Hfl : flight_len segs = n) by (unfold flight_len; now rewrite B).
    pose proof (feed_inorder (lport tx0) (rport tx0) q segs ty (quiet_st Qy) (quiet_in_segs Qy) (quiet_rcv_wnd Qy) Hu' F'
                  ltac:(rewrite (quiet_una Qy); apply mod_leq_refl) ltac:(rewrite (quiet_in_text Qy), Hfl; cbn; lia)) as Hf1.
    destruct (recv_flight_facts (lport tx0) (rport tx0) q segs ty F' (quiet_rcv_wnd Qy) Hu') as (C1 & R1 & I1 & S1 & acks & O1 & FA1).
    specialize (S1 (quiet_in_segs Qy)).
    cbv zeta in *. set (t1 := recv_flight ty segs) in *.
    destruct C1 as (_ & _ & Cm & Cst & Cun & Cnx & Csw & Crw & Cot & Crx & Cfp & Crto & Ctw).
    rewrite (quiet_rcv Qy), Hfl in R1. rewrite (quiet_in_text Qy), B in I1. cbn [app] in I1.
    (* delivery of the FIN *)
    assert (Hfin : fin_ack (fin_hdr (lport tx0) (rport tx0) (wadd p n) q)) by (unfold fin_ack, fin_hdr; auto).
    pose proof (fin_arrives t1 (fin_hdr (lport tx0) (rport tx0) (wadd p n) q)
                  ltac:(rewrite Cst, (quiet_st Qy); reflexivity) S1 (eq_trans Crw (quiet_rcv_wnd Qy)) ltac:(rewrite R1; apply wadd_u32)
                  Hfin ltac:(rewrite R1; reflexivity)
                  ltac:(rewrite Cun, (quiet_una Qy); apply mod_leq_refl)) as G1.
    rewrite (ps_fin_first (set_in_segs t1 []) (fin_hdr (lport tx0) (rport tx0) (wadd p n) q) eq_refl
               ltac:(cbn [set_in_segs st]; rewrite Cst, (quiet_st Qy); reflexivity) (wadd_u32 _ _)
               ltac:(cbn [set_in_segs rcv_nxt]; rewrite R1; reflexivity)) in G1.
    cbv zeta in G1. cbn [set_in_segs st] in G1. rewrite Cst, (quiet_st Qy) in G1.
    fold fin in G1. set (t2 := set_st _ CloseWait) in G1.
    assert (Hfeed : feed ty (segs ++ [fin]) = Some (Live t2)).
    { rewrite (feed_app ty segs t1 _ Hf1). apply (feed_cons t1 fin t2 [] G1). }
    pose proof (deliver_all_feed c x _ _ s1 ty _ Ey1 Nx1 Hfeed (le_n _)) as ED. cbn [fed_sys] in ED.
    set (sD := set_end (set_net s1 x []) (other x) (ELive t2)) in ED.
    assert (PD : panicked sD = false) by (subst sD; sysr; first [reflexivity|assumption]).
    assert (RD : run c s1 (repeat (LDeliver x 0) (length (net_of s1 x))) = sD).
    { rewrite Nx1, run_delivers; rewrite ED; [reflexivity|exact PD]. }
    assert (It2 : in_text t2 = bytes) by (subst t2; tcb_simpl; exact I1).
    assert (EyD : end_of sD (other x) = ELive t2) by (subst sD; sysr; first [reflexivity|assumption]).
    pose proof (lrecv_step c sD (other x) t2 PD EyD ltac:(rewrite It2; exact Hbne)) as ER.
    rewrite It2 in ER.
    assert (Es2 : s2 = set_del (set_end sD (other x) (ELive (set_in_text t2 []))) (other x)
                               (del_of sD (other x) ++ [bytes])).
    { subst s2. rewrite run_app, RD. unfold run. cbn [fold_left]. exact ER. }
    splits.
    - exists (lport tx0), (rport tx0), segs. splits; auto.
    - exists tx2, (set_in_text t2 []). rewrite Es2. subst sD. rewrite Es1. subst sC. sysr.
      splits; auto; try (subst tx2 tx1; tcb_simpl; auto; fail); try (subst t2; tcb_simpl; auto; fail).
      + subst tx2 tx1; tcb_simpl. rewrite ?W3. reflexivity.
      + subst t2; tcb_simpl. now rewrite R1.
    - rewrite Es2. subst sD. sysr; first [reflexivity|assumption].
    - rewrite Es2. subst sD. rewrite Es1. subst sC. rewrite E0. sysr; first [reflexivity|assumption].
    - rewrite Es2. sysr; first [reflexivity|assumption].
    - rewrite Es2. subst sD. rewrite Es1. subst sC. rewrite E0. sysr; first [reflexivity|assumption].
    - rewrite Es2. subst sD. rewrite Es1. subst sC. rewrite E0. sysr; first [reflexivity|assumption].
    - unfold delivered. rewrite Es2. sysr. subst sD. sysr. rewrite Es1. subst sC. rewrite E0. sysr.
      rewrite concat_app. cbn [concat]. now rewrite app_nil_r.
    - unfold delivered. f_equal. rewrite Es2. subst sD. rewrite Es1. subst sC. rewrite E0. sysr; first [reflexivity|assumption].
  Qed.
End FinData.
