(* C03 (d): from a quiescent state, A closes, one loss-free round, B closes, two loss-free rounds,
   and A's 2*MSL timer: both endpoints are released.  For every quiescent state. *)
From Elvis Require Import Model.Base Model.U32 Model.Tcb Model.TcpNet Proofs.U32Facts Proofs.TcbSafetySys
  Proofs.TcbLive Proofs.TcbLiveSys Proofs.TcbLiveThm Proofs.TcbLiveHs Proofs.TcbLiveHsSys
  Proofs.TcbLiveClose.
Local Open Scope Z_scope.

Lemma quiet_literal t a r : quiet t a r ->
  t = mkTcb (lport t) (rport t) (mtu t) (listen_init t) Established a a 65535 (snd_wl1 t) (snd_wl2 t)
            (snd_iss t) (rcv_irs t) r 65535 [] [] [] false [] [] RTO None.
Proof.
  intros (Q1 & Q2 & Q3 & Q4 & Q5 & Q6 & Q7 & Q8 & Q9 & Q10 & Q11 & Q12 & Q13 & Q14 & _).
  tcb_eq.
Qed.

(* to prove something of every quiescent state, prove it of the literal ones *)
Lemma quiescent_literal_ind c (P : sys -> Prop) a b :
  (forall lpA rpA mA liA w1A w2A issA irsA lpB rpB mB liB w1B w2B issB irsB sA sB dA dB,
     u32 a -> u32 b -> 100 <= mA <= 65535 -> 100 <= mB <= 65535 ->
     P (mkSys (ELive (mkTcb lpA rpA mA liA Established a a 65535 w1A w2A issA irsA b 65535 [] [] [] false [] [] RTO None))
              (ELive (mkTcb lpB rpB mB liB Established b b 65535 w1B w2B issB irsB a 65535 [] [] [] false [] [] RTO None))
              [] [] sA sB dA dB false)) ->
  forall s, Quiescent c s a b -> P s.
Proof.
  intros HP s (tA & tB & H1 & H2 & QA & QB & H5 & H6 & H7 & H8 & H9).
  assert (Es : s = mkSys (ELive tA) (ELive tB) [] [] (subA s) (subB s) (delA s) (delB s) false).
  { apply sys_ext; try (intros x; destruct x; cbn; auto). cbn. auto. }
  rewrite Es, (quiet_literal tA a b QA), (quiet_literal tB b a QB). apply HP; try apply QA; apply QB.
Qed.

Lemma recv_dead s x : end_of s x = EDead -> fst (recv s x) = s.
Proof. intros El. unfold recv. now rewrite El. Qed.

(* a released endpoint does nothing in its half-round *)
Lemma half_dead c s y t : end_of s y = EDead -> net_of s y = [] ->
  end_of s (other y) = ELive t -> in_text t = [] -> fair_half c s y = s.
Proof.
  intros Ey Ny Eo Hi. unfold fair_half, fair_half_t, tick, emit. rewrite Ey. cbn iota beta.
  rewrite Ey. cbn [fst]. rewrite Ey. cbn iota beta. rewrite Ny. cbn [length deliver_all]. rewrite Ny.
  rewrite (recv_both s y). rewrite (recv_dead s y Ey).
  rewrite (recv_eval_empty s (other y) t Eo Hi).
  apply sys_ext.
  - intros x. destruct (side_cases (other y) x) as [-> | ->]; sysr; [|reflexivity].
    rewrite Eo. f_equal. tcb_eq. congruence.
  - intros x. sysr; first [reflexivity|assumption].
  - intros x. sysr; first [reflexivity|assumption].
  - intros x. sysr; first [reflexivity|assumption].
  - sysr; first [reflexivity|assumption].
Qed.

Ltac close_norm_in H :=
  cbv [sys_step tcb_close queue_pending_fin andb fst snd
       panicked end_of net_of sub_of del_of endA endB netA netB subA subB delA delB
       set_end set_net set_sub set_del other
       tcb_open listen_tcb enqueue ack_hdr hb hb_ack hb_wnd hb_flag hb_syn hb_fin hb_rst ctl0
       set_st set_snd_una set_snd_nxt set_snd_window set_rcv_irs set_rcv_nxt set_out_text
       set_retx set_oneshot set_fin_pending set_in_segs set_in_text set_rto set_time_wait
       lport rport mtu listen_init st snd_una snd_nxt snd_wnd snd_wl1 snd_wl2 snd_iss
       rcv_irs rcv_nxt rcv_wnd out_text retx oneshot fin_pending in_segs in_text rto time_wait
       h_sport h_dport h_seq h_ack h_ctl h_wnd h_urg c_urg c_ack c_psh c_rst c_syn c_fin
       s_hdr s_text t_seg t_needs orb app map] in H.

Section Close.
  Variable c : config.

  Theorem close_sequential s a b : Quiescent c s a b ->
    run c s [LClose SA; LFair 1; LClose SB; LFair 2; LTick SA 2001] =
    mkSys EDead EDead [] [] (subA s) (subB s) (delA s) (delB s) false.
  Proof.
    intros HQ. pattern s. apply (quiescent_literal_ind c _ a b); [|exact HQ]. clear s HQ.
    intros lpA rpA mA liA w1A w2A issA irsA lpB rpB mB liB w1B w2B issB irsB sA sB dA dB Hua Hub HmA HmB.
    cbn [subA subB delA delB].
    cbn [run fold_left].
    (* A closes *)
    match goal with |- context [sys_step c ?s0 (LClose SA)] => set (s1 := fst (sys_step c s0 (LClose SA))) end.
    close_norm_in s1.
    match goal with s1 := mkSys (ELive ?x) (ELive ?y) _ _ _ _ _ _ _ |- _ => set (tA1 := x) in s1; set (tB0 := y) in s1 end.
    rewrite (fairk c s1 1 eq_refl). cbn [fair_rounds].
    (* round 1, A's half: the FIN and its copy *)
    set (finAh := mkHdr lpA rpA a b (mkCtl false true false false false true) 65535 0).
    set (finA := mkSeg finAh []).
    assert (HfinA : fin_ack finAh) by (unfold fin_ack; auto).
    pose proof (fin_arrives tB0 finAh eq_refl eq_refl eq_refl Hua HfinA eq_refl (mod_leq_refl b)) as G1.
    fold finA in G1.
    rewrite (ps_fin_first (set_in_segs tB0 []) finAh eq_refl eq_refl Hua eq_refl) in G1.
    cbv zeta in G1. cbn [set_in_segs st] in G1. set (tB1 := set_st _ CloseWait) in G1.
    pose proof (fin_again_arrives tB1 finAh eq_refl eq_refl eq_refl HfinA Hua eq_refl (mod_leq_refl b)) as G2.
    fold finA in G2.
    rewrite (ps_fin_again (set_in_segs tB1 []) finAh eq_refl eq_refl Hua eq_refl) in G2.
    cbv zeta in G2. cbn [set_in_segs st tB1 set_st] in G2. set (tB2 := set_oneshot _ _) in G2.
    rewrite (fair_half_flush c s1 SA tA1 tB0 ([finA] ++ [finA]) (Live tB2)); [|reflexivity..|cbn; lia|].
    2: { unfold s1. cbn [net_of netA netB app]. rewrite (feed_cons _ _ _ _ G1), (feed_cons _ _ _ _ G2). reflexivity. }
    clear G1 G2. subst tA1 tB2 tB1 tB0 s1. sys_simpl. cbn [fed_end]. tcb_norm.
    match goal with |- context [mkSys (ELive ?x) (ELive ?y)] => set (tA5 := x); set (tB3 := y) end.
    set (s2 := mkSys _ _ _ _ _ _ _ _ _).
    (* round 1, B's half: the two ACKs; A reaches FIN-WAIT-2 *)
    set (ackBh := mkHdr lpB rpB b (wadd a 1) (mkCtl false true false false false false) 65535 0).
    set (ackB := mkSeg ackBh []).
    assert (HackB : ack_only ackBh) by (unfold ack_only; auto).
    destruct (ack_of_fin_finwait1 tA5 ackBh (mkTx (mkSeg (mkHdr lpA rpA a b (mkCtl false true false false false true) 65535 0) []) false)
                eq_refl eq_refl eq_refl eq_refl Hub HackB eq_refl Hua eq_refl eq_refl eq_refl eq_refl eq_refl)
      as (w & wl1 & wl2 & G1 & Hwv).
    assert (Hw : w = 65535) by (destruct Hwv as [-> | ->]; reflexivity). subst w. clear Hwv.
    fold ackB in G1. set (tA6 := set_st _ FinWait2) in G1.
    assert (G2 : segment_arrives tA6 ackB = Ok (set_in_segs tA6 [], AOk)).
    { apply ack_noop_arrives; try reflexivity; try assumption. apply mod_leq_refl. }
    set (tA7 := set_in_segs tA6 []) in G2.
    rewrite (fair_half_flush c s2 SB tB3 tA5 ([ackB; ackB] ++ []) (Live tA7)); [|reflexivity..|cbn; lia|].
    2: { unfold s2. cbn [net_of netA netB app]. rewrite (feed_cons _ _ _ _ G1), (feed_cons _ _ _ _ G2). reflexivity. }
    clear G1 G2. subst tA7 tA6 tA5 tB3 s2. sys_simpl. cbn [fed_end]. tcb_norm.
    (* B closes *)
    match goal with |- context [sys_step c ?s0 (LClose SB)] => set (s3 := fst (sys_step c s0 (LClose SB))) end.
    close_norm_in s3.
    match goal with s3 := mkSys (ELive ?x) (ELive ?y) _ _ _ _ _ _ _ |- _ => set (tA9 := x) in s3; set (tB8 := y) in s3 end.
    rewrite (fairk c s3 2 eq_refl). cbn [fair_rounds].
    (* round 2, A's half: nothing to do in FIN-WAIT-2 *)
    rewrite (fair_half_flush c s3 SA tA9 tB8 ([] ++ []) (Live tB8)); [|reflexivity..|cbn; lia|reflexivity].
    subst tA9 tB8 s3. sys_simpl. cbn [fed_end]. tcb_norm.
    match goal with |- context [mkSys (ELive ?x) (ELive ?y)] => set (tA13 := x); set (tB9 := y) end.
    set (s4 := mkSys _ _ _ _ _ _ _ _ _).
    (* round 2, B's half: B's FIN and its copy; A enters TIME-WAIT *)
    set (finBh := mkHdr lpB rpB b (wadd a 1) (mkCtl false true false false false true) 65535 0).
    set (finB := mkSeg finBh []).
    assert (HfinB : fin_ack finBh) by (unfold fin_ack; auto).
    pose proof (fin_arrives tA13 finBh eq_refl eq_refl eq_refl Hub HfinB eq_refl (mod_leq_refl (wadd a 1))) as M1.
    fold finB in M1.
    rewrite (ps_fin_first (set_in_segs tA13 []) finBh eq_refl eq_refl Hub eq_refl) in M1.
    cbv zeta in M1. cbn [set_in_segs st] in M1. set (tA14 := set_rto _ RTO) in M1.
    pose proof (fin_in_timewait tA14 finBh eq_refl eq_refl eq_refl HfinB Hub eq_refl) as M2.
    cbv zeta in M2. fold finB in M2. set (tA15 := set_time_wait _ _) in M2.
    rewrite (fair_half_flush c s4 SB tB9 tA13 ([finB] ++ [finB]) (Live tA15)); [|reflexivity..|cbn; lia|].
    2: { unfold s4. cbn [net_of netA netB app]. rewrite (feed_cons _ _ _ _ M1), (feed_cons _ _ _ _ M2). reflexivity. }
    clear M1 M2 HfinB. subst tA15 tA14 tA13 tB9 s4 finB finBh. sys_simpl. cbn [fed_end]. tcb_norm.
    match goal with |- context [mkSys (ELive ?x) (ELive ?y)] => set (tA16 := x); set (tB13 := y) end.
    set (s5 := mkSys _ _ _ _ _ _ _ _ _).
    (* round 3 (second round of LFair 2), A's half: the ACKs; B's TCB is deleted *)
    set (kh := mkHdr lpA rpA (wadd a 1) (wadd b 1) (mkCtl false true false false false false) 65535 0).
    set (k := mkSeg kh []).
    assert (Hk : ack_only kh) by (unfold ack_only; auto).
    destruct (ack_of_fin_lastack tB13 kh
                (mkTx (mkSeg (mkHdr lpB rpB b (wadd a 1) (mkCtl false true false false false true) 65535 0) []) false)
                eq_refl eq_refl eq_refl eq_refl (wadd_u32 a 1) Hk eq_refl Hub eq_refl eq_refl eq_refl eq_refl eq_refl)
      as (tB14 & P1 & P2).
    fold k in P1. change (in_text tB13) with (@nil Z) in P2.
    rewrite (fair_half_flush c s5 SA tA16 tB13 ([k; k; k] ++ []) (Closed tB14)); [|reflexivity..|exact P2|cbn; lia|].
    2: { unfold s5. cbn [net_of netA netB app]. rewrite (feed_close _ _ _ _ P1). reflexivity. }
    clear P1 P2. subst tA16 s5. sys_simpl. cbn [fed_end]. clear tB13 tB14. tcb_norm.
    match goal with |- context [mkSys (ELive ?x) EDead] => set (tA20 := x) end.
    set (s6 := mkSys _ _ _ _ _ _ _ _ _).
    (* B's half: nothing (B is released) *)
    rewrite (half_dead c s6 SB tA20 eq_refl eq_refl eq_refl eq_refl).
    (* A's 2*MSL timer *)
    rewrite (tick_expire c s6 SA tA20 (MSL2 - 101) 2001) by (try reflexivity; cbn; unfold MSL2; lia).
    subst s6. sys_simpl. reflexivity.
  Qed.
End Close.

Definition close_trace : list label := [LClose SA; LFair 1; LClose SB; LFair 2; LTick SA 2001].
