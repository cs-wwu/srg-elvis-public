(* Monotonicity of the peer view, frame lemmas for the TCB setters, and
   preservation of the sender half of the invariant by send / close /
   segments / advance_time / receive. *)
From Elvis Require Import Model.Base Model.U32 Model.Tcb
  Proofs.U32Facts Proofs.ListFacts Proofs.TcbSafetyDefs Proofs.TcbSafetyBase.
From Elvis Require Export Proofs.TcbEdges.
Local Open Scope Z_scope.

Ltac splits := repeat match goal with |- _ /\ _ => split end.

Ltac tcb_simpl :=
  cbn [lport rport mtu listen_init st snd_una snd_nxt snd_wnd snd_wl1 snd_wl2 snd_iss
       rcv_irs rcv_nxt rcv_wnd out_text retx oneshot fin_pending in_segs in_text rto time_wait
       set_st set_snd_una set_snd_nxt set_snd_window set_rcv_irs set_rcv_nxt set_out_text
       set_retx set_oneshot set_fin_pending set_in_segs set_in_text set_rto set_time_wait
       s_hdr s_text t_seg t_needs h_seq h_ack h_ctl h_wnd h_urg h_sport h_dport
       c_urg c_ack c_psh c_rst c_syn c_fin
       pv_iss pv_sub pv_lim pv_frozen] in *.

Lemma pv_le_refl p : pv_le p p.
Proof.
  unfold pv_le. splits; try lia; auto.
  exists []. now rewrite app_nil_r.
Qed.

Lemma pv_le_trans p q r : pv_le p q -> pv_le q r -> pv_le p r.
Proof.
  intros (I1 & (m1 & S1) & L1 & F1) (I2 & (m2 & S2) & L2 & F2).
  unfold pv_le. splits.
  - congruence.
  - exists (m1 ++ m2). rewrite S2, S1. now rewrite app_assoc.
  - lia.
  - intros H. destruct (F1 H) as [Hq E1]. destruct (F2 Hq) as [Hr E2]. split; [assumption|congruence].
Qed.

Lemma seg_inv_mono p q seg : pv_wf p -> pv_le p q -> seg_inv p seg -> seg_inv q seg.
Proof.
  intros (Hu & Hl & Hb & Hf) (I & (more & HS) & L & F) (T & Sy & Fi).
  unfold seg_inv. split; [|split].
  - intros H. destruct (T H) as (A1 & A2 & A3 & A4 & A5).
    unfold seg_ok in *. destruct A5 as [A5 A6]. splits; try assumption.
    + unfold pv_base in *. rewrite I, HS.
      rewrite slice_app_stable; [exact A5|].
      pose proof (wsub_u32 (h_seq (s_hdr seg)) (wadd (pv_iss p) 1)) as Hw. unfold u32 in Hw.
      unfold zlen in *. lia.
    + unfold pv_base in *. rewrite I. lia.
  - intros H. destruct (Sy H) as (B1 & B2 & B3). splits; try assumption. congruence.
  - intros H. destruct (Fi H) as (B1 & B2 & B3 & B4). destruct (F B3) as [F1 F2].
    splits; try assumption. unfold pv_base. rewrite I, F2. exact B4.
Qed.

Lemma Forall_seg_inv_mono p q l : pv_wf p -> pv_le p q -> Forall (seg_inv p) l -> Forall (seg_inv q) l.
Proof. intros Hw Hle. apply Forall_impl. intros a. apply seg_inv_mono; assumption. Qed.

Definition rcv_same (t t' : tcb) : Prop :=
  in_segs t' = in_segs t /\ in_text t' = in_text t /\ rcv_irs t' = rcv_irs t /\
  rcv_nxt t' = rcv_nxt t /\ fin_consumed (st t') = fin_consumed (st t) /\
  state_eqb (st t') SynSent = state_eqb (st t) SynSent.

Lemma rcv_same_refl t : rcv_same t t.
Proof. unfold rcv_same. auto 10. Qed.
Lemma rcv_same_trans a b c : rcv_same a b -> rcv_same b c -> rcv_same a c.
Proof. unfold rcv_same. intuition congruence. Qed.

Lemma RcvInv_same pv D t t' : rcv_same t t' -> RcvInv pv D t -> RcvInv pv D t'.
Proof.
  intros (E1 & E2 & E3 & E4 & E5 & E6). unfold RcvInv, rcv_n.
  rewrite E1, E2, E3, E4, E5, E6. auto.
Qed.

Lemma RcvInv_mono p q D t : pv_wf p -> pv_le p q -> RcvInv p D t -> RcvInv q D t.
Proof.
  intros Hw Hle (H1 & H2 & H3). pose proof Hw as (Hu & Hl & Hb & Hf).
  pose proof Hle as (I & (more & HS) & L & F).
  unfold RcvInv. split; [eapply Forall_seg_inv_mono; eassumption|]. split; [assumption|].
  destruct (state_eqb (st t) SynSent); [assumption|].
  destruct H3 as (A1 & A2 & A3 & A4 & A5).
  assert (En : rcv_n q t = rcv_n p t) by (unfold rcv_n, pv_base; now rewrite I).
  rewrite En. splits; try lia; try congruence.
  - rewrite HS, firstn_app_le; [assumption|]. unfold zlen in *. lia.
  - intros H. destruct (A5 H) as [Hfr Hn]. destruct (F Hfr) as [Hq E]. rewrite E. auto.
Qed.

Definition snd_frame (t t' : tcb) : Prop :=
  snd_iss t' = snd_iss t /\ mtu t' = mtu t /\ rcv_wnd t' = rcv_wnd t /\ snd_nxt t' = snd_nxt t /\
  out_text t' = out_text t /\ fin_pending t' = fin_pending t /\
  closed_state (st t') = closed_state (st t).

Lemma snd_frame_refl t : snd_frame t t.
Proof. unfold snd_frame. auto 10. Qed.
Lemma snd_frame_trans a b c : snd_frame a b -> snd_frame b c -> snd_frame a c.
Proof. unfold snd_frame. intuition congruence. Qed.

Lemma snd_frame_pv iss S t t' : snd_frame t t' -> my_pv iss S t' = my_pv iss S t.
Proof.
  intros (E1 & E2 & E3 & E4 & E5 & E6 & E7). unfold my_pv, data_sent, finq.
  now rewrite E5, E6, E7.
Qed.

Lemma SndInv_frame iss m S t t' :
  snd_frame t t' -> SndInv iss m S t ->
  Forall (seg_inv (my_pv iss S t)) (map t_seg (retx t')) ->
  Forall plain_hdr (oneshot t') ->
  SndInv iss m S t'.
Proof.
  intros Hf (A1 & A2 & A3 & A4 & A5 & A6 & A7 & A8 & A9 & A10) Hr Ho.
  pose proof (snd_frame_pv iss S t t' Hf) as Epv.
  destruct Hf as (E1 & E2 & E3 & E4 & E5 & E6 & E7).
  unfold SndInv. rewrite Epv. unfold data_sent, finq in *. rewrite E1, E2, E3, E4, E5, E6, E7.
  splits; assumption.
Qed.

Lemma SndInv_wf iss m S t : u32 iss -> zlen S < SEQ_BOUND -> SndInv iss m S t -> pv_wf (my_pv iss S t).
Proof.
  intros Hu Hb (A1 & A2 & A3 & A4 & A5 & A6 & A7 & A8 & A9 & A10).
  unfold pv_wf, my_pv; tcb_simpl. unfold data_sent in *.
  pose proof (zlen_nonneg (out_text t)).
  splits; try assumption; try lia.
  intros Hq. rewrite (A8 Hq). rewrite zlen_nil. lia.
Qed.

Lemma enqueue_plain t h : plain_hdr h -> enqueue t h = set_oneshot t (oneshot t ++ [h]).
Proof. intros [H1 H2]. apply TcbEdges.enqueue_plain; assumption. Qed.

Lemma ack_hdr_plain t : plain_hdr (ack_hdr t).
Proof. split; reflexivity. Qed.
Lemma rst_hdr_plain t x : plain_hdr (rst_hdr t x).
Proof. split; reflexivity. Qed.
Lemma tw_ack_plain t x y : plain_hdr (hb_wnd (hb_ack (hb t x) y) (rcv_wnd t)).
Proof. split; reflexivity. Qed.

Lemma Forall_map_filter {A B} (P : B -> Prop) (g : A -> B) f (l : list A) :
  Forall P (map g l) -> Forall P (map g (filter f l)).
Proof. apply incl_Forall, incl_map, incl_filter. Qed.

Lemma map_tseg_flag b l : map t_seg (map (fun tx => mkTx (t_seg tx) b) l) = map t_seg l.
Proof. rewrite map_map. apply map_ext. reflexivity. Qed.

Lemma plain_seg_inv pv h : plain_hdr h -> seg_inv pv (mkSeg h []).
Proof. intros [P1 P2]. unfold seg_inv; tcb_simpl. splits; intros; splits; congruence. Qed.

Lemma fin_seg_inv pv h :
  c_syn (h_ctl h) = false -> pv_frozen pv = true ->
  h_seq h = wadd (pv_base pv) (zlen (pv_sub pv)) -> seg_inv pv (mkSeg h []).
Proof. intros P1 P2 P3. unfold seg_inv; tcb_simpl. splits; intros; splits; congruence. Qed.

Lemma syn_seg_inv pv h :
  c_fin (h_ctl h) = false -> h_seq h = pv_iss pv -> seg_inv pv (mkSeg h []).
Proof. intros P1 P2. unfold seg_inv; tcb_simpl. splits; intros; splits; congruence. Qed.

Lemma data_seg_inv pv h text :
  c_syn (h_ctl h) = false -> c_fin (h_ctl h) = false -> u32 (h_seq h) -> zlen text <= 65535 ->
  seg_ok pv (mkSeg h text) -> seg_inv pv (mkSeg h text).
Proof. intros P1 P2 P3 P4 P5. unfold seg_inv; tcb_simpl. splits; intros; splits; try congruence; auto. Qed.

Lemma accepts_send_open s : accepts_send s = true -> closed_state s = false.
Proof. destruct s; cbn; congruence. Qed.

Lemma send_inv iss m S t bytes :
  u32 iss -> zlen S < SEQ_BOUND ->
  SndInv iss m S t -> accepts_send (st t) = true ->
  SndInv iss m (S ++ bytes) (tcb_send t bytes) /\
  pv_le (my_pv iss S t) (my_pv iss (S ++ bytes) (tcb_send t bytes)) /\
  rcv_same t (tcb_send t bytes).
Proof.
  intros Hu Hb HI Hacc. pose proof (SndInv_wf _ _ _ _ Hu Hb HI) as Hwf.
  destruct HI as (A1 & A2 & A3 & A4 & A5 & A6 & A7 & A8 & A9 & A10).
  pose proof (accepts_send_open _ Hacc) as Hopen.
  unfold tcb_send. rewrite Hacc.
  assert (Hfq : finq (set_out_text t (out_text t ++ bytes)) = false)
    by (unfold finq; tcb_simpl; now rewrite Hopen).
  assert (Hfq0 : finq t = false) by (unfold finq; now rewrite Hopen).
  assert (Hds : data_sent (S ++ bytes) (set_out_text t (out_text t ++ bytes)) = data_sent S t)
    by (unfold data_sent; tcb_simpl; rewrite !zlen_app; lia).
  assert (Hle : pv_le (my_pv iss S t) (my_pv iss (S ++ bytes) (set_out_text t (out_text t ++ bytes)))).
  { unfold pv_le, my_pv; tcb_simpl. rewrite Hds, Hfq0. splits; try lia; try discriminate.
    exists bytes. reflexivity. }
  split; [|split; [exact Hle|unfold rcv_same; tcb_simpl; auto 10]].
  unfold SndInv. rewrite Hds, Hfq. tcb_simpl.
  splits; try assumption.
  - rewrite skipn_app_le; [now rewrite <- A5|].
    unfold data_sent, zlen in *. lia.
  - now rewrite <- Hfq0.
  - discriminate.
  - eapply Forall_seg_inv_mono; eassumption.
Qed.

Lemma send_ignored t bytes : accepts_send (st t) = false -> tcb_send t bytes = t.
Proof. intros H. unfold tcb_send. now rewrite H. Qed.

Lemma fin_hdr_flags t x y :
  let h := hb_wnd (hb_ack (hb_fin (hb t x)) y) (rcv_wnd t) in
  c_syn (h_ctl h) = false /\ c_fin (h_ctl h) = true /\ h_seq h = x.
Proof. cbn. auto. Qed.

Lemma qpf_inv iss m S t :
  u32 iss -> zlen S < SEQ_BOUND -> SndInv iss m S t ->
  SndInv iss m S (queue_pending_fin t) /\
  pv_le (my_pv iss S t) (my_pv iss S (queue_pending_fin t)) /\
  rcv_same t (queue_pending_fin t) /\ oneshot (queue_pending_fin t) = oneshot t.
Proof.
  intros Hu Hb HI. pose proof (SndInv_wf _ _ _ _ Hu Hb HI) as Hwf.
  unfold queue_pending_fin.
  destruct (fin_pending t) eqn:Efp; cbn [andb];
    [|split; [assumption|split; [apply pv_le_refl|split; [apply rcv_same_refl|reflexivity]]]].
  destruct (out_text t) eqn:Eot;
    [|split; [assumption|split; [apply pv_le_refl|split; [apply rcv_same_refl|reflexivity]]]].
  destruct HI as (A1 & A2 & A3 & A4 & A5 & A6 & A7 & A8 & A9 & A10).
  pose proof (A7 Efp) as Hcl.
  set (h := hb_wnd (hb_ack (hb_fin (hb (set_fin_pending t false) (snd_nxt (set_fin_pending t false))))
                           (rcv_nxt (set_fin_pending t false))) (rcv_wnd (set_fin_pending t false))).
  assert (Henq : enqueue (set_fin_pending t false) h =
                 set_retx (set_fin_pending t false) (retx t ++ [mkTx (mkSeg h []) true])).
  { unfold enqueue. subst h. cbn. reflexivity. }
  rewrite Henq. clear Henq.
  set (t' := set_snd_nxt _ _).
  assert (Hq0 : finq t = false) by (unfold finq; rewrite Efp, Hcl; reflexivity).
  assert (Hq1 : finq t' = true) by (unfold finq; subst t'; tcb_simpl; rewrite Hcl; reflexivity).
  assert (Hds : data_sent S t' = data_sent S t) by (unfold data_sent; subst t'; tcb_simpl; reflexivity).
  assert (Hall : data_sent S t = zlen S) by (unfold data_sent; rewrite Eot, zlen_nil; lia).
  assert (Hle : pv_le (my_pv iss S t) (my_pv iss S t')).
  { unfold pv_le, my_pv; tcb_simpl. rewrite Hds, Hq0. splits; try lia; try discriminate.
    exists []. now rewrite app_nil_r. }
  split; [|split; [exact Hle|split; [subst t'; unfold rcv_same; tcb_simpl; auto 10|reflexivity]]].
  unfold SndInv. rewrite Hds, Hq1. subst t'. tcb_simpl. rewrite Eot in *.
  splits; try assumption; try reflexivity; try discriminate.
  - rewrite A6, Hq0. rewrite wadd_wadd. cbn [b2z]. f_equal. lia.
  - rewrite map_app. apply Forall_app. split.
    + eapply Forall_seg_inv_mono; [exact Hwf|exact Hle|exact A9].
    + cbn [map]. constructor; [|constructor]. tcb_simpl.
      apply fin_seg_inv; [reflexivity|exact Hq1|].
      unfold pv_base; cbn [my_pv pv_iss pv_sub]. subst h. cbn [hb_wnd hb_ack hb_fin hb_flag hb h_seq].
      tcb_simpl. rewrite A6, Hq0, Hall. cbn [b2z]. f_equal. lia.
Qed.

Lemma close_inv iss m S t t' r :
  u32 iss -> zlen S < SEQ_BOUND -> SndInv iss m S t -> tcb_close t = (t', r) ->
  SndInv iss m S t' /\ pv_le (my_pv iss S t) (my_pv iss S t') /\ rcv_same t t'.
Proof.
  intros Hu Hb HI. unfold tcb_close.
  assert (Hgen : forall s0, closed_state (st t) = false -> closed_state s0 = true ->
     fin_consumed s0 = fin_consumed (st t) -> state_eqb (st t) SynSent = false -> state_eqb s0 SynSent = false ->
     let t1 := set_st (set_fin_pending t true) s0 in
     SndInv iss m S (queue_pending_fin t1) /\ pv_le (my_pv iss S t) (my_pv iss S (queue_pending_fin t1)) /\
     rcv_same t (queue_pending_fin t1)).
  { intros s0 Hop Hcl Hfc Hss1 Hss2 t1.
    assert (HI1 : SndInv iss m S t1).
    { destruct HI as (A1 & A2 & A3 & A4 & A5 & A6 & A7 & A8 & A9 & A10).
      assert (Hq0 : finq t = false) by (unfold finq; now rewrite Hop).
      assert (Hq1 : finq t1 = false) by (unfold finq; subst t1; tcb_simpl; now rewrite Hcl).
      unfold SndInv. unfold my_pv, data_sent in *. rewrite Hq1. rewrite Hq0 in *. subst t1; tcb_simpl.
      splits; try assumption; try discriminate; auto. }
    assert (Hpv : my_pv iss S t1 = my_pv iss S t).
    { unfold my_pv, data_sent, finq. subst t1; tcb_simpl. rewrite Hop, Hcl. reflexivity. }
    destruct (qpf_inv iss m S t1 Hu Hb HI1) as (B1 & B2 & B3 & _).
    split; [exact B1|]. split; [now rewrite <- Hpv|].
    eapply rcv_same_trans; [|exact B3]. subst t1. unfold rcv_same; tcb_simpl.
    splits; auto; congruence. }
  destruct (st t) eqn:Est; intros [= <- <-];
    try (split; [assumption|split; [apply pv_le_refl|apply rcv_same_refl]]).
  - apply (Hgen FinWait1); reflexivity.
  - apply (Hgen FinWait1); reflexivity.
  - apply (Hgen LastAck); reflexivity.
Qed.

Lemma advance_time_inv iss m S t dt t' r :
  SndInv iss m S t -> advance_time t dt = (t', r) ->
  SndInv iss m S t' /\ my_pv iss S t' = my_pv iss S t /\ rcv_same t t'.
Proof.
  intros HI. unfold advance_time.
  set (t1 := if rto t <? dt then _ else _).
  assert (H1 : snd_frame t t1 /\ rcv_same t t1 /\ map t_seg (retx t1) = map t_seg (retx t) /\ oneshot t1 = oneshot t).
  { subst t1. destruct (rto t <? dt); unfold snd_frame, rcv_same; tcb_simpl;
      rewrite ?map_tseg_flag; auto 20. }
  destruct H1 as (F1 & R1 & M1 & O1).
  assert (HI1 : SndInv iss m S t1).
  { eapply SndInv_frame; [exact F1|exact HI| |].
    - rewrite M1. apply HI.
    - rewrite O1. apply HI. }
  assert (Hend : forall t2, (t2 = t1 \/ exists tw, t2 = set_time_wait t1 tw) ->
     SndInv iss m S t2 /\ my_pv iss S t2 = my_pv iss S t /\ rcv_same t t2).
  { intros t2 [->|[tw ->]].
    - split; [assumption|]. split; [now apply snd_frame_pv|assumption].
    - assert (F2 : snd_frame t1 (set_time_wait t1 tw)) by (unfold snd_frame; tcb_simpl; auto 10).
      split; [|split].
      + eapply SndInv_frame; [exact F2|exact HI1| |]; tcb_simpl; apply HI1.
      + rewrite (snd_frame_pv _ _ _ _ F2). now apply snd_frame_pv.
      + eapply rcv_same_trans; [exact R1|]. unfold rcv_same; tcb_simpl; auto 10. }
  destruct (time_wait t1) as [tw|]; [destruct (tw <? dt)|]; intros [= <- <-]; apply Hend; eauto.
Qed.

Lemma receive_snd iss m S t :
  SndInv iss m S t -> SndInv iss m S (set_in_text t []) /\ my_pv iss S (set_in_text t []) = my_pv iss S t.
Proof.
  intros HI.
  assert (F : snd_frame t (set_in_text t [])) by (unfold snd_frame; tcb_simpl; auto 10).
  split; [|now apply snd_frame_pv].
  eapply SndInv_frame; [exact F|exact HI| |]; tcb_simpl; apply HI.
Qed.

Lemma seg_step_snd iss m S t mss : u32 iss -> zlen S < SEQ_BOUND -> 0 <= mss <= 65485 ->
  SndInv iss m S t -> 0 < seg_bytes t mss ->
  SndInv iss m S (seg_step t (seg_bytes t mss)) /\
  pv_le (my_pv iss S t) (my_pv iss S (seg_step t (seg_bytes t mss))) /\
  rcv_same t (seg_step t (seg_bytes t mss)).
Proof.
  intros Hu Hb Hmss HI Hpos.
  assert (Hbytes : 0 < seg_bytes t mss <= 65485 /\ seg_bytes t mss <= zlen (out_text t)).
  { unfold seg_bytes in *. pose proof (zlen_nonneg (out_text t)). lia. }
  set (bytes := seg_bytes t mss) in *. clearbody bytes.
  pose proof (SndInv_wf _ _ _ _ Hu Hb HI) as Hwf.
  unfold seg_step. cbv zeta.
  set (h := hb_wnd (hb_ack (hb t (snd_nxt t)) (rcv_nxt t)) (rcv_wnd t)).
  set (text := firstn (Z.to_nat bytes) (out_text t)).
  set (t3 := set_retx _ _).
  assert (Hlen : zlen text = bytes).
  { subst text. rewrite zlen_firstn. lia. }
  destruct HI as (A1 & A2 & A3 & A4 & A5 & A6 & A7 & A8 & A9 & A10).
  assert (Hq0 : finq t = false).
  { destruct (finq t) eqn:E; [|reflexivity].
    assert (E0 : zlen (out_text t) = 0) by (rewrite (A8 eq_refl); reflexivity). lia. }
  assert (Hq3 : finq t3 = false) by (unfold finq in *; subst t3; tcb_simpl; exact Hq0).
  assert (Hds3 : data_sent S t3 = data_sent S t + bytes).
  { unfold data_sent. subst t3; tcb_simpl. rewrite zlen_skipn. lia. }
  assert (HdsS : data_sent S t + bytes <= zlen S).
  { unfold data_sent in *. lia. }
  assert (Hle : pv_le (my_pv iss S t) (my_pv iss S t3)).
  { unfold pv_le, my_pv; tcb_simpl. rewrite Hds3, Hq0. splits; try lia; try discriminate.
    exists []. now rewrite app_nil_r. }
  split; [|split; [exact Hle|subst t3; unfold rcv_same; tcb_simpl; auto 10]].
  unfold SndInv. rewrite Hds3, Hq3. subst t3; tcb_simpl.
  splits; try assumption; try lia.
  - rewrite A5, skipn_skipn. f_equal. lia.
  - rewrite A6, Hq0, wadd_wadd. f_equal. cbn [b2z]. lia.
  - rewrite map_app. apply Forall_app. split.
    + eapply Forall_seg_inv_mono; [exact Hwf|exact Hle|exact A9].
    + cbn [map]. constructor; [|constructor]. tcb_simpl.
      assert (Hoff : wsub (snd_nxt t) (wadd iss 1) = data_sent S t).
      { rewrite A6, Hq0. cbn [b2z]. rewrite wsub_spec, !wadd_spec.
        unfold u32, M32, SEQ_BOUND in *. lia. }
      assert (Hseq : h_seq h = snd_nxt t) by reflexivity.
      apply data_seg_inv; try reflexivity.
      * rewrite Hseq, A6. apply wadd_u32.
      * lia.
      * unfold seg_ok; tcb_simpl. rewrite Hseq. unfold pv_base; cbn [my_pv pv_iss pv_sub pv_lim].
        rewrite Hoff. split; [|lia].
        subst text. rewrite A5.
        rewrite firstn_length, skipn_length.
        f_equal. unfold zlen in *. lia.
Qed.

Lemma segments_inv iss m S t :
  u32 iss -> zlen S < SEQ_BOUND -> 100 <= m <= 65535 -> SndInv iss m S t ->
  exists t' segs, tcb_segments t = Ok (t', segs) /\ SndInv iss m S t' /\
    pv_le (my_pv iss S t) (my_pv iss S t') /\ rcv_same t t' /\
    Forall (seg_inv (my_pv iss S t')) segs.
Proof.
  intros Hu Hb Hm HI. rewrite tcb_segments_unfold.
  pose proof (SndInv_wf _ _ _ _ Hu Hb HI) as Hwf.
  (* what every phase keeps, relative to the TCB the call found *)
  set (J := fun t' => SndInv iss m S t' /\ pv_le (my_pv iss S t) (my_pv iss S t') /\ rcv_same t t').
  assert (Hframe : forall a b, J a -> snd_frame a b -> rcv_same a b ->
            map t_seg (retx b) = map t_seg (retx a) -> oneshot b = oneshot a \/ oneshot b = [] -> J b).
  { intros a b (Ja & Jl & Jr) F R Mr Mo. unfold J. splits.
    - eapply SndInv_frame; [exact F|exact Ja| |].
      + rewrite Mr. apply Ja.
      + destruct Mo as [-> | ->]; [apply Ja|constructor].
    - rewrite (snd_frame_pv _ _ _ _ F). exact Jl.
    - eapply rcv_same_trans; eassumption. }
  destruct (seg_mid_total J) with (t0 := set_oneshot t []) as (t1 & -> & (I1 & L1 & R1)).
  - intros t0 (J0 & _). replace (mtu t0) with m by (symmetry; apply J0). unfold SPACE_FOR_HEADERS. lia.
  - intros t0 mss (J0 & Jl & Jr) Hmss Hpos. unfold SPACE_FOR_HEADERS in Hmss.
    destruct (seg_step_snd iss m S t0 mss Hu Hb ltac:(lia) J0 Hpos) as (B1 & B2 & B3).
    unfold J. splits; [exact B1|eapply pv_le_trans; eassumption|eapply rcv_same_trans; eassumption].
  - intros t0 (J0 & Jl & Jr). destruct (qpf_inv iss m S t0 Hu Hb J0) as (B1 & B2 & B3 & _).
    unfold J. splits; [exact B1|eapply pv_le_trans; eassumption|eapply rcv_same_trans; eassumption].
  - apply (Hframe t); [unfold J; splits; [exact HI|apply pv_le_refl|apply rcv_same_refl]| | | |].
    + unfold snd_frame; tcb_simpl; auto 10.
    + unfold rcv_same; tcb_simpl; auto 10.
    + reflexivity.
    + right. reflexivity.
  - assert (J2 : J (set_retx t1 (map (fun tx => mkTx (t_seg tx) false) (retx t1)))).
    { apply (Hframe t1); [unfold J; auto| | | |].
      - unfold snd_frame; tcb_simpl; auto 10.
      - unfold rcv_same; tcb_simpl; auto 10.
      - tcb_simpl. apply map_tseg_flag.
      - left. reflexivity. }
    assert (J3 : J (seg_finish t1) /\ my_pv iss S (seg_finish t1) = my_pv iss S t1).
    { apply (seg_finish_cases (fun a b => J b /\ my_pv iss S b = my_pv iss S a)).
      - split; [exact J2|]. apply snd_frame_pv. unfold snd_frame; tcb_simpl; auto 10.
      - split; [|apply snd_frame_pv; unfold snd_frame; tcb_simpl; auto 10].
        apply (Hframe _ _ J2); [unfold snd_frame; tcb_simpl; auto 10|unfold rcv_same; tcb_simpl; auto 10|
                                reflexivity|left; reflexivity]. }
    destruct J3 as ((C1 & C2 & C3) & C4).
    eexists _, _. split; [reflexivity|]. splits; [exact C1|exact C2|exact C3|]. rewrite C4.
    apply Forall_app. split.
    + eapply Forall_seg_inv_mono; [exact Hwf|exact L1|].
      destruct HI as (_ & _ & _ & _ & _ & _ & _ & _ & _ & A10).
      induction A10 as [|h l Hp _ IHl]; cbn [map]; constructor; [|exact IHl].
      apply plain_seg_inv, Hp.
    + apply Forall_map_filter. apply I1.
Qed.
