(* C01 liveness, system level: a half of a loss-free round in closed form - the sender's flush2
   and the fold of segment_arrives over what is in flight (feed) - so that statements about
   half-rounds are statements about the two TCBs; endpoints with nothing queued are idle. *)
From Elvis Require Import Model.Base Model.U32 Model.Tcb Model.TcpNet Proofs.TcbSafetySnd
  Proofs.TcbSafetySys Proofs.TcbLive.
Local Open Scope Z_scope.

Lemma sys_ext s s' :
  (forall x, end_of s x = end_of s' x) -> (forall x, net_of s x = net_of s' x) ->
  (forall x, sub_of s x = sub_of s' x) -> (forall x, del_of s x = del_of s' x) ->
  panicked s = panicked s' -> s = s'.
Proof.
  intros E N S D P. destruct s, s'.
  pose proof (E SA); pose proof (E SB); pose proof (N SA); pose proof (N SB);
  pose proof (S SA); pose proof (S SB); pose proof (D SA); pose proof (D SB).
  cbn in *. subst. reflexivity.
Qed.

Lemma end_set_end_o2 s x e : end_of (set_end s (other x) e) x = end_of s x. Proof. sd. Qed.
Lemma net_set_net_o2 s x n : net_of (set_net s (other x) n) x = net_of s x. Proof. sd. Qed.
Lemma del_set_del_o2 s x v : del_of (set_del s (other x) v) x = del_of s x. Proof. sd. Qed.
Global Hint Rewrite end_set_end_o2 net_set_net_o2 del_set_del_o2 : sysr.

Lemma pan_set_panicked_no s x e : panicked (set_end s x e) = panicked s. Proof. sd. Qed.

Lemma emit_eval s x t t1 segs :
  end_of s x = ELive t -> tcb_segments t = Ok (t1, segs) ->
  emit s x = (set_net (set_end s x (ELive t1)) x (net_of s x ++ segs), segs, false).
Proof. intros El Es. unfold emit. now rewrite El, Es. Qed.

Lemma tick_eval s x t t1 segs t2 ms :
  end_of s x = ELive t -> tcb_segments t = Ok (t1, segs) -> advance_time t1 ms = (t2, TIgnore) ->
  fst (tick s x ms) = set_end (set_net (set_end s x (ELive t1)) x (net_of s x ++ segs)) x (ELive t2).
Proof.
  intros El Es Ea. unfold tick. rewrite (emit_eval s x t t1 segs El Es).
  cbn iota beta. sysr. rewrite Ea. reflexivity.
Qed.

Lemma arrive_eval c s r t seg t1 :
  end_of s r = ELive t -> segment_arrives t seg = Ok (t1, AOk) ->
  fst (arrive c s r seg) = set_end s r (ELive t1).
Proof. intros El Ea. unfold arrive. now rewrite El, Ea. Qed.

Lemma recv_eval_empty s x t : end_of s x = ELive t -> in_text t = [] ->
  fst (recv s x) = set_end s x (ELive (set_in_text t [])).
Proof. intros El Ei. unfold recv, tcb_receive. rewrite El, Ei. reflexivity. Qed.

Lemma recv_eval_data s x t : end_of s x = ELive t -> in_text t <> [] ->
  fst (recv s x) = set_del (set_end s x (ELive (set_in_text t []))) x (del_of s x ++ [in_text t]).
Proof.
  intros El Ei. unfold recv, tcb_receive. rewrite El. cbn [fst].
  destruct (in_text t); [congruence|reflexivity].
Qed.

Lemma recv_comm s : fst (recv (fst (recv s SA)) SB) = fst (recv (fst (recv s SB)) SA).
Proof.
  destruct s as [eA eB nA nB sA sB dA dB p].
  destruct eA as [| |tA|], eB as [| |tB|]; unfold recv, tcb_receive; cbn; try reflexivity;
    try (destruct (in_text tA); reflexivity); try (destruct (in_text tB); reflexivity).
  destruct (in_text tA) eqn:EA; destruct (in_text tB) eqn:EB; cbn; rewrite ?EA, ?EB; cbn; rewrite ?EA, ?EB; reflexivity.
Qed.

Lemma recv_both s x :
  fst (recv (fst (recv s SA)) SB) = fst (recv (fst (recv s x)) (other x)).
Proof. destruct x; [reflexivity|apply recv_comm]. Qed.

Lemma deliver_all_cons f c s x seg rest : net_of s x = seg :: rest ->
  deliver_all (Datatypes.S f) c s x = deliver_all f c (fst (arrive c (set_net s x rest) (other x) seg)) x.
Proof. intros En. cbn [deliver_all]. now rewrite En. Qed.

Lemma deliver_all_nil f c s x : net_of s x = [] -> deliver_all f c s x = s.
Proof. intros En. destruct f; cbn [deliver_all]; [reflexivity|now rewrite En]. Qed.

(* nothing outstanding in either direction: a = SND.UNA = SND.NXT, r = RCV.NXT *)
Definition quiet (t : tcb) (a r : Z) : Prop :=
  st t = Established /\ snd_una t = a /\ snd_nxt t = a /\ rcv_nxt t = r /\
  snd_wnd t = 65535 /\ rcv_wnd t = 65535 /\ out_text t = [] /\ retx t = [] /\ oneshot t = [] /\
  fin_pending t = false /\ in_segs t = [] /\ in_text t = [] /\ rto t = RTO /\ time_wait t = None /\
  u32 a /\ u32 r /\ 100 <= mtu t <= 65535.

(* like quiet, but the application has just written [bytes] *)
Definition writer (t : tcb) (a r : Z) (bytes : list Z) : Prop :=
  st t = Established /\ snd_una t = a /\ snd_nxt t = a /\ rcv_nxt t = r /\
  snd_wnd t = 65535 /\ rcv_wnd t = 65535 /\ out_text t = bytes /\ retx t = [] /\ oneshot t = [] /\
  fin_pending t = false /\ in_segs t = [] /\ in_text t = [] /\ rto t = RTO /\ time_wait t = None /\
  u32 a /\ u32 r /\ 100 <= mtu t <= 65535.

Lemma writer_of_quiet t p q bytes : quiet t p q -> writer (tcb_send t bytes) p q bytes.
Proof.
  intros (Q1 & Q2 & Q3 & Q4 & Q5 & Q6 & Q7 & Q8 & Q9 & Q10 & Q11 & Q12 & Q13 & Q14 & Q15 & Q16 & Q17).
  unfold tcb_send. rewrite Q1. cbn [accepts_send]. unfold writer. tcb_simpl. rewrite Q7. cbn [app].
  splits; auto; lia.
Qed.

Lemma writer_in_text {t p q bytes} : writer t p q bytes -> in_text t = [].
Proof. intros W. apply W. Qed.

(* the fields of quiet that proofs use one at a time *)
Section QuietFields.
  Context {t : tcb} {a r : Z} (Q : quiet t a r).
  Lemma quiet_st : st t = Established. Proof. apply Q. Qed.
  Lemma quiet_una : snd_una t = a. Proof. apply Q. Qed.
  Lemma quiet_nxt : snd_nxt t = a. Proof. apply Q. Qed.
  Lemma quiet_rcv : rcv_nxt t = r. Proof. apply Q. Qed.
  Lemma quiet_rcv_wnd : rcv_wnd t = 65535. Proof. apply Q. Qed.
  Lemma quiet_out_text : out_text t = []. Proof. apply Q. Qed.
  Lemma quiet_in_segs : in_segs t = []. Proof. apply Q. Qed.
  Lemma quiet_oneshot : oneshot t = []. Proof. apply Q. Qed.
  Lemma quiet_in_text : in_text t = []. Proof. apply Q. Qed.
  Lemma quiet_u32_rcv : u32 r. Proof. apply Q. Qed.
End QuietFields.

(* the peer's side of deliver_all: the arrivals folded over its TCB, up to the one that deletes it *)
Inductive fed := Live (t : tcb) | Closed (t : tcb).

Fixpoint feed (t : tcb) (l : list segment) : option fed :=
  match l with
  | [] => Some (Live t)
  | s :: r =>
    match segment_arrives t s with
    | Ok (t1, AOk) => feed t1 r
    | Ok (t1, AClose) => Some (Closed t1)
    | _ => None
    end
  end.

Lemma feed_app t a t1 b : feed t a = Some (Live t1) -> feed t (a ++ b) = feed t1 b.
Proof.
  revert t. induction a as [|s a IH]; intros t H; cbn [app feed] in *.
  - now injection H as ->.
  - destruct (segment_arrives t s) as [[t2 []]| | |]; try discriminate H. now apply IH.
Qed.

Lemma feed_cons t s t1 r : segment_arrives t s = Ok (t1, AOk) -> feed t (s :: r) = feed t1 r.
Proof. intros H. cbn [feed]. now rewrite H. Qed.

Lemma feed_close t s t1 r : segment_arrives t s = Ok (t1, AClose) -> feed t (s :: r) = Some (Closed t1).
Proof. intros H. cbn [feed]. now rewrite H. Qed.

Definition fed_tcb (r : fed) : tcb := match r with Live t | Closed t => t end.
Definition fed_end (r : fed) : endpoint :=
  match r with Live t => ELive (set_in_text t []) | Closed _ => EDead end.

Definition chunk (l : list Z) : list (list Z) := match l with [] => [] | _ => [l] end.

Definition half_result (s : sys) (x : side) (tx' : tcb) (r : fed) : sys :=
  set_del (set_end
    (set_del (set_end (set_net s x []) x (ELive (set_in_text tx' []))) x (del_of s x ++ chunk (in_text tx')))
    (other x) (fed_end r)) (other x) (del_of s (other x) ++ chunk (in_text (fed_tcb r))).

Lemma half_result_proj s x tx' r : let s' := half_result s x tx' r in
  end_of s' x = ELive (set_in_text tx' []) /\ end_of s' (other x) = fed_end r /\
  net_of s' x = [] /\ net_of s' (other x) = net_of s (other x) /\ panicked s' = panicked s /\
  (forall y, sub_of s' y = sub_of s y) /\
  del_of s' x = del_of s x ++ chunk (in_text tx') /\
  del_of s' (other x) = del_of s (other x) ++ chunk (in_text (fed_tcb r)).
Proof. destruct s, x; cbn; repeat split; intros []; reflexivity. Qed.

Lemma deliver_all_dead c x : forall f s, end_of s (other x) = EDead -> (length (net_of s x) <= f)%nat ->
  deliver_all f c s x = set_net s x [].
Proof.
  induction f as [|f IH]; intros s Ed Hf.
  - destruct s, x; cbn in *; destruct netA, netB; cbn in *; try lia; reflexivity.
  - cbn [deliver_all]. destruct (net_of s x) as [|seg rest] eqn:En.
    + destruct s, x; cbn in *; subst; reflexivity.
    + unfold arrive. rewrite end_set_net, Ed. cbn [fst]. rewrite IH.
      * destruct s, x; reflexivity.
      * now rewrite end_set_net.
      * rewrite net_set_net. cbn [length] in Hf. lia.
Qed.

Definition fed_sys (s : sys) (y : side) (r : fed) : sys :=
  match r with
  | Live t => set_end s y (ELive t)
  | Closed t => set_end (final_read s y t) y EDead
  end.

Lemma deliver_all_feed c x : forall l f s ty r,
  end_of s (other x) = ELive ty -> net_of s x = l -> feed ty l = Some r -> (length l <= f)%nat ->
  deliver_all f c s x = fed_sys (set_net s x []) (other x) r.
Proof.
  induction l as [|seg l IH]; intros f s ty r Ey Nx Hfeed Hf.
  - cbn [feed] in Hfeed. injection Hfeed as <-. rewrite (deliver_all_nil _ c s x Nx).
    cbn [fed_sys]. destruct s, x; cbn in *; subst; reflexivity.
  - destruct f as [|f]; [cbn [length] in Hf; lia|]. cbn [length] in Hf.
    rewrite (deliver_all_cons f c s x seg l Nx). cbn [feed] in Hfeed.
    unfold arrive. rewrite end_set_net, Ey.
    destruct (segment_arrives ty seg) as [[t1 []]| | |]; try discriminate Hfeed; cbn [fst].
    + rewrite (IH f _ t1 r); try assumption.
      * destruct r as [t'|t']; cbn [fed_sys]; unfold final_read; try destruct (in_text t'); destruct s, x; reflexivity.
      * now rewrite end_set_end.
      * now rewrite net_set_end, net_set_net.
      * lia.
    + injection Hfeed as <-. rewrite deliver_all_dead.
      * cbn [fed_sys]. unfold final_read. destruct (in_text t1); destruct s, x; reflexivity.
      * now rewrite end_set_end.
      * rewrite net_set_end. unfold final_read. destruct (in_text t1); rewrite ?net_set_del, net_set_net; lia.
Qed.

Lemma recv_eval s x t : end_of s x = ELive t ->
  fst (recv s x) = set_del (set_end s x (ELive (set_in_text t []))) x (del_of s x ++ chunk (in_text t)).
Proof.
  intros El. unfold recv, tcb_receive. rewrite El. cbn [fst chunk].
  destruct (in_text t); [|reflexivity]. rewrite app_nil_r. destruct s, x; reflexivity.
Qed.

Lemma fair_half_eq c s x tx ty tx' out r :
  end_of s x = ELive tx -> end_of s (other x) = ELive ty ->
  flush2 tx = Some (tx', out) -> feed ty (net_of s x ++ out) = Some r ->
  fair_half c s x = half_result s x tx' r.
Proof.
  intros Ex Ey Hfl Hfeed. unfold flush2 in Hfl.
  destruct (tcb_segments tx) as [[t1 o1]| | |] eqn:E1; try discriminate Hfl.
  destruct (advance_time t1 101) as [t2 []] eqn:E2; try discriminate Hfl.
  destruct (tcb_segments t2) as [[t3 o2]| | |] eqn:E3; try discriminate Hfl.
  injection Hfl as <- <-. rewrite app_assoc in Hfeed.
  unfold fair_half, fair_half_t. rewrite (tick_eval s x tx t1 o1 t2 101 Ex E1 E2).
  set (s1 := set_end _ x (ELive t2)).
  assert (Ex1 : end_of s1 x = ELive t2) by (subst s1; now rewrite end_set_end).
  rewrite (emit_eval s1 x t2 t3 o2 Ex1 E3). cbn iota beta.
  set (s2 := set_net _ x _).
  assert (Nx2 : net_of s2 x = (net_of s x ++ o1) ++ o2).
  { subst s2 s1. now rewrite net_set_net, net_set_end, net_set_net. }
  assert (Ey2 : end_of s2 (other x) = ELive ty).
  { subst s2 s1. sysr. exact Ey. }
  rewrite Nx2. cbn iota. rewrite (deliver_all_feed c x _ _ s2 ty r Ey2 Nx2 Hfeed) by lia.
  rewrite (recv_both _ x).
  set (s3 := fed_sys _ _ _).
  assert (Ex3 : end_of s3 x = ELive t3).
  { subst s3 s2 s1. destruct r; cbn [fed_sys]; unfold final_read; try destruct (in_text t);
      destruct s, x; reflexivity. }
  rewrite (recv_eval s3 x t3 Ex3).
  subst s3 s2 s1. destruct r as [t'|t']; cbn [fed_sys].
  - erewrite recv_eval by (destruct s, x; reflexivity).
    unfold half_result. destruct s, x; reflexivity.
  - unfold recv. replace (end_of _ (other x)) with EDead by (destruct s, x; reflexivity).
    cbn [fst]. unfold half_result, final_read. cbn [fed_end fed_tcb chunk].
    destruct (in_text t'); destruct s, x; cbn; rewrite ?app_nil_r; reflexivity.
Qed.

(* half-rounds that carry no data: control segments only *)
Lemma fair_half_ctl c s x tx ty tx' out r :
  end_of s x = ELive tx -> end_of s (other x) = ELive ty ->
  flush2 tx = Some (tx', out) -> feed ty (net_of s x ++ out) = Some r ->
  in_text tx' = [] -> in_text (fed_tcb r) = [] ->
  fair_half c s x = set_end (set_end (set_net s x []) x (ELive (set_in_text tx' []))) (other x) (fed_end r).
Proof.
  intros Ex Ey Hfl Hfeed Hx Hy. rewrite (fair_half_eq c s x tx ty tx' out r Ex Ey Hfl Hfeed).
  unfold half_result. rewrite Hx, Hy. cbn [chunk]. rewrite !app_nil_r. destruct s, x; reflexivity.
Qed.

(* the half-round of an endpoint that has nothing to segmentize: what is queued goes out (twice, if
   it is in the retransmission queue) and no data moves; the side conditions are stated so that
   for a literal TCB each is closed by eq_refl *)
Lemma fair_half_flush c s x tx ty out r :
  end_of s x = ELive tx -> end_of s (other x) = ELive ty ->
  out_text tx = [] -> fin_pending tx = false -> in_text tx = [] -> rto tx = RTO ->
  match time_wait tx with Some tw => 101 <=? tw | None => true end = true ->
  flush_out tx = out -> in_text (fed_tcb r) = [] -> 50 <= mtu tx ->
  feed ty (net_of s x ++ out) = Some r ->
  fair_half c s x =
  set_end (set_end (set_net s x []) x (ELive (set_in_text (flushed tx) []))) (other x) (fed_end r).
Proof.
  intros Ex Ey Ho Hf Hi Hr Htw <- Hy Hm Hfeed.
  apply (fair_half_ctl c s x tx ty (flushed tx) (flush_out tx) r Ex Ey); try assumption.
  apply flush2_idle; try assumption. intros tw E. rewrite E in Htw. lia.
Qed.

Lemma fair_half_live c s x tx ty tx' out r :
  end_of s x = ELive tx -> end_of s (other x) = ELive ty ->
  flush2 tx = Some (tx', out) -> feed ty (net_of s x ++ out) = Some r ->
  let s' := fair_half c s x in
  end_of s' x = ELive (set_in_text tx' []) /\ end_of s' (other x) = fed_end r /\
  net_of s' x = [] /\ net_of s' (other x) = net_of s (other x) /\ panicked s' = panicked s /\
  (forall y, sub_of s' y = sub_of s y) /\
  del_of s' x = del_of s x ++ chunk (in_text tx') /\
  del_of s' (other x) = del_of s (other x) ++ chunk (in_text (fed_tcb r)).
Proof.
  intros Ex Ey Hfl Hfeed s'. subst s'. rewrite (fair_half_eq c s x tx ty tx' out r Ex Ey Hfl Hfeed).
  apply half_result_proj.
Qed.

(* an endpoint with nothing queued only ages its timers *)
Lemma half_silent c s y ty tz :
  end_of s y = ELive ty -> end_of s (other y) = ELive tz -> net_of s y = [] ->
  out_text ty = [] -> fin_pending ty = false -> oneshot ty = [] -> retx ty = [] ->
  in_text ty = [] -> in_text tz = [] -> rto ty = RTO -> 50 <= mtu ty ->
  (forall tw, time_wait ty = Some tw -> 101 <= tw) ->
  fair_half c s y =
  set_end s y (ELive (set_time_wait ty (option_map (fun tw => tw - 101) (time_wait ty)))).
Proof.
  intros Ey Ez Ny Ho Hf Hone Hretx Hi Hiz Hr Hm Htw.
  pose proof (flush2_idle ty Ho Hf Hm Hr Htw) as Hfl. unfold flushed, flush_out in Hfl. rewrite Hone, Hretx in Hfl. cbn [map filter app] in Hfl.
  rewrite (fair_half_eq c s y ty tz _ _ (Live tz) Ey Ez Hfl) by (now rewrite Ny).
  unfold half_result. cbn [fed_end fed_tcb]. tcb_simpl. rewrite Hi, Hiz. cbn [chunk]. rewrite !app_nil_r.
  rewrite (set_in_text_same tz Hiz).
  apply sys_ext; intros; sysr; try reflexivity.
  - destruct (side_cases y x) as [-> | ->]; sysr; [|now rewrite Ez].
    f_equal. tcb_eq; now rewrite ?Hone, ?Hretx, ?Hi.
  - destruct (side_cases y x) as [-> | ->]; sysr; [now rewrite Ny|reflexivity].
  - destruct (side_cases y x) as [-> | ->]; now sysr.
Qed.

Lemma fair_half_peer_dead c s x tx tx' out :
  end_of s x = ELive tx -> end_of s (other x) = EDead -> flush2 tx = Some (tx', out) ->
  fair_half c s x =
  set_del (set_end (set_net s x []) x (ELive (set_in_text tx' []))) x (del_of s x ++ chunk (in_text tx')).
Proof.
  intros Ex Ey Hfl. unfold flush2 in Hfl.
  destruct (tcb_segments tx) as [[t1 o1]| | |] eqn:E1; try discriminate Hfl.
  destruct (advance_time t1 101) as [t2 []] eqn:E2; try discriminate Hfl.
  destruct (tcb_segments t2) as [[t3 o2]| | |] eqn:E3; try discriminate Hfl.
  injection Hfl as <- <-.
  unfold fair_half, fair_half_t. rewrite (tick_eval s x tx t1 o1 t2 101 Ex E1 E2).
  set (s1 := set_end _ x (ELive t2)).
  assert (Ex1 : end_of s1 x = ELive t2) by (subst s1; now rewrite end_set_end).
  rewrite (emit_eval s1 x t2 t3 o2 Ex1 E3). cbn iota beta.
  set (s2 := set_net _ x _).
  rewrite deliver_all_dead; [|subst s2 s1; sysr; exact Ey|lia].
  rewrite (recv_both _ x). rewrite (recv_eval _ x t3) by (subst s2 s1; now sysr).
  unfold recv. replace (end_of _ (other x)) with EDead by (subst s2 s1; sysr; now rewrite Ey).
  subst s2 s1. destruct s, x; reflexivity.
Qed.

(* the 2*MSL wait ends: the TCB is deleted *)
Lemma tick_expire c s x t tw ms :
  panicked s = false -> end_of s x = ELive t -> net_of s x = [] ->
  out_text t = [] -> fin_pending t = false -> oneshot t = [] -> retx t = [] -> in_text t = [] -> 50 <= mtu t ->
  time_wait t = Some tw -> tw < ms -> fst (sys_step c s (LTick x ms)) = set_end s x EDead.
Proof.
  intros Pn Ex Nx Ho Hf Hone Hretx Hi Hm Ht Htw. unfold sys_step. rewrite Pn. unfold tick.
  pose proof (segments_idle t Ho Hf Hm) as E1. rewrite Hone, Hretx in E1. cbn [map filter app] in E1. cbv zeta in E1.
  rewrite (emit_eval s x t _ _ Ex E1). cbn iota beta. rewrite end_set_net, end_set_end.
  set (t1 := set_retx _ _).
  pose proof (advance_expire t1 tw ms Ht Htw) as E2.
  pose proof (advance_in_text t1 ms) as E3.
  destruct (advance_time t1 ms) as [t2 r]. cbn [fst snd] in E2, E3. subst r. cbn [fst].
  unfold final_read. rewrite E3. change (in_text t1) with (in_text t). rewrite Hi, Nx.
  destruct s, x; cbn in Nx |- *; subst; reflexivity.
Qed.

Lemma half_idle c s y ty tz a r :
  end_of s y = ELive ty -> quiet ty a r -> net_of s y = [] ->
  end_of s (other y) = ELive tz -> in_text tz = [] ->
  fair_half c s y = s.
Proof.
  intros Ey (Q1 & Q2 & Q3 & Q4 & Q5 & Q6 & Q7 & Q8 & Q9 & Q10 & Q11 & Q12 & Q13 & Q14 & Q15 & Q16 & Q17) Ny Ez Hz.
  rewrite (half_silent c s y ty tz) by (try assumption; try lia; intros tw E; congruence).
  rewrite Q14. cbn [option_map].
  replace (set_time_wait ty None) with ty by (tcb_eq; now rewrite Q14).
  destruct s, y; cbn in Ey |- *; now rewrite Ey.
Qed.
