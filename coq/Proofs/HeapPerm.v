(* The model's BinaryHeap<Segment> (Model/Tcb.v: heap_push, heap_pop) only moves elements
   around: push and pop are permutations, whatever the order of the elements is.  What the
   safety proofs need of the heap (every output element is an input element, the length after a pop) are
   corollaries.  The order is the subject of TcbHeap.v. *)
From Elvis Require Import Model.Base Model.Tcb.
From Coq Require Import Permutation.

Lemma get_or_nth {A} (l : list A) i x : get_or l i x = nth i l x.
Proof.
  unfold get_or. revert i. induction l as [|a l IH]; intros [|i]; cbn; auto.
Qed.

Lemma set_nth_length {A} (l : list A) i x : length (set_nth l i x) = length l.
Proof. revert i. induction l; intros i; cbn [set_nth]; [reflexivity|]. destruct i; cbn [length]; auto. Qed.

Lemma nth_set_nth_eq {A} (l : list A) i x d : (i < length l)%nat -> nth i (set_nth l i x) d = x.
Proof.
  revert i. induction l as [|a l IH]; intros [|i] H; cbn in *; try lia; auto. apply IH. lia.
Qed.

Lemma nth_set_nth_neq {A} (l : list A) i j x d : i <> j -> nth j (set_nth l i x) d = nth j l d.
Proof.
  revert i j. induction l as [|a l IH]; intros [|i] [|j] H; cbn; auto; try congruence.
Qed.

Lemma set_nth_app_last {A} (l : list A) y x : set_nth (l ++ [y]) (length l) x = l ++ [x].
Proof. induction l as [|a l IH]; cbn; [reflexivity|now rewrite IH]. Qed.

Lemma set_nth_Forall {A} (P : A -> Prop) (l : list A) i x : Forall P l -> P x -> Forall P (set_nth l i x).
Proof.
  revert i. induction l as [|y r IH]; intros i Hl Hx; cbn [set_nth]; [constructor|].
  inversion Hl; subst. destruct i; constructor; auto.
Qed.

Lemma perm_transpose {A} (l l' : list A) (d : A) i j :
  length l' = length l -> (i < length l)%nat -> (j < length l)%nat ->
  nth i l' d = nth j l d -> nth j l' d = nth i l d ->
  (forall k, (k < length l)%nat -> k <> i -> k <> j -> nth k l' d = nth k l d) ->
  Permutation l l'.
Proof.
  intros Hlen Hi Hj Hij Hji Hk.
  apply (Permutation_nth l l' d). split; [exact Hlen|].
  exists (fun k => if Nat.eqb k i then j else if Nat.eqb k j then i else k).
  split; [|split].
  - intros k Hkl. destruct (Nat.eqb_spec k i); [assumption|]. destruct (Nat.eqb_spec k j); assumption.
  - intros x y Hx Hy.
    destruct (Nat.eqb_spec x i), (Nat.eqb_spec x j), (Nat.eqb_spec y i), (Nat.eqb_spec y j); lia.
  - intros k Hkl. destruct (Nat.eqb_spec k i) as [->|Hni]; [exact Hij|].
    destruct (Nat.eqb_spec k j) as [->|Hnj]; [exact Hji|]. apply Hk; assumption.
Qed.

(* moving an element through the hole: (v, hole i, x in hand) -> (v[i := v[j]], hole j, x in hand) *)
Lemma perm_move_hole {A} (v : list A) (d x : A) i j :
  (i < length v)%nat -> (j < length v)%nat -> i <> j ->
  Permutation (set_nth v i x) (set_nth (set_nth v i (nth j v d)) j x).
Proof.
  intros Hi Hj Hij.
  apply (perm_transpose _ _ d i j).
  - now rewrite !set_nth_length.
  - now rewrite set_nth_length.
  - now rewrite set_nth_length.
  - rewrite (nth_set_nth_neq _ j i) by congruence. rewrite nth_set_nth_eq by assumption.
    rewrite nth_set_nth_neq by assumption. reflexivity.
  - rewrite nth_set_nth_eq by (rewrite set_nth_length; assumption).
    rewrite nth_set_nth_eq by assumption. reflexivity.
  - intros k Hk Hki Hkj. rewrite !nth_set_nth_neq by congruence. reflexivity.
Qed.

(* the same with the element read the way the model reads it *)
Lemma perm_move_get_or (v : list segment) x i j :
  (i < length v)%nat -> (j < length v)%nat -> i <> j ->
  Permutation (set_nth v i x) (set_nth (set_nth v i (get_or v j x)) j x).
Proof. intros Hi Hj Hij. rewrite get_or_nth. apply perm_move_hole; assumption. Qed.

Lemma parent_lt pos : (0 < pos)%nat -> ((pos - 1) / 2 < pos)%nat.
Proof. intros H. assert (((pos - 1) / 2 <= pos - 1)%nat) by (apply Nat.div_le_upper_bound; lia). lia. Qed.

Lemma sift_up_perm : forall fuel v pos x, (pos < length v)%nat ->
  Permutation (set_nth v pos x) (sift_up fuel v pos x).
Proof.
  induction fuel as [|f IH]; intros v pos x Hp; cbn [sift_up]; [reflexivity|].
  destruct pos as [|p]; [reflexivity|].
  destruct (seg_le x _); [reflexivity|].
  pose proof (parent_lt (S p) ltac:(lia)) as Hl.
  eapply Permutation_trans; [|apply IH; rewrite set_nth_length; lia].
  apply perm_move_get_or; lia.
Qed.

Lemma sift_down_perm : forall fuel v pos x, (pos < length v)%nat ->
  Permutation (set_nth v pos x) (set_nth (fst (sift_down fuel v pos x)) (snd (sift_down fuel v pos x)) x) /\
  (snd (sift_down fuel v pos x) < length (fst (sift_down fuel v pos x)))%nat.
Proof.
  induction fuel as [|f IH]; intros v pos x Hp; cbn [sift_down]; [split; [reflexivity|assumption]|].
  set (n := length v) in *. set (child := (2 * pos + 1)%nat).
  destruct (Nat.leb child (n - 2) && Nat.leb 2 n) eqn:E2.
  - apply andb_prop in E2. destruct E2 as [A B]. apply Nat.leb_le in A, B.
    set (c := if seg_le _ _ then S child else child).
    assert (Hc : (c < n)%nat /\ c <> pos) by (subst c; destruct (seg_le _ _); lia).
    destruct (IH (set_nth v pos (get_or v c x)) c x) as [P1 P2]; [rewrite set_nth_length; apply Hc|].
    split; [|exact P2].
    eapply Permutation_trans; [|exact P1]. apply perm_move_get_or; subst n; lia.
  - destruct (Nat.eqb child (n - 1) && Nat.leb 1 n) eqn:E1; cbn [fst snd].
    + apply andb_prop in E1. destruct E1 as [A B]. apply Nat.eqb_eq in A. apply Nat.leb_le in B.
      rewrite set_nth_length. split; [|subst n; lia]. apply perm_move_get_or; subst n; lia.
    + split; [reflexivity|assumption].
Qed.

Theorem heap_push_perm v x : Permutation (x :: v) (heap_push v x).
Proof.
  unfold heap_push. eapply Permutation_trans; [|apply sift_up_perm; rewrite app_length; cbn; lia].
  rewrite set_nth_app_last. apply Permutation_cons_append.
Qed.

Lemma heap_pop_none v : heap_pop v = None <-> v = [].
Proof.
  split; [|intros ->; reflexivity]. unfold heap_pop.
  destruct (rev v) as [|last rinit] eqn:E.
  - intros _. apply (f_equal (@rev _)) in E. rewrite rev_involutive in E. exact E.
  - destruct (rev rinit); [discriminate|]. destruct (sift_down _ _ _ _). discriminate.
Qed.

Lemma heap_pop_peek v s rest top : heap_peek v = Some top -> heap_pop v = Some (s, rest) -> s = top.
Proof.
  unfold heap_peek, heap_pop. destruct v as [|y r]; [discriminate|]. intros [= ->].
  destruct (rev (top :: r)) as [|last rinit] eqn:Er; [discriminate|].
  apply (f_equal (@rev _)) in Er. rewrite rev_involutive in Er. cbn [rev] in Er.
  destruct (rev rinit) as [|top' r'].
  - intros [= <- _]. cbn [app] in Er. congruence.
  - destruct (sift_down _ _ _ _). intros [= <- _]. cbn [app] in Er. congruence.
Qed.

Theorem heap_pop_perm v m rest : heap_pop v = Some (m, rest) -> Permutation v (m :: rest).
Proof.
  unfold heap_pop. destruct (rev v) as [|last rinit] eqn:Er; [discriminate|].
  assert (Ev : v = rev rinit ++ [last]).
  { apply (f_equal (@rev _)) in Er. rewrite rev_involutive in Er. exact Er. }
  destruct (rev rinit) as [|top tl].
  - intros [= <- <-]. rewrite Ev. reflexivity.
  - generalize (S (length (top :: tl))) as fuel; intros fuel.
    destruct (sift_down_perm fuel (top :: tl) 0%nat last) as [P1 P2]; [cbn; lia|].
    destruct (sift_down fuel (top :: tl) 0%nat last) as [v1 pos1]. cbn [fst snd] in P1, P2.
    intros [= <- <-]. rewrite Ev. cbn [app]. constructor.
    eapply Permutation_trans; [|apply sift_up_perm; exact P2].
    eapply Permutation_trans; [|exact P1]. cbn [set_nth]. symmetry. apply Permutation_cons_append.
Qed.

Lemma heap_push_Forall (P : segment -> Prop) v x : Forall P v -> P x -> Forall P (heap_push v x).
Proof. intros Hv Hx. eapply Permutation_Forall; [apply heap_push_perm|]. constructor; assumption. Qed.

Lemma heap_push_In v x y : In y (heap_push v x) -> y = x \/ In y v.
Proof.
  intros H. apply (Permutation_in _ (Permutation_sym (heap_push_perm v x))) in H.
  destruct H as [<-|H]; auto.
Qed.

Lemma heap_pop_Forall (P : segment -> Prop) v s rest :
  Forall P v -> heap_pop v = Some (s, rest) -> P s /\ Forall P rest.
Proof.
  intros Hv H. apply heap_pop_perm in H. apply (Permutation_Forall H) in Hv.
  inversion Hv; subst. split; assumption.
Qed.

Lemma heap_pop_length v s rest : heap_pop v = Some (s, rest) -> length v = S (length rest).
Proof. intros H. apply heap_pop_perm, Permutation_length in H. exact H. Qed.
