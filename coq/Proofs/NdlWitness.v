(* Concrete descriptions: satisfiability of wf_sim and the witnesses of the
   classes of argument values that do not survive rendering + parsing. *)
From Elvis Require Import Model.Base Model.Ndl Proofs.NdlFacts Proofs.NdlRound
  Proofs.NdlRewrite Proofs.NdlReject.
Local Open Scope N_scope.

Definition t_5 : text := [53].
Definition t_a : text := [97].
Definition t_udp : text := [85; 68; 80].
Definition t_capture : text := [99; 97; 112; 116; 117; 114; 101].
Definition t_addr : text := [49; 46; 50; 46; 51; 46; 52].      (* 1.2.3.4 *)
Definition t_its : text := [105; 116; 92; 39; 115; 32; 91; 61]. (* it\'s [=   (escaped quote, bracket, equals sign) *)

(* one network with one address, one machine whose application carries the message v *)
Definition ex_with (v : text) : sim :=
  {| s_networks :=
       [(t_5, {| net_ty := Network; net_opts := [(k_id, t_5)];
                 net_ips := [{| it_ty := IP; it_opts := [(k_ip, t_addr)] |}] |})];
     s_machines :=
       [{| m_ty := Machine; m_opts := [(k_name, t_a)];
           m_nets := [{| it_ty := Network; it_opts := [(k_id, t_5)] |}];
           m_protos := [{| it_ty := Protocol; it_opts := [(k_name, t_udp)] |}];
           m_apps := [{| it_ty := Application;
                         it_opts := [(k_name, t_capture); (k_message, v)] |}] |}] |}.

(* the three classes of values lost to the global rewrites / the section cut, and the unescaped quote *)
Definition v_rbr : text := [97; 93; 98].               (* a]b *)
Definition v_sp4 : text := [97; 32; 32; 32; 32; 98].   (* a    b *)
Definition v_cr : text := [97; 13; 98].                (* a CR b *)
Definition v_quote : text := [105; 116; 39; 115].      (* it's *)

Lemma refuted_rbr : wf_val v_rbr /\ clean v_rbr /\ core_parse (render (ex_with v_rbr)) = Err (ecode E_EXTRA 11).
Proof.
  split; [repeat constructor; discriminate|]. split; [split; [apply notin_forallb|]; reflexivity|].
  vm_compute. reflexivity.
Qed.

Lemma refuted_sp4 : wf_val v_sp4 /\ ~ In c_rbr v_sp4 /\ ~ In c_cr v_sp4 /\
  core_parse (render (ex_with v_sp4)) = Ok (ex_with [97; 9; 98]).
Proof.
  split; [repeat constructor; discriminate|]. split; [apply notin_forallb; reflexivity|].
  split; [apply notin_forallb; reflexivity|]. vm_compute. reflexivity.
Qed.

Lemma refuted_cr : wf_val v_cr /\ ~ In c_rbr v_cr /\ norun4 0 v_cr = true /\
  core_parse (render (ex_with v_cr)) = Ok (ex_with [97; 98]).
Proof.
  split; [repeat constructor; discriminate|]. split; [apply notin_forallb; reflexivity|].
  split; [reflexivity|]. vm_compute. reflexivity.
Qed.

Lemma refuted_quote : ~ In c_rbr v_quote /\ clean v_quote /\
  core_parse (render (ex_with v_quote)) = Err (ecode E_EXTRA 11).
Proof.
  split; [apply notin_forallb; reflexivity|]. split; [split; [apply notin_forallb|]; reflexivity|].
  vm_compute. reflexivity.
Qed.

Lemma ex_with_inj v w : ex_with v = ex_with w -> v = w.
Proof. intros H. injection H as H. exact H. Qed.
