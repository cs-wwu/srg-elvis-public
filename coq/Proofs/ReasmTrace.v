(* Reassembly level: the finite map, the invariant over whole histories, the
   expiry callback, isolation of buffers. *)
From Elvis Require Import Model.Base Model.Reasm Proofs.BaseFacts Proofs.ReasmBits Proofs.ReasmFacts.
Local Open Scope Z_scope.

Lemma bufid_eqb_eq : forall a b, bufid_eqb a b = true <-> a = b.
Proof.
  intros [[[a1 a2] a3] a4] [[[b1 b2] b3] b4]. unfold bufid_eqb.
  rewrite !andb_true_iff, !Z.eqb_eq. split.
  - intros [[[-> ->] ->] ->]. reflexivity.
  - intros [= -> -> -> ->]. auto.
Qed.
Lemma bufid_eqb_refl : forall a, bufid_eqb a a = true.
Proof. intro a. now apply bufid_eqb_eq. Qed.
Lemma bufid_eqb_neq : forall a b, a <> b -> bufid_eqb a b = false.
Proof. intros a b H. destruct (bufid_eqb a b) eqn:E; [|reflexivity]. apply bufid_eqb_eq in E. contradiction. Qed.
Lemma bufid_eq_dec : forall a b : bufid, {a = b} + {a <> b}.
Proof. intros a b. destruct (bufid_eqb a b) eqn:E; [left; now apply bufid_eqb_eq|right; intros ->; rewrite bufid_eqb_refl in E; discriminate]. Qed.

Section Trace.
  Context {A : Type}.
  Notation len l := (Z.of_nat (length l)).
  Notation piece := (@piece A).
  Notation smap := (list (bufid * segment A)).

  Lemma find_remove : forall k k' (m : smap),
    find k' (remove k m) = if bufid_eqb k' k then None else find k' m.
  Proof.
    intros k k' m. induction m as [|[k0 s0] t IH]; cbn [remove find]; [destruct (bufid_eqb k' k); reflexivity|].
    destruct (bufid_eqb k k0) eqn:E.
    - apply bufid_eqb_eq in E. subst k0. rewrite IH. destruct (bufid_eqb k' k); reflexivity.
    - cbn [find]. rewrite IH. destruct (bufid_eqb k' k) eqn:E'; [|reflexivity].
      apply bufid_eqb_eq in E'. subst k'. rewrite E. reflexivity.
  Qed.
  Lemma find_upsert : forall k k' s (m : smap),
    find k' (upsert k s m) = if bufid_eqb k' k then Some s else find k' m.
  Proof. intros. unfold upsert. cbn [find]. rewrite find_remove. destruct (bufid_eqb k' k); reflexivity. Qed.

  (* every stored buffer satisfies Q *)
  Definition all_segs (Q : segment A -> Prop) (m : smap) : Prop := forall k s, find k m = Some s -> Q s.
  Lemma all_segs_remove : forall Q k m, all_segs Q m -> all_segs Q (remove k m).
  Proof. intros Q k m H k' s. rewrite find_remove. destruct (bufid_eqb k' k); [discriminate | apply H]. Qed.
  Lemma all_segs_upsert : forall Q k s m, all_segs Q m -> Q s -> all_segs Q (upsert k s m).
  Proof.
    intros Q k s m H Hs k' s'. rewrite find_upsert. destruct (bufid_eqb k' k); [intros [= <-]; exact Hs | apply H].
  Qed.

  (* per key: the datagram being reassembled and the pieces received since the
     buffer was last started *)
  Definition gstate : Type := option (hdr * list A * list piece).
  Definition gmap : Type := bufid -> gstate.
  Definition gset (G : gmap) (k : bufid) (v : gstate) : gmap :=
    fun k' => if bufid_eqb k' k then v else G k'.
  Definition gpieces (G : gmap) (k : bufid) : list piece :=
    match G k with Some (_, _, ps) => ps | None => [] end.

  Lemma gset_same : forall G k v, gset G k v k = v.
  Proof. intros. unfold gset. now rewrite bufid_eqb_refl. Qed.
  Lemma gset_other : forall G k v k', k' <> k -> gset G k v k' = G k'.
  Proof. intros. unfold gset. now rewrite bufid_eqb_neq. Qed.

  Definition BufOk (k : bufid) (os : option (segment A)) (g : gstate) : Prop :=
    match os, g with
    | None, None => True
    | Some s, Some (oh, body, ps) =>
      WfDgram oh body /\ buf_id oh = k /\ ps <> [] /\ SInv oh body ps s
    | _, _ => False
    end.

  Record RInv (G : gmap) (r : reasm A) : Prop := {
    ri_buf : forall k, BufOk k (find k (r_segs r)) (G k)
  }.

  (* every epoch in use is at most n (the u64 counters do not overflow below 2^64-1) *)
  Definition EB (n : Z) (r : reasm A) : Prop :=
    r_epoch r <= n /\ forall k s, find k (r_segs r) = Some s -> s_epoch s <= n.

  (* the epoch the next fragment for k counts on from *)
  Definition cur_epoch (r : reasm A) (k : bufid) : Z :=
    match find k (r_segs r) with Some s => s_epoch s | None => r_epoch r end.

  Lemma RInv_new : RInv (fun _ => None) reasm_new.
  Proof. constructor; cbn [reasm_new r_segs find]; intros; exact I. Qed.
  Lemma EB_new : EB 0 reasm_new.
  Proof. split; cbn [reasm_new r_segs r_epoch find]; [lia|discriminate]. Qed.

  Lemma SInv_new_after : forall oh body e, SInv oh body [] (@seg_new_after A e).
  Proof.
    intros oh body e. destruct (SInv_new (A:=A) oh body) as [I1 I2 I3 I4 I5 I6 I7 I8 I9].
    constructor; assumption.
  Qed.

  Lemma piece_buf_id : forall oh body (p : piece), Piece oh body p -> buf_id (fst p) = buf_id oh.
  Proof.
    intros oh body p (_ & _ & _ & _ & _ & _ & _ & _ & _ & E3 & _ & E5 & _ & E7 & E8).
    unfold buf_id. now rewrite E3, E5, E7, E8.
  Qed.

  Lemma whole_covers : forall oh body (p : piece) ps, WfDgram oh body -> Piece oh body p -> Whole p ->
    Covers (p :: ps) (len body).
  Proof.
    intros oh body p ps Hwf Hp Hw i Hi. exists p. split; [left; reflexivity|].
    pose proof (proj1 (piece_last_iff _ _ _ Hwf Hp) (proj2 Hw)) as He.
    destruct Hw as [Hfo _]. unfold covers_byte. lia.
  Qed.

  (* The datagram (oh, body) is compatible with the ghost state if its key is
     free or already reassembles this very datagram. *)
  Definition Compatible (G : gmap) (oh : hdr) (body : list A) : Prop :=
    match G (buf_id oh) with
    | None => True
    | Some (oh', body', _) => oh' = oh /\ body' = body
    end.

  Lemma RInv_remove : forall G r k e, RInv G r -> RInv (gset G k None) (mkR (remove k (r_segs r)) e).
  Proof.
    intros G r k e HR. constructor; cbn [r_segs]. intros k'. rewrite find_remove. unfold gset.
    destruct (bufid_eqb k' k); [exact I | apply (ri_buf _ _ HR)].
  Qed.
  Lemma EB_remove : forall n (r : reasm A) k e, EB n r -> e <= n -> EB n (mkR (remove k (r_segs r)) e).
  Proof. intros n r k e [H1 H2] He. split; [exact He | apply all_segs_remove; exact H2]. Qed.

  Theorem receive_spec : forall G r n oh body (p : piece),
    RInv G r -> EB n r -> n < U64MAX -> WfDgram oh body -> Piece oh body p -> Compatible G oh body ->
    let k := buf_id oh in
    let ps := gpieces G k in
    exists r' res, receive r (fst p) (snd p) = Ok (r', res) /\
      ((Covers (p :: ps) (len body) /\ res = Complete oh body /\
        RInv (gset G k None) r' /\ EB n r')
       \/
       (~ Covers (p :: ps) (len body) /\
        res = Incomplete (Z.max 15 (h_ttl oh)) k (cur_epoch r k + 1) /\
        RInv (gset G k (Some (oh, body, p :: ps))) r' /\ EB (n + 1) r')).
  Proof.
    intros G r n oh body p HR HB Hn Hwf Hp Hcompat k ps.
    pose proof (piece_buf_id _ _ _ Hp) as Hk. fold k in Hk.
    pose proof HB as [HB1 HB2].
    unfold receive. cbv zeta. rewrite Hk.
    destruct (is_last_fragment (h_flags (fst p)) && (h_fo (fst p) =? 0)) eqn:Ew.
    - (* the whole datagram in one packet *)
      apply andb_true_iff in Ew. destruct Ew as [El E0]. apply Z.eqb_eq in E0.
      assert (Hw : Whole p) by (split; assumption).
      pose proof (piece_whole_is_dgram _ _ _ Hwf Hp Hw) as Ep.
      eexists. eexists. split; [reflexivity|]. left.
      split; [apply (whole_covers oh body p ps Hwf Hp Hw)|].
      split; [rewrite Ep; reflexivity|]. split; [apply RInv_remove; exact HR|].
      apply EB_remove; [exact HB|].
      destruct (find k (r_segs r)) as [s0|] eqn:Ef; [|exact HB1]. pose proof (HB2 k s0 Ef). lia.
    - assert (Hnw : ~ Whole p).
      { intros [Hfo Hl]. rewrite Hl, Hfo in Ew. discriminate. }
      set (s := match find k (r_segs r) with Some s => s | None => seg_new_after (r_epoch r) end).
      assert (Hs : SInv oh body ps s).
      { pose proof (ri_buf _ _ HR k) as Hb. unfold BufOk in Hb. unfold Compatible in Hcompat.
        fold k in Hcompat. unfold ps, gpieces, s.
        destruct (find k (r_segs r)) as [s0|]; destruct (G k) as [[[oh' body'] ps']|]; try contradiction.
        - destruct Hcompat as [-> ->]. destruct Hb as (_ & _ & _ & Hs). exact Hs.
        - apply SInv_new_after. }
      assert (Hse : s_epoch s = cur_epoch r k).
      { unfold s, cur_epoch. destruct (find k (r_segs r)); reflexivity. }
      assert (Hsn : s_epoch s <= n).
      { rewrite Hse. unfold cur_epoch. destruct (find k (r_segs r)) as [s0|] eqn:Ef; [apply (HB2 k s0 Ef)|exact HB1]. }
      destruct (seg_receive_spec oh body ps s p Hwf Hs Hp Hnw ltac:(lia)) as (s' & out & Er & Hout).
      rewrite Er. cbn [bind].
      destruct Hout as [(Hcov & -> & He)|(Hncov & -> & Hs' & He)].
      + eexists. eexists. split; [reflexivity|]. left.
        split; [exact Hcov|]. split; [reflexivity|]. split; [apply RInv_remove; exact HR|].
        apply EB_remove; [exact HB|lia].
      + eexists. eexists. split; [reflexivity|]. right.
        split; [exact Hncov|]. split.
        { rewrite (si_timeout _ _ _ _ Hs'), He, Hse. reflexivity. }
        split.
        * constructor; cbn [r_segs]. intros k'. rewrite find_upsert. unfold gset.
          destruct (bufid_eqb k' k) eqn:E; [|apply (ri_buf _ _ HR)]. apply bufid_eqb_eq in E. subst k'.
          split; [exact Hwf|]. split; [reflexivity|]. split; [discriminate|exact Hs'].
        * split; cbn [r_segs r_epoch]; [lia|]. apply all_segs_upsert; [|lia].
          intros k' s0 Hf. pose proof (HB2 k' s0 Hf). lia.
  Qed.

  (* maybe_cull_segment does nothing, or frees a buffer that carries the given epoch *)
  Lemma maybe_cull_cases : forall (r : reasm A) k e,
    maybe_cull r k e = r \/
    exists s, find k (r_segs r) = Some s /\ s_epoch s = e /\
              maybe_cull r k e = mkR (remove k (r_segs r)) (Z.max (r_epoch r) e).
  Proof.
    intros r k e. unfold maybe_cull. destruct (find k (r_segs r)) as [s|]; [|left; reflexivity].
    destruct (Z.eqb_spec (s_epoch s) e); [right; exists s; repeat split; assumption | left; reflexivity].
  Qed.

  Lemma cull_spec : forall G r n k e, RInv G r -> EB n r ->
    exists G', RInv G' (maybe_cull r k e) /\ EB n (maybe_cull r k e) /\
               (forall k', k' <> k -> G' k' = G k') /\ (G' k = G k \/ G' k = None).
  Proof.
    intros G r n k e HR HB. destruct (maybe_cull_cases r k e) as [->|(s & Ef & Ee & ->)].
    - exists G. split; [exact HR|]. split; [exact HB|]. split; [reflexivity|left; reflexivity].
    - exists (gset G k None). split; [apply RInv_remove; exact HR|]. split; [|split].
      + apply EB_remove; [exact HB|]. destruct HB as [H1 H2]. pose proof (H2 k s Ef). lia.
      + intros k' N. now apply gset_other.
      + right. apply gset_same.
  Qed.

  (* every received packet is a piece of the datagram that owns its key *)
  Definition GoodEvent (D : bufid -> hdr * list A) (ev : event A) : Prop :=
    match ev with
    | EvRecv h b =>
      let d := D (buf_id h) in
      WfDgram (fst d) (snd d) /\ buf_id (fst d) = buf_id h /\ Piece (fst d) (snd d) (h, b)
    | EvCull _ _ => True
    end.

  Definition GhostOf (D : bufid -> hdr * list A) (G : gmap) : Prop :=
    forall k, match G k with None => True | Some (oh, body, _) => (oh, body) = D k end.

  Lemma run_returns_original : forall D evs G r n,
    Forall (GoodEvent D) evs -> RInv G r -> EB n r -> GhostOf D G -> n + len evs < U64MAX ->
    exists r' outs, run r evs = Ok (r', outs) /\
      forall h m, In (ObsRecv (Complete h m)) outs -> (h, m) = D (buf_id h).
  Proof.
    intros D evs. induction evs as [|ev evs IH]; intros G r n Hgood HR HB HG Hep.
    - eexists. eexists. split; [reflexivity|]. intros h m [].
    - inversion Hgood as [|? ? Hev Hgood']; subst. cbn [run]. cbn [length] in Hep.
      destruct ev as [h b|k e].
      + cbn [step]. cbn [GoodEvent] in Hev. destruct Hev as (Hwf & Hk & Hp).
        destruct (D (buf_id h)) as [oh body] eqn:ED. cbn [fst snd] in *.
        assert (Hc : Compatible G oh body).
        { unfold Compatible. rewrite Hk. pose proof (HG (buf_id h)) as Hg.
          destruct (G (buf_id h)) as [[[oh' body'] ps']|]; [|exact I].
          rewrite ED in Hg. injection Hg as -> ->. split; reflexivity. }
        destruct (receive_spec G r n oh body (h, b) HR HB ltac:(lia) Hwf Hp Hc) as (r1 & res & Er & Hres).
        cbn [fst snd] in Er. rewrite Er. cbn [bind].
        assert (Hnext : exists G1, RInv G1 r1 /\ GhostOf D G1 /\ EB (n + 1) r1 /\
                          (forall h' m', res = Complete h' m' -> (h', m') = D (buf_id h'))).
        { destruct Hres as [(_ & -> & HR1 & HB1)|(_ & -> & HR1 & HB1)].
          - exists (gset G (buf_id oh) None). split; [exact HR1|]. split; [|split].
            + intros k'. unfold gset. destruct (bufid_eqb k' (buf_id oh)); [exact I|apply HG].
            + destruct HB1 as [B1 B2]. split; [lia|]. intros k' s0 Hf. pose proof (B2 k' s0 Hf). lia.
            + intros h' m' [= <- <-]. rewrite Hk. symmetry. exact ED.
          - eexists. split; [exact HR1|]. split; [|split; [exact HB1|discriminate]].
            intros k'. unfold gset. destruct (bufid_eqb k' (buf_id oh)) eqn:E; [|apply HG].
            apply bufid_eqb_eq in E. subst k'. rewrite Hk. symmetry. exact ED. }
        destruct Hnext as (G1 & HR1 & HG1 & HB1 & Hcomp).
        destruct (IH G1 r1 (n + 1) Hgood' HR1 HB1 HG1 ltac:(lia)) as (r2 & outs & Erun & Houts).
        rewrite Erun. cbn [bind]. eexists. eexists. split; [reflexivity|].
        intros h' m' [Hin|Hin].
        * injection Hin as ->. apply Hcomp. reflexivity.
        * apply Houts. exact Hin.
      + cbn [step bind].
        destruct (cull_spec G r n k e HR HB) as (G1 & HR1 & HB1 & Hother & Hsame).
        assert (HG1 : GhostOf D G1).
        { intros k'. destruct (bufid_eq_dec k' k) as [->|N].
          - destruct Hsame as [->| ->]; [apply HG|exact I].
          - rewrite Hother by assumption. apply HG. }
        destruct (IH G1 _ n Hgood' HR1 HB1 HG1 ltac:(lia)) as (r2 & outs & Erun & Houts).
        rewrite Erun. cbn [bind]. eexists. eexists. split; [reflexivity|].
        intros h' m' [Hin|Hin]; [discriminate|]. apply Houts. exact Hin.
  Qed.

  Lemma receive_frame : forall (r : reasm A) h b r' res,
    receive r h b = Ok (r', res) ->
    forall k', k' <> buf_id h -> find k' (r_segs r') = find k' (r_segs r).
  Proof.
    intros r h b r' res Hr k' N. apply bufid_eqb_neq in N. revert Hr. unfold receive. cbv zeta.
    destruct (is_last_fragment (h_flags h) && (h_fo h =? 0)).
    - intros [= <- _]. cbn [r_segs]. rewrite find_remove, N. reflexivity.
    - destruct (seg_receive _ h b) as [[s' [[hh m]|]]| | |]; cbn [bind]; try discriminate;
        intros [= <- _]; cbn [r_segs]; rewrite ?find_remove, ?find_upsert, N; reflexivity.
  Qed.

  Lemma cull_frame : forall (r : reasm A) k e k', k' <> k ->
    find k' (r_segs (maybe_cull r k e)) = find k' (r_segs r).
  Proof.
    intros r k e k' N. destruct (maybe_cull_cases r k e) as [->|(s & _ & _ & ->)]; [reflexivity|].
    cbn [r_segs]. rewrite find_remove, (bufid_eqb_neq _ _ N). reflexivity.
  Qed.

  (* what a packet does depends on the other buffers only through retired_epoch:
     with the same buffer for its key and the same retired_epoch, two
     reassemblers return the same result and leave the same buffer *)
  Lemma receive_local : forall (r1 r2 : reasm A) h b,
    find (buf_id h) (r_segs r1) = find (buf_id h) (r_segs r2) -> r_epoch r1 = r_epoch r2 ->
    match receive r1 h b, receive r2 h b with
    | Ok (r1', res1), Ok (r2', res2) =>
      res1 = res2 /\ find (buf_id h) (r_segs r1') = find (buf_id h) (r_segs r2') /\
      r_epoch r1' = r_epoch r2'
    | Panic a, Panic b => a = b
    | Err a, Err b => a = b
    | OutOfFuel, OutOfFuel => True
    | _, _ => False
    end.
  Proof.
    intros r1 r2 h b Hf He. unfold receive. cbv zeta. rewrite Hf, He.
    destruct (is_last_fragment (h_flags h) && (h_fo h =? 0)).
    - split; [reflexivity|]. cbn [r_segs r_epoch]. rewrite !find_remove, bufid_eqb_refl. split; reflexivity.
    - destruct (seg_receive _ h b) as [[s' [[hh m]|]]| | |]; cbn [bind]; try reflexivity;
        (split; [reflexivity|]); cbn [r_segs r_epoch]; rewrite ?find_remove, ?find_upsert, bufid_eqb_refl;
        split; reflexivity.
  Qed.

  Lemma receive_fate : forall (r : reasm A) h b r' res,
    receive r h b = Ok (r', res) ->
    r_epoch r <= r_epoch r' /\
    match res with
    | Incomplete t k e =>
      k = buf_id h /\ e = cur_epoch r k + 1 /\
      exists s, find k (r_segs r') = Some s /\ s_epoch s = e
    | Complete _ _ =>
      find (buf_id h) (r_segs r') = None /\ cur_epoch r (buf_id h) <= r_epoch r'
    end.
  Proof.
    intros r h b r' res. unfold receive, cur_epoch. cbv zeta. intros Hr.
    destruct (is_last_fragment (h_flags h) && (h_fo h =? 0)).
    - injection Hr as <- <-. cbn [r_segs r_epoch]. rewrite find_remove, bufid_eqb_refl.
      destruct (find (buf_id h) (r_segs r)) as [s0|]; (split; [lia|]); (split; [reflexivity|lia]).
    - destruct (seg_receive _ h b) as [[s' out]| | |] eqn:Es; cbn [bind] in Hr; try discriminate.
      pose proof (seg_receive_epoch _ _ _ _ _ Es) as He.
      destruct out as [[hh m]|]; injection Hr as <- <-; cbn [r_segs r_epoch];
        rewrite ?find_remove, ?find_upsert, bufid_eqb_refl; (split; [lia|]).
      + split; [reflexivity|].
        destruct (find (buf_id h) (r_segs r)) as [s0|]; cbn [seg_new_after s_epoch] in He; lia.
      + split; [reflexivity|]. split; [|exists s'; split; reflexivity].
        destruct (find (buf_id h) (r_segs r)) as [s0|]; cbn [seg_new_after s_epoch] in He; lia.
  Qed.

  (* some packet of the history belongs to key k *)
  Definition recv_for (k : bufid) (evs : list (event A)) : bool :=
    existsb (fun ev => match ev with EvRecv h _ => bufid_eqb (buf_id h) k | EvCull _ _ => false end) evs.

  (* the buffer of k still carries epoch e / has moved past e; once it is freed,
     retired_epoch has reached e, so a buffer allocated later starts beyond e *)
  Definition at_epoch (k : bufid) (e : Z) (r : reasm A) : Prop :=
    match find k (r_segs r) with Some s => s_epoch s = e | None => e <= r_epoch r end.
  Definition past_epoch (k : bufid) (e : Z) (r : reasm A) : Prop :=
    match find k (r_segs r) with Some s => e < s_epoch s | None => e <= r_epoch r end.

  Lemma at_le_cur : forall k e r, at_epoch k e r -> e <= cur_epoch r k.
  Proof. intros k e r. unfold at_epoch, cur_epoch. destruct (find k (r_segs r)); lia. Qed.
  Lemma past_le_cur : forall k e r, past_epoch k e r -> e <= cur_epoch r k.
  Proof. intros k e r. unfold past_epoch, cur_epoch. destruct (find k (r_segs r)); lia. Qed.

  Lemma step_cull_keeps : forall k e (r : reasm A) k' e',
    (at_epoch k e r -> at_epoch k e (maybe_cull r k' e')) /\
    (past_epoch k e r -> past_epoch k e (maybe_cull r k' e')).
  Proof.
    intros k e r k' e'. destruct (maybe_cull_cases r k' e') as [->|(s0 & Hf & Hs & ->)]; [tauto|].
    unfold at_epoch, past_epoch. cbn [r_segs r_epoch]. rewrite find_remove.
    destruct (bufid_eqb k k') eqn:E.
    - apply bufid_eqb_eq in E. subst k'. rewrite Hf. split; intros H; lia.
    - destruct (find k (r_segs r)); split; intros H; lia.
  Qed.

  Lemma step_recv_other : forall k e (r : reasm A) h b r' res,
    receive r h b = Ok (r', res) -> buf_id h <> k ->
    (at_epoch k e r -> at_epoch k e r') /\ (past_epoch k e r -> past_epoch k e r').
  Proof.
    intros k e r h b r' res Hr N.
    assert (Hfr : find k (r_segs r') = find k (r_segs r)).
    { apply (receive_frame _ _ _ _ _ Hr). intros E. apply N. now symmetry. }
    destruct (receive_fate _ _ _ _ _ Hr) as [Hm _].
    unfold at_epoch, past_epoch. rewrite Hfr. destruct (find k (r_segs r)); split; intros H; lia.
  Qed.

  Lemma step_recv_same : forall k e (r : reasm A) h b r' res,
    receive r h b = Ok (r', res) -> buf_id h = k -> e <= cur_epoch r k -> past_epoch k e r'.
  Proof.
    intros k e r h b r' res Hr Ek He.
    destruct (receive_fate _ _ _ _ _ Hr) as [Hm Hres]. unfold past_epoch.
    destruct res as [hh m|t k0 e0].
    - destruct Hres as [Hn Hc]. rewrite Ek in Hn, Hc. rewrite Hn. lia.
    - destruct Hres as (-> & -> & s & Hf & Hs). rewrite Ek in Hf, Hs. rewrite Hf. lia.
  Qed.

  Definition ev_for (k : bufid) (ev : event A) : bool :=
    match ev with EvRecv h _ => bufid_eqb (buf_id h) k | EvCull _ _ => false end.

  Lemma step_epoch : forall k e (r r1 : reasm A) ev o, step r ev = Ok (r1, o) ->
    (past_epoch k e r -> past_epoch k e r1) /\
    (at_epoch k e r -> if ev_for k ev then past_epoch k e r1 else at_epoch k e r1).
  Proof.
    intros k e r r1 ev o Hs. destruct ev as [h b|k' e']; cbn [step ev_for] in *.
    - apply bind_ok_inv in Hs. destruct Hs as ([r' res] & Er & [= <- _]).
      destruct (bufid_eq_dec (buf_id h) k) as [E|N].
      + rewrite E, bufid_eqb_refl. split; intros H; apply (step_recv_same k e r h b r' res Er E).
        * apply past_le_cur, H.
        * apply at_le_cur, H.
      + rewrite (bufid_eqb_neq _ _ N). destruct (step_recv_other k e r h b r' res Er N). split; assumption.
    - injection Hs as <- _. destruct (step_cull_keeps k e r k' e'). split; assumption.
  Qed.

  Lemma run_cons_ok : forall (r : reasm A) ev evs r' outs, run r (ev :: evs) = Ok (r', outs) ->
    exists r1 o os, step r ev = Ok (r1, o) /\ run r1 evs = Ok (r', os) /\ outs = o :: os.
  Proof.
    intros r ev evs r' outs H. cbn [run] in H.
    apply bind_ok_inv in H. destruct H as ([r1 o] & Es & H).
    apply bind_ok_inv in H. destruct H as ([r2 os] & Er & [= <- <-]).
    exists r1, o, os. repeat split; assumption.
  Qed.

  Lemma run_past : forall evs k e (r r' : reasm A) outs,
    past_epoch k e r -> run r evs = Ok (r', outs) -> past_epoch k e r'.
  Proof.
    induction evs as [|ev evs IH]; intros k e r r' outs HP Hrun.
    - injection Hrun as <- _. exact HP.
    - apply run_cons_ok in Hrun. destruct Hrun as (r1 & o & os & Es & Er & _).
      apply (IH k e r1 r' os); [|exact Er]. apply (step_epoch k e r r1 ev o Es), HP.
  Qed.

  Lemma run_at : forall evs k e (r r' : reasm A) outs,
    at_epoch k e r -> run r evs = Ok (r', outs) ->
    if recv_for k evs then past_epoch k e r' else at_epoch k e r'.
  Proof.
    induction evs as [|ev evs IH]; intros k e r r' outs HP Hrun.
    - injection Hrun as <- _. exact HP.
    - apply run_cons_ok in Hrun. destruct Hrun as (r1 & o & os & Es & Er & _).
      apply (step_epoch k e r r1 ev o Es) in HP. change (recv_for k (ev :: evs)) with (ev_for k ev || recv_for k evs).
      destruct (ev_for k ev); cbn [orb]; [exact (run_past evs k e r1 r' os HP Er) | exact (IH k e r1 r' os HP Er)].
  Qed.

  (* The callback (k, e) handed out by an Incomplete result, run after any
     further history (arbitrary packets, arbitrary other callbacks): it
     discards the buffer if no packet for k arrived in between, and changes
     nothing if one did - also when the datagram completed meanwhile and the
     key is in use again. *)
  Theorem expiry : forall (r0 : reasm A) h b r1 t k e evs r2 outs,
    receive r0 h b = Ok (r1, Incomplete t k e) -> run r1 evs = Ok (r2, outs) ->
    (recv_for k evs = false -> find k (r_segs (maybe_cull r2 k e)) = None) /\
    (recv_for k evs = true -> maybe_cull r2 k e = r2).
  Proof.
    intros r0 h b r1 t k e evs r2 outs Hr Hrun.
    destruct (receive_fate _ _ _ _ _ Hr) as (_ & _ & _ & s & Hf & Hs).
    assert (Hat : at_epoch k e r1) by (unfold at_epoch; rewrite Hf; exact Hs).
    pose proof (run_at evs k e r1 r2 outs Hat Hrun) as Hfin.
    split; intros Hrecv; rewrite Hrecv in Hfin.
    - unfold at_epoch in Hfin. unfold maybe_cull. destruct (find k (r_segs r2)) as [s2|] eqn:Ef2; [|exact Ef2].
      rewrite Hfin, Z.eqb_refl. cbn [r_segs]. rewrite find_remove, bufid_eqb_refl. reflexivity.
    - unfold past_epoch in Hfin. destruct (maybe_cull_cases r2 k e) as [E|(s2 & Ef2 & Es2 & _)]; [exact E|].
      rewrite Ef2 in Hfin. lia.
  Qed.
End Trace.

(* segment.rs:90 unwraps the stored header once bits 0..(TDL+7)/8 are set.
   For ANY packets (malformed ones included, fragment_offset a u16) bit 0 is
   only ever set together with the header, so site 7 is unreachable. *)
Section Unwrap.
  Context {A : Type}.

  Definition HInv (s : segment A) : Prop :=
    0 <= s_tdl s /\ (bv_get (s_bits s) 0 = true -> s_header s <> None).

  Lemma HInv_new : HInv (@seg_new A).
  Proof. split; cbn; [lia|discriminate]. Qed.

  Lemma seg_receive_unwrap_safe : forall (s : segment A) h b, HInv s -> 0 <= h_fo h ->
    seg_receive s h b <> Panic 7 /\
    (forall s' out, seg_receive s h b = Ok (s', out) -> HInv s').
  Proof.
    intros s h b [Htdl Hbit] Hfo. pose proof (seg_receive_cases s h b) as C.
    assert (Ht : h_ihl h * 4 <= h_tl h -> 0 <= new_tdl s h).
    { intros Hdl. unfold new_tdl. destruct (is_last_fragment (h_flags h)); lia. }
    (* bit 0 is only ever set together with the header *)
    assert (Hb0 : bv_get (new_bits s h) 0 = true -> new_header s h <> None).
    { unfold new_bits, bv_set_range, new_header. rewrite bv_get_set_range_nat.
      destruct (Z.eqb_spec (h_fo h) 0) as [E|N]; [discriminate|].
      intros Hor. apply orb_true_iff in Hor. destruct Hor as [Hr|Ho]; [|apply Hbit; exact Ho].
      apply andb_true_iff in Hr. destruct Hr as [Hr _]. apply Nat.leb_le in Hr. lia. }
    split.
    - intros E. rewrite E in C. destruct (C eq_refl) as (Hdl & Hh & Hn0 & Hc). apply Hb0; [|exact Hh].
      unfold bv_complete in Hc. rewrite bv_complete_nat_spec in Hc. apply Hc. specialize (Ht Hdl). lia.
    - intros s' out E. rewrite E in C. destruct C as (Hdl & Eb & Eh & Et & _).
      split; [rewrite Et; apply Ht, Hdl | rewrite Eb, Eh; exact Hb0].
  Qed.

  Definition HRInv (r : reasm A) : Prop := all_segs HInv (r_segs r).

  Lemma receive_unwrap_safe : forall (r : reasm A) h b, HRInv r -> 0 <= h_fo h ->
    receive r h b <> Panic 7 /\ (forall r' res, receive r h b = Ok (r', res) -> HRInv r').
  Proof.
    intros r h b HR Hfo. unfold receive. cbv zeta.
    assert (Hrem : forall e, HRInv (mkR (remove (buf_id h) (r_segs r)) e)).
    { intros e. apply all_segs_remove, HR. }
    destruct (is_last_fragment (h_flags h) && (h_fo h =? 0)).
    - split; [discriminate|]. intros r' res [= <- _]. apply Hrem.
    - set (s := match find (buf_id h) (r_segs r) with Some s => s | None => seg_new_after (r_epoch r) end).
      assert (Hs : HInv s).
      { unfold s. destruct (find (buf_id h) (r_segs r)) as [s0|] eqn:E; [apply (HR _ _ E)|].
        split; cbn; [lia|discriminate]. }
      destruct (seg_receive_unwrap_safe s h b Hs Hfo) as [Hnp Hok].
      destruct (seg_receive s h b) as [[s' [[hh m]|]]|err|site|] eqn:Er; cbn [bind].
      + split; [discriminate|]. intros r' res [= <- _]. apply Hrem.
      + split; [discriminate|]. intros r' res [= <- _]. apply all_segs_upsert; [exact HR | apply (Hok s' None eq_refl)].
      + split; [discriminate|intros; discriminate].
      + split; [congruence|intros; discriminate].
      + split; [discriminate|intros; discriminate].
  Qed.

  Definition fo_nonneg (ev : event A) : Prop :=
    match ev with EvRecv h _ => 0 <= h_fo h | EvCull _ _ => True end.

  Lemma run_unwrap_safe_gen : forall evs (r : reasm A), HRInv r -> Forall fo_nonneg evs ->
    run r evs <> Panic 7.
  Proof.
    induction evs as [|ev evs IH]; intros r HR Hall; [discriminate|].
    inversion Hall as [|? ? Hev Hall']; subst. cbn [run]. destruct ev as [h b|k e]; cbn [step].
    - destruct (receive_unwrap_safe r h b HR Hev) as [Hnp Hok].
      destruct (receive r h b) as [[r1 res]|err|site|] eqn:Er; cbn [bind]; try discriminate; [|congruence].
      specialize (IH r1 (Hok _ _ eq_refl) Hall').
      destruct (run r1 evs) as [[r2 os]|err|site|]; cbn [bind]; try discriminate. congruence.
    - cbn [bind].
      assert (HR1 : HRInv (maybe_cull r k e)).
      { destruct (maybe_cull_cases r k e) as [->|(s0 & _ & _ & ->)]; [exact HR | apply all_segs_remove, HR]. }
      specialize (IH _ HR1 Hall').
      destruct (run (maybe_cull r k e) evs) as [[r2 os]|err|site|]; cbn [bind]; try discriminate. congruence.
  Qed.

End Unwrap.

Section Projections.
  Context {A : Type}.

  Definition is_complete (res : rres A) : bool :=
    match res with Complete _ _ => true | Incomplete _ _ _ => false end.
End Projections.
