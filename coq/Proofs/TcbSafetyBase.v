(* List and slice lemmas used by the TCP safety proof. *)
From Elvis Require Import Model.Base Model.Tcb Proofs.ListFacts.
From Elvis Require Export Proofs.HeapPerm.
From Coq Require Import Permutation.
Local Open Scope Z_scope.

Lemma zlen_nil {A} : zlen (@nil A) = 0.
Proof. reflexivity. Qed.
Lemma zlen_app {A} (a b : list A) : zlen (a ++ b) = zlen a + zlen b.
Proof. unfold zlen. rewrite app_length. lia. Qed.
Lemma zlen_nonneg {A} (a : list A) : 0 <= zlen a.
Proof. unfold zlen. lia. Qed.
Lemma zlen_cons {A} (x : A) l : zlen (x :: l) = 1 + zlen l.
Proof. unfold zlen. cbn [length]. lia. Qed.
Lemma zlen_zero_nil {A} (l : list A) : zlen l = 0 -> l = [].
Proof. destruct l; [reflexivity|]. rewrite zlen_cons. pose proof (zlen_nonneg l). lia. Qed.
Lemma zlen_firstn {A} (n : nat) (l : list A) : zlen (firstn n l) = Z.min (Z.of_nat n) (zlen l).
Proof. unfold zlen. rewrite firstn_length. lia. Qed.
Lemma zlen_skipn {A} (n : nat) (l : list A) : zlen (skipn n l) = Z.max 0 (zlen l - Z.of_nat n).
Proof. unfold zlen. rewrite skipn_length. lia. Qed.

Lemma skipn_skipn {A} (a b : nat) (l : list A) : skipn a (skipn b l) = skipn (b + a) l.
Proof. apply skipn_add. Qed.

Lemma firstn_firstn_min {A} (a b : nat) (l : list A) : firstn a (firstn b l) = firstn (Nat.min a b) l.
Proof. apply firstn_firstn. Qed.

Lemma firstn_app_slice {A} (n m : nat) (S : list A) :
  firstn n S ++ firstn m (skipn n S) = firstn (n + m) S.
Proof. symmetry. apply firstn_add. Qed.

Lemma slice_app_stable {A} (off len : nat) (S more : list A) :
  (off + len <= length S)%nat ->
  firstn len (skipn off (S ++ more)) = firstn len (skipn off S).
Proof.
  intros H. rewrite skipn_app. replace (off - length S)%nat with O by lia. cbn [skipn].
  apply firstn_app_le. rewrite skipn_length. lia.
Qed.

(* the piece the receiver appends *)
Lemma slice_of_slice {A} (already accept off len : nat) (S : list A) :
  (already <= len)%nat -> (accept <= len - already)%nat ->
  firstn accept (skipn already (firstn len (skipn off S))) = firstn accept (skipn (off + already) S).
Proof.
  intros H1 H2. rewrite skipn_firstn_comm, skipn_skipn.
  rewrite firstn_firstn. f_equal. lia.
Qed.

Lemma Forall_snoc {A} (P : A -> Prop) l x : Forall P l -> P x -> Forall P (l ++ [x]).
Proof. intros Hl Hx. apply Forall_app. split; [assumption|]. constructor; [assumption|constructor]. Qed.

Lemma concat_snoc {A} (l : list (list A)) (x : list A) : concat (l ++ [x]) = concat l ++ x.
Proof. rewrite concat_app. cbn [concat]. now rewrite app_nil_r. Qed.

Lemma heap_push_length v x : length (heap_push v x) = S (length v).
Proof. symmetry. apply (Permutation_length (heap_push_perm v x)). Qed.
