(* C12 equivariance, part 4: [srel dA dB s s'] relates a state of the run with ISNs (a, b)
   to the state of the run with ISNs (a + dA, b + dB); every label preserves it and the
   observations agree up to the shift, hence so does every trace. *)
From Elvis Require Import Model.Base Model.U32 Model.Tcb Model.TcpNet
  Proofs.ListFacts Proofs.U32Facts Proofs.TcbShift Proofs.TcbShiftInv Proofs.TcbShiftOps.
Local Open Scope Z_scope.

Definition dsh (dA dB : Z) (x : side) : Z := match x with SA => dA | SB => dB end.

Definition shift_cfg (dA dB : Z) (c : config) : config :=
  mkCfg (portA c) (portB c) (wadd (issA c) dA) (wadd (issB c) dB) (mtuA c) (mtuB c).

(* a forged segment is shifted like a genuine one sent by [x] *)
Definition shift_label (dA dB : Z) (l : label) : label :=
  match l with
  | LInject x seg => LInject x (sh_seg (dsh dA dB x) (dsh dA dB (other x)) seg)
  | other => other
  end.

(* observations carry segments emitted by one side *)
Definition shift_obs_side (dA dB : Z) (x : side) (o : obs) : obs :=
  let dO := dsh dA dB x in let dP := dsh dA dB (other x) in
  match o with
  | OTick segs r => OTick (map (sh_seg dO dP) segs) r
  | OEmit segs => OEmit (map (sh_seg dO dP) segs)
  | OListenResp h => OListenResp (sh_hdr dO dP h)
  | OClosedResp h => OClosedResp (sh_hdr dO dP h)
  | other => other
  end.
Definition obs_side (l : label) : side :=
  match l with
  | LTick x _ | LEmit x => x
  | LDeliver x _ | LInject x _ => other x
  | _ => SA
  end.
Definition shift_obs (dA dB : Z) (l : label) (o : obs) : obs := shift_obs_side dA dB (obs_side l) o.

Definition erel (dO dP : Z) (e e' : endpoint) : Prop :=
  match e, e' with
  | EClosed, EClosed | EListen, EListen | EDead, EDead => True
  | ELive t, ELive t' => trel dO dP t t'
  | _, _ => False
  end.

Record srel (dA dB : Z) (s s' : sys) : Prop := mkSrel {
  r_endA : erel dA dB (endA s) (endA s');
  r_endB : erel dB dA (endB s) (endB s');
  r_netA : netA s' = map (sh_seg dA dB) (netA s);
  r_netB : netB s' = map (sh_seg dB dA) (netB s);
  r_subA : subA s' = subA s;
  r_subB : subB s' = subB s;
  r_delA : delA s' = delA s;
  r_delB : delB s' = delB s;
  r_pan : panicked s' = panicked s }.

Definition einv (e : endpoint) : Prop := match e with ELive t => tinv t | _ => True end.
Record sinv (c : config) (s : sys) : Prop := mkSinv {
  v_issA : u32 (issA c);
  v_issB : u32 (issB c);
  v_endA : einv (endA s);
  v_endB : einv (endB s);
  v_netA : Forall sok (netA s);
  v_netB : Forall sok (netB s) }.

(* the traces covered: no segment is ever delivered to a never-opened endpoint (its RST
   reply carries the literal seq 0), and no forged segment with absolute numbers outside
   [sok] is injected *)
Definition lbl_ok (s : sys) (l : label) : Prop :=
  match l with
  | LDeliver x _ => end_of s (other x) <> EClosed
  | LInject x seg => end_of s (other x) <> EClosed /\ sok seg
  | LFair _ | LFairT _ _ _ => end_of s SA <> EClosed /\ end_of s SB <> EClosed
  | _ => True
  end.
Fixpoint run_ok (c : config) (s : sys) (ls : list label) : Prop :=
  match ls with
  | [] => True
  | l :: r => lbl_ok s l /\ run_ok c (fst (sys_step c s l)) r
  end.
Fixpoint run_obs (c : config) (s : sys) (ls : list label) : list obs :=
  match ls with
  | [] => []
  | l :: r => snd (sys_step c s l) :: run_obs c (fst (sys_step c s l)) r
  end.
Fixpoint shift_obs_list (dA dB : Z) (ls : list label) (os : list obs) : list obs :=
  match ls, os with
  | l :: ls', o :: os' => shift_obs dA dB l o :: shift_obs_list dA dB ls' os'
  | _, _ => []
  end.

(* boolean version, for the concrete example *)
Definition not_closedb (e : endpoint) : bool := match e with EClosed => false | _ => true end.
Definition lbl_okb (s : sys) (l : label) : bool :=
  match l with
  | LDeliver x _ => not_closedb (end_of s (other x))
  | LInject _ _ => false
  | LFair _ | LFairT _ _ _ => not_closedb (end_of s SA) && not_closedb (end_of s SB)
  | _ => true
  end.
Fixpoint run_okb (c : config) (s : sys) (ls : list label) : bool :=
  match ls with
  | [] => true
  | l :: r => lbl_okb s l && run_okb c (fst (sys_step c s l)) r
  end.
Lemma not_closedb_ok e : not_closedb e = true -> e <> EClosed.
Proof. destruct e; cbn; congruence. Qed.
Lemma lbl_okb_ok s l : lbl_okb s l = true -> lbl_ok s l.
Proof.
  destruct l; cbn; auto using not_closedb_ok; try discriminate;
  (intros H; apply andb_true_iff in H; destruct H; split; apply not_closedb_ok; assumption).
Qed.
Lemma run_okb_ok c ls : forall s, run_okb c s ls = true -> run_ok c s ls.
Proof.
  induction ls as [|l r IH]; intros s; cbn [run_okb run_ok]; [auto|].
  intros H. apply andb_true_iff in H. destruct H. split; [apply lbl_okb_ok | apply IH]; assumption.
Qed.

Section Net.
Variables dA dB : Z.
Notation d := (dsh dA dB).
Notation SR := (srel dA dB).
Notation C' := (shift_cfg dA dB).
Notation SH x := (sh_seg (d x) (d (other x))).

Lemma d_other_other x : d (other (other x)) = d x.
Proof. destruct x; reflexivity. Qed.

Lemma srel_end s s' x : SR s s' -> erel (d x) (d (other x)) (end_of s x) (end_of s' x).
Proof. intros []. destruct x; assumption. Qed.
Lemma srel_net s s' x : SR s s' -> net_of s' x = map (SH x) (net_of s x).
Proof. intros []. destruct x; assumption. Qed.
Lemma srel_sub s s' x : SR s s' -> sub_of s' x = sub_of s x.
Proof. intros []. destruct x; assumption. Qed.
Lemma srel_del s s' x : SR s s' -> del_of s' x = del_of s x.
Proof. intros []. destruct x; assumption. Qed.
Lemma sinv_end c s x : sinv c s -> einv (end_of s x).
Proof. intros []. destruct x; assumption. Qed.
Lemma sinv_net c s x : sinv c s -> Forall sok (net_of s x).
Proof. intros []. destruct x; assumption. Qed.
Lemma sinv_iss c s x : sinv c s -> u32 (iss_of c x).
Proof. intros []. destruct x; assumption. Qed.

(* related, and the original well-formed *)
Record srok (c : config) (s s' : sys) : Prop := mkSrok { k_rel : SR s s'; k_inv : sinv c s }.

Lemma srok_set_end c s s' x e e' : srok c s s' -> erel (d x) (d (other x)) e e' -> einv e ->
  srok c (set_end s x e) (set_end s' x e').
Proof. intros [[] []] He Hi. destruct x; split; constructor; cbn; assumption. Qed.
Lemma srok_set_net c s s' x n : srok c s s' -> Forall sok n ->
  srok c (set_net s x n) (set_net s' x (map (SH x) n)).
Proof. intros [[] []] Hn. destruct x; split; constructor; cbn; auto. Qed.
Lemma srok_set_sub c s s' x v : srok c s s' -> srok c (set_sub s x v) (set_sub s' x v).
Proof. intros [[] []]. destruct x; split; constructor; cbn; auto. Qed.
Lemma srok_set_del c s s' x v : srok c s s' -> srok c (set_del s x v) (set_del s' x v).
Proof. intros [[] []]. destruct x; split; constructor; cbn; auto. Qed.
Lemma srok_set_panicked c s s' : srok c s s' -> srok c (set_panicked s) (set_panicked s').
Proof. intros [[] []]. split; constructor; cbn; auto. Qed.
Lemma srok_final_read c s s' x t t' : srok c s s' -> in_text t' = in_text t ->
  srok c (final_read s x t) (final_read s' x t').
Proof.
  intros H E. unfold final_read. rewrite E. destruct (in_text t); [exact H|].
  rewrite (srel_del s s' x (k_rel _ _ _ H)). apply srok_set_del. exact H.
Qed.
(* appending what side x emits to its own channel *)
Lemma srok_send c s s' x segs : srok c s s' -> Forall sok segs ->
  srok c (set_net s x (net_of s x ++ segs)) (set_net s' x (net_of s' x ++ map (SH x) segs)).
Proof.
  intros H Hs. rewrite (srel_net s s' x (k_rel _ _ _ H)), <- map_app.
  apply srok_set_net; [exact H|]. apply Forall_app. split; [apply (sinv_net c s x), H | exact Hs].
Qed.

(* an operation that only looks inside a live endpoint *)
Lemma on_live_rel {A} (R : A -> A -> Prop) dO dP e e' (f f' : tcb -> A) a a' :
  erel dO dP e e' -> einv e -> R a a' -> (forall t t', trok dO dP t t' -> R (f t) (f' t')) ->
  R (match e with ELive t => f t | _ => a end) (match e' with ELive t => f' t | _ => a' end).
Proof. destruct e, e'; cbn [erel einv]; try contradiction; auto. intros He Hi _ H. apply H. split; assumption. Qed.

Lemma end_of_set_end s x e y : end_of (set_end s x e) y = if match x, y with SA, SA | SB, SB => true | _, _ => false end then e else end_of s y.
Proof. destruct x, y; reflexivity. Qed.
Lemma end_of_set_net s x n y : end_of (set_net s x n) y = end_of s y.
Proof. destruct x, y; reflexivity. Qed.
Lemma end_of_set_sub s x n y : end_of (set_sub s x n) y = end_of s y.
Proof. destruct x, y; reflexivity. Qed.
Lemma end_of_set_del s x n y : end_of (set_del s x n) y = end_of s y.
Proof. destruct x, y; reflexivity. Qed.
Lemma end_of_set_panicked s y : end_of (set_panicked s) y = end_of s y.
Proof. destruct y; reflexivity. Qed.
Lemma end_of_final_read s x t y : end_of (final_read s x t) y = end_of s y.
Proof. unfold final_read. destruct (in_text t); [reflexivity | apply end_of_set_del]. Qed.
Lemma net_of_set_net_same s x n : net_of (set_net s x n) x = n.
Proof. destruct x; reflexivity. Qed.
Lemma net_of_set_end s x e y : net_of (set_end s x e) y = net_of s y.
Proof. destruct x, y; reflexivity. Qed.

Lemma nc_set_end s x e y : e <> EClosed -> end_of s y <> EClosed -> end_of (set_end s x e) y <> EClosed.
Proof. intros He Hy. rewrite end_of_set_end. destruct x, y; assumption. Qed.

Lemma cfg_iss c x : iss_of (C' c) x = wadd (iss_of c x) (d x).
Proof. destruct x; reflexivity. Qed.
Lemma cfg_mtu c x : mtu_of (C' c) x = mtu_of c x.
Proof. destruct x; reflexivity. Qed.
Lemma cfg_port c x : port_of (C' c) x = port_of c x.
Proof. destruct x; reflexivity. Qed.

Lemma arrive_ok c s s' r seg : srok c s s' -> sok seg -> end_of s r <> EClosed ->
  srok c (fst (arrive c s r seg)) (fst (arrive (C' c) s' r (sh_seg (d (other r)) (d r) seg))) /\
  snd (arrive (C' c) s' r (sh_seg (d (other r)) (d r) seg)) = shift_obs_side dA dB r (snd (arrive c s r seg)).
Proof.
  intros H Hs Hnc. pose proof H as [HR Hi]. unfold arrive.
  pose proof (srel_end s s' r HR) as He. pose proof (sinv_end c s r Hi) as Hie.
  destruct (end_of s r) as [| |t|] eqn:E; destruct (end_of s' r) as [| |t'|] eqn:E';
    cbn [erel einv] in He, Hie; try contradiction.
  - (* listen *)
    rewrite cfg_iss, cfg_mtu.
    pose proof (arrives_listen_rel (d r) (d (other r)) seg (iss_of c r) (mtu_of c r) Hs) as A.
    pose proof (tinv_arrives_listen seg (iss_of c r) (mtu_of c r)) as B.
    pose proof (hok_arrives_listen seg (iss_of c r) (mtu_of c r)) as B'.
    destruct (arrives_listen seg (iss_of c r) (mtu_of c r)) as [|h|t];
      destruct (arrives_listen _ _ _) as [|h'|t']; cbn [lrel] in A; try contradiction; cbn [fst snd].
    + split; [exact H | reflexivity].
    + subst h'. split; [|reflexivity].
      apply (srok_send c s s' r [mkSeg h []] H). constructor; [|constructor]. apply (B' h Hs eq_refl).
    + split; [|reflexivity]. apply srok_set_end; [exact H | exact A|].
      apply (B t (sinv_iss c s r Hi) Hs eq_refl).
  - (* live *)
    pose proof (segment_arrives_ok (d r) (d (other r)) t t' seg (conj He Hie) Hs) as A.
    destruct (segment_arrives t seg) as [[t1 a]| | |];
      destruct (segment_arrives t' _) as [[t1' a']| | |]; cbn [rrel] in A; try contradiction;
      try (subst; cbn [fst snd]; split; [apply srok_set_panicked; exact H | reflexivity]).
    destruct A as [[A B] Ai]. cbn [fst snd] in A, Ai, B. subst a'.
    destruct a; cbn [fst snd]; (split; [|reflexivity]).
    + apply srok_set_end; assumption.
    + apply srok_set_end; [|exact I|exact I]. apply srok_final_read; [exact H|].
      apply (trel_in_text _ _ _ _ A).
  - cbn [fst snd]. split; [exact H | reflexivity].
Qed.

Lemma arrive_nc c s r seg y : end_of s y <> EClosed -> end_of (fst (arrive c s r seg)) y <> EClosed.
Proof.
  intros Hy. unfold arrive.
  destruct (end_of s r) as [| |t|] eqn:E.
  - destruct (arrives_closed _ _); cbn [fst]; rewrite ?end_of_set_net; exact Hy.
  - destruct (arrives_listen _ _ _); cbn [fst]; rewrite ?end_of_set_net; try exact Hy.
    apply nc_set_end; [discriminate | exact Hy].
  - destruct (segment_arrives t seg) as [[t1 []]| | |]; cbn [fst]; rewrite ?end_of_set_panicked; try exact Hy.
    + apply nc_set_end; [discriminate | exact Hy].
    + apply nc_set_end; [discriminate |]. rewrite end_of_final_read. exact Hy.
  - exact Hy.
Qed.

Lemma emit_ok c s s' x : srok c s s' ->
  srok c (fst (fst (emit s x))) (fst (fst (emit s' x))) /\
  snd (fst (emit s' x)) = map (SH x) (snd (fst (emit s x))) /\
  snd (emit s' x) = snd (emit s x).
Proof.
  intros H. pose proof H as [HR Hi]. unfold emit.
  apply (on_live_rel (fun p p' : sys * list segment * bool =>
           srok c (fst (fst p)) (fst (fst p')) /\ snd (fst p') = map (SH x) (snd (fst p)) /\ snd p' = snd p)
           _ _ _ _ _ _ _ _ (srel_end s s' x HR) (sinv_end c s x Hi)); [cbn [fst snd]; auto|].
  intros t t' Ht.
  pose proof (tcb_segments_ok _ _ t t' Ht) as A.
  destruct (tcb_segments t) as [[t1 segs]| | |]; destruct (tcb_segments t') as [[t1' segs']| | |];
    cbn [rrel] in A; try contradiction; cbn [fst snd];
    try (split; [apply srok_set_panicked; exact H | split; reflexivity]).
  destruct A as ([A B] & Ai & Hsegs). cbn [fst snd] in A, B, Ai, Hsegs. subst segs'.
  split; [|split; reflexivity].
  rewrite <- (net_of_set_end s x (ELive t1) x), <- (net_of_set_end s' x (ELive t1') x).
  apply srok_send; [|exact Hsegs]. apply srok_set_end; assumption.
Qed.

Lemma emit_nc s x y : end_of s y <> EClosed -> end_of (fst (fst (emit s x))) y <> EClosed.
Proof.
  intros Hy. unfold emit. destruct (end_of s x) as [| |t|] eqn:E; cbn [fst]; try exact Hy.
  destruct (tcb_segments t) as [[t1 segs]| | |]; cbn [fst]; rewrite ?end_of_set_panicked, ?end_of_set_net; try exact Hy.
  apply nc_set_end; [discriminate | exact Hy].
Qed.

Lemma tick_ok c s s' x ms : srok c s s' ->
  srok c (fst (tick s x ms)) (fst (tick s' x ms)) /\
  snd (tick s' x ms) = shift_obs_side dA dB x (snd (tick s x ms)).
Proof.
  intros H. unfold tick.
  destruct (emit_ok c s s' x H) as (A & B & C).
  destruct (emit s x) as [[s1 segs] bad]. destruct (emit s' x) as [[s1' segs'] bad'].
  cbn [fst snd] in A, B, C. subst segs' bad'.
  destruct bad; cbn [fst snd]; [split; [exact A | reflexivity]|].
  apply (on_live_rel (fun p p' : sys * obs => srok c (fst p) (fst p') /\ snd p' = shift_obs_side dA dB x (snd p))
           _ _ _ _ _ _ _ _ (srel_end s1 s1' x (k_rel _ _ _ A)) (sinv_end c s1 x (k_inv _ _ _ A)));
    [cbn [fst snd]; auto|].
  intros t t' [Ht Hti].
  destruct (advance_time_rel (d x) (d (other x)) t t' ms Ht) as [A2 B2].
  pose proof (tinv_advance_time t ms Hti) as I2.
  destruct (advance_time t ms) as [t1 r]. destruct (advance_time t' ms) as [t1' r'].
  cbn [fst snd] in A2, B2, I2. subst r'.
  destruct r; cbn [fst snd]; (split; [|reflexivity]).
  - apply srok_set_end; assumption.
  - apply srok_set_end; [|exact I|exact I]. apply srok_final_read; [exact A|]. apply (trel_in_text _ _ _ _ A2).
Qed.

Lemma tick_nc s x ms y : end_of s y <> EClosed -> end_of (fst (tick s x ms)) y <> EClosed.
Proof.
  intros Hy. unfold tick. pose proof (emit_nc s x y Hy) as A.
  destruct (emit s x) as [[s1 segs] bad]. cbn [fst] in A.
  destruct bad; cbn [fst]; [exact A|].
  destruct (end_of s1 x) as [| |t|] eqn:E; cbn [fst]; try exact A.
  destruct (advance_time t ms) as [t1 []]; cbn [fst].
  - apply nc_set_end; [discriminate | exact A].
  - apply nc_set_end; [discriminate |]. rewrite end_of_final_read. exact A.
Qed.

Lemma recv_ok c s s' x : srok c s s' ->
  srok c (fst (recv s x)) (fst (recv s' x)) /\ snd (recv s' x) = snd (recv s x).
Proof.
  intros H. pose proof H as [HR Hi]. unfold recv.
  apply (on_live_rel (fun p p' : sys * obs => srok c (fst p) (fst p') /\ snd p' = snd p)
           _ _ _ _ _ _ _ _ (srel_end s s' x HR) (sinv_end c s x Hi)); [cbn [fst snd]; auto|].
  intros t t' [Ht Hti].
  destruct (tcb_receive_rel (d x) (d (other x)) t t' Ht) as [A B].
  pose proof (tinv_tcb_receive t Hti) as Ai.
  destruct (tcb_receive t) as [t1 bytes]. destruct (tcb_receive t') as [t1' bytes'].
  cbn [fst snd] in A, B, Ai. subst bytes'. cbn [fst snd]. split; [|reflexivity].
  assert (H1 : srok c (set_end s x (ELive t1)) (set_end s' x (ELive t1'))) by (apply srok_set_end; assumption).
  destruct bytes; [exact H1|].
  rewrite (srel_del s s' x HR). apply srok_set_del. exact H1.
Qed.

Lemma recv_nc s x y : end_of s y <> EClosed -> end_of (fst (recv s x)) y <> EClosed.
Proof.
  intros Hy. unfold recv. destruct (end_of s x) as [| |t|] eqn:E; cbn [fst]; try exact Hy.
  destruct (tcb_receive t) as [t1 bytes]. cbn [fst].
  destruct bytes; rewrite ?end_of_set_del; (apply nc_set_end; [discriminate | exact Hy]).
Qed.

(* loss-free rounds: no endpoint is left in EClosed, so every delivery is admissible *)
Definition open2 (s : sys) : Prop := end_of s SA <> EClosed /\ end_of s SB <> EClosed.

Lemma deliver_all_ok c fuel x : forall s s', srok c s s' -> open2 s ->
  srok c (deliver_all fuel c s x) (deliver_all fuel (C' c) s' x) /\ open2 (deliver_all fuel c s x).
Proof.
  induction fuel as [|f IH]; intros s s' H Ho; cbn [deliver_all]; [auto|].
  rewrite (srel_net s s' x (k_rel _ _ _ H)).
  pose proof (sinv_net c s x (k_inv _ _ _ H)) as Hn.
  destruct (net_of s x) as [|seg rest]; cbn [map]; [auto|].
  assert (H1 : srok c (set_net s x rest) (set_net s' x (map (SH x) rest)))
    by (apply srok_set_net; [exact H | exact (Forall_inv_tail Hn)]).
  assert (Hnc : forall y, end_of (set_net s x rest) y <> EClosed).
  { intros y. rewrite end_of_set_net. destruct y; apply Ho. }
  pose proof (arrive_ok c _ _ (other x) seg H1 (Forall_inv Hn) (Hnc (other x))) as [A _].
  rewrite d_other_other in A.
  apply IH; [exact A|]. split; apply arrive_nc, Hnc.
Qed.

Lemma fair_half_t_ok c s s' x ms one : srok c s s' -> open2 s ->
  srok c (fair_half_t c s x ms one) (fair_half_t (C' c) s' x ms one) /\ open2 (fair_half_t c s x ms one).
Proof.
  intros H [HA HB]. unfold fair_half_t.
  destruct (tick_ok c s s' x ms H) as [A1 _].
  pose proof (tick_nc s x ms SA HA) as NA1. pose proof (tick_nc s x ms SB HB) as NB1.
  set (s1 := fst (tick s x ms)) in *. set (s1' := fst (tick s' x ms)) in *.
  clearbody s1 s1'.
  destruct (emit_ok c s1 s1' x A1) as (A2 & B2 & _).
  pose proof (emit_nc s1 x SA NA1) as NA2. pose proof (emit_nc s1 x SB NB1) as NB2.
  destruct (emit s1 x) as [[s2 segs] bad]. destruct (emit s1' x) as [[s2' segs'] bad'].
  cbn [fst snd] in A2, B2, NA2, NB2.
  rewrite (srel_net s2 s2' x (k_rel _ _ _ A2)), map_length.
  set (fuel := if one then S (Nat.div (length (net_of s2 x)) 3) else S (length (net_of s2 x))).
  destruct (deliver_all_ok c fuel x s2 s2' A2 (conj NA2 NB2)) as (A3 & NA3 & NB3).
  destruct (recv_ok c _ _ SA A3) as [A4 _]. destruct (recv_ok c _ _ SB A4) as [A5 _].
  split; [exact A5|]. split; apply recv_nc, recv_nc; assumption.
Qed.

Lemma fair_rounds_t_ok c ms one k : forall s s', srok c s s' -> open2 s ->
  srok c (fair_rounds_t k c s ms one) (fair_rounds_t k (C' c) s' ms one).
Proof.
  induction k as [|k IH]; intros s s' H Ho; cbn [fair_rounds_t]; [exact H|].
  destruct (fair_half_t_ok c s s' SA ms one H Ho) as [A1 O1].
  destruct (fair_half_t_ok c _ _ SB ms one A1 O1) as [A2 O2].
  apply IH; assumption.
Qed.

Lemma fair_rounds_ok c k : forall s s', srok c s s' -> open2 s ->
  srok c (fair_rounds k c s) (fair_rounds k (C' c) s').
Proof.
  induction k as [|k IH]; intros s s' H Ho; cbn [fair_rounds]; [exact H|]. unfold fair_half.
  destruct (fair_half_t_ok c s s' SA 101 false H Ho) as [A1 O1].
  destruct (fair_half_t_ok c _ _ SB 101 false A1 O1) as [A2 O2].
  apply IH; assumption.
Qed.

Lemma remove_nth_map {A B} (f : A -> B) l n : remove_nth (map f l) n = map f (remove_nth l n).
Proof.
  revert n. induction l as [|x r IH]; intros [|n]; cbn; try reflexivity. rewrite IH. reflexivity.
Qed.
Lemma remove_nth_Forall {A} (P : A -> Prop) l n : Forall P l -> Forall P (remove_nth l n).
Proof.
  intros H. revert n. induction H as [|x r Hx Hr IH]; intros [|n]; cbn; auto.
Qed.

Lemma sys_step_ok c s s' l : srok c s s' -> lbl_ok s l ->
  srok c (fst (sys_step c s l)) (fst (sys_step (C' c) s' (shift_label dA dB l))) /\
  snd (sys_step (C' c) s' (shift_label dA dB l)) = shift_obs dA dB l (snd (sys_step c s l)).
Proof.
  intros H Hok. pose proof H as [HR Hi]. unfold sys_step. rewrite (r_pan _ _ _ _ HR).
  destruct (panicked s); [cbn [fst snd]; destruct l; auto|].
  pose proof (fun x => srel_end s s' x HR) as He. pose proof (fun x => sinv_end c s x Hi) as Hie.
  pose proof (fun x => sinv_net c s x Hi) as Hn.
  destruct l as [x|x bytes|x|x|x ms|x|x i|x i|x i|x seg|k|k ms one|]; cbn [shift_label].
  - (* LOpen *)
    specialize (He x).
    destruct (end_of s x) as [| |t|] eqn:E; destruct (end_of s' x) as [| |t'|] eqn:E';
      cbn [erel] in He; try contradiction; cbn [fst snd]; auto.
    rewrite !cfg_port, cfg_iss, cfg_mtu. split; [|reflexivity].
    apply srok_set_end; [exact H | apply tcb_open_rel | apply tinv_tcb_open, (sinv_iss c s x Hi)].
  - (* LSend *)
    apply (on_live_rel (fun p p' : sys * obs => srok c (fst p) (fst p') /\ snd p' = shift_obs dA dB (LSend x bytes) (snd p))
             _ _ _ _ _ _ _ _ (He x) (Hie x)); [cbn [fst snd]; auto|].
    intros t t' [Ht Hti]. cbv zeta. cbn [fst snd].
    rewrite (trel_st _ _ _ _ Ht), (srel_sub s s' x HR). split; [|reflexivity].
    apply srok_set_end; [| apply tcb_send_rel; exact Ht | apply tinv_tcb_send; exact Hti].
    destruct (accepts_send (st t)); [apply srok_set_sub|]; exact H.
  - (* LRecv *)
    destruct (recv_ok c s s' x H) as [A B]. split; [exact A|].
    rewrite B. unfold recv. destruct (end_of s x) as [| |t|]; reflexivity.
  - (* LClose *)
    apply (on_live_rel (fun p p' : sys * obs => srok c (fst p) (fst p') /\ snd p' = shift_obs dA dB (LClose x) (snd p))
             _ _ _ _ _ _ _ _ (He x) (Hie x)); [cbn [fst snd]; auto|].
    intros t t' Ht.
    destruct (tcb_close_ok _ _ t t' Ht) as [[A Ai] B].
    destruct (tcb_close t) as [t1 r]. destruct (tcb_close t') as [t1' r'].
    cbn [fst snd] in A, Ai, B |- *. subst r'.
    split; [apply srok_set_end; assumption | reflexivity].
  - (* LTick *)
    apply tick_ok. exact H.
  - (* LEmit *)
    destruct (emit_ok c s s' x H) as (A & B & C).
    apply (on_live_rel (fun p p' : sys * obs => srok c (fst p) (fst p') /\ snd p' = shift_obs_side dA dB x (snd p))
             _ _ _ _ _ _ _ _ (He x) (Hie x)); [cbn [fst snd]; auto|].
    intros _ _ _.
    destruct (emit s x) as [[s1 segs] bad]. destruct (emit s' x) as [[s1' segs'] bad'].
    cbn [fst snd] in A, B, C. subst segs' bad'.
    destruct bad; cbn [fst snd]; auto.
  - (* LDeliver *)
    cbn [lbl_ok] in Hok. rewrite (srel_net s s' x HR).
    destruct (net_of s x) as [|s0 n0] eqn:En; cbn [map]; [cbn [fst snd]; auto|]. rewrite <- map_cons, <- En.
    set (n := net_of s x) in *. cbv zeta.
    rewrite map_length, nth_error_map.
    destruct (nth_error n (i mod length n)) as [seg|] eqn:Enth; cbn [option_map]; [|cbn [fst snd]; auto].
    rewrite remove_nth_map.
    assert (H1 : srok c (set_net s x (remove_nth n (i mod length n)))
                      (set_net s' x (map (SH x) (remove_nth n (i mod length n)))))
      by (apply srok_set_net; [exact H | apply remove_nth_Forall, Hn]).
    assert (Hnc : end_of (set_net s x (remove_nth n (i mod length n))) (other x) <> EClosed)
      by (rewrite end_of_set_net; exact Hok).
    destruct (arrive_ok c _ _ (other x) seg H1 (Forall_nth_error _ _ _ _ (Hn x) Enth) Hnc) as [A B].
    rewrite d_other_other in A, B. split; assumption.
  - (* LDrop *)
    rewrite (srel_net s s' x HR).
    destruct (net_of s x) as [|s0 n0] eqn:En; cbn [map]; [cbn [fst snd]; auto|]. rewrite <- map_cons, <- En.
    rewrite map_length, remove_nth_map. cbn [fst snd]. split; [|reflexivity].
    apply srok_set_net; [exact H | apply remove_nth_Forall, Hn].
  - (* LDup *)
    rewrite (srel_net s s' x HR).
    destruct (net_of s x) as [|s0 n0] eqn:En; cbn [map]; [cbn [fst snd]; auto|]. rewrite <- map_cons, <- En.
    rewrite map_length, nth_error_map.
    destruct (nth_error _ (i mod _)) as [seg|] eqn:Enth; cbn [option_map fst snd]; [|auto].
    split; [|reflexivity]. rewrite <- (srel_net s s' x HR).
    apply (srok_send c s s' x [seg] H). constructor; [|constructor]. apply (Forall_nth_error _ _ _ _ (Hn x) Enth).
  - (* LInject *)
    cbn [lbl_ok] in Hok. destruct Hok as [Hnc Hs].
    destruct (arrive_ok c s s' (other x) seg H Hs Hnc) as [A B].
    rewrite d_other_other in A, B. split; assumption.
  - (* LFair *)
    cbn [fst snd]. split; [apply fair_rounds_ok; assumption | reflexivity].
  - (* LFairT *)
    cbn [fst snd]. split; [apply fair_rounds_t_ok; assumption | reflexivity].
  - cbn [fst snd]. auto.
Qed.

Theorem trace_ok c ls : forall s s', srok c s s' -> run_ok c s ls ->
  srok c (run c s ls) (run (C' c) s' (map (shift_label dA dB) ls)) /\
  run_obs (C' c) s' (map (shift_label dA dB) ls) = shift_obs_list dA dB ls (run_obs c s ls).
Proof.
  unfold run.
  induction ls as [|l r IH]; intros s s' H Hok; cbn [fold_left map run_obs shift_obs_list run_ok] in *; [auto|].
  destruct Hok as [Hl Hr].
  destruct (sys_step_ok c s s' l H Hl) as [A B].
  destruct (IH _ _ A Hr) as [A2 B2].
  split; [exact A2 | rewrite B, B2; reflexivity].
Qed.

(* prefixes of an admissible trace are admissible, so the relation holds step by step *)
Lemma run_ok_firstn c n : forall ls s, run_ok c s ls -> run_ok c s (firstn n ls).
Proof.
  induction n as [|n IH]; intros [|l r] s; cbn [firstn run_ok]; auto.
  intros [H1 H2]. split; [exact H1 | apply IH; exact H2].
Qed.

Lemma srok_init c b : u32 (issA c) -> u32 (issB c) -> srok c (init_sys b) (init_sys b).
Proof. intros HA HB. split; constructor; cbn; auto; destruct b; exact I. Qed.

End Net.
