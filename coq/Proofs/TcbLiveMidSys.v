(* C01 liveness: any subset of a flight lost, the receiver's side.  What survives is taken in order as far
   as it goes and parked behind the first gap; the retransmitted flight is old data up to RCV.NXT, then
   fills a gap and drains the run parked behind it, and so on: every byte once, the ACKs an ack_chain. *)
From Elvis Require Import Model.Base Model.U32 Model.Tcb Model.TcpNet Proofs.U32Facts Proofs.TcbSafetyBase
  Proofs.TcbSafetySnd Proofs.TcbLive Proofs.TcbLiveSys Proofs.TcbLiveWin Proofs.TcbLiveWinSys Proofs.TcbHeap
  Proofs.TcbLiveMid.
From Coq Require Import Permutation.
Local Open Scope Z_scope.

Lemma recv_step_pstep t s : in_segs t = [] -> recv_step t s = pstep_in t s.
Proof. intros H. unfold recv_step, pstep_in. tcb_eq; rewrite ?H; reflexivity. Qed.

Lemma drain_result_recv t q : drain_result t q = recv_flight (set_in_segs t []) q.
Proof.
  unfold drain_result, recv_flight. generalize (set_in_segs t []) (eq_refl : in_segs (set_in_segs t []) = []).
  induction q as [|s r IH]; intros t0 H0; cbn [fold_left]; [reflexivity|].
  rewrite (recv_step_pstep t0 s H0). apply IH. exact H0.
Qed.

Lemma feed_parking : forall p ty Hacc,
  state_eqb (st ty) SynSent = false -> in_segs ty = Hacc -> u32 (rcv_nxt ty) ->
  heap_ordered Hacc -> Forall (beyond (rcv_nxt ty)) (Hacc ++ p) ->
  exists H', feed ty p = Some (Live (set_in_segs ty H')) /\ heap_ordered H' /\ Permutation (Hacc ++ p) H'.
Proof.
  induction p as [|e p IH]; intros ty Hacc Hss Hs Hu Hord Hb.
  - exists Hacc. rewrite app_nil_r.
    assert (E : set_in_segs ty Hacc = ty) by (tcb_eq; now rewrite Hs).
    rewrite E. splits; auto.
  - assert (Hb1 : Forall (beyond (rcv_nxt ty)) (e :: Hacc)).
    { rewrite Forall_app in Hb. destruct Hb as [B1 B2]. inversion B2; subst. constructor; assumption. }
    destruct (arrives_parked ty e Hacc Hss Hs Hu Hord Hb1) as (Ea & Ho & Hp).
    set (ty1 := set_in_segs ty (heap_push Hacc e)) in *.
    destruct (IH ty1 (heap_push Hacc e)) as (H' & Ed & Ho' & Hp'); try reflexivity; try assumption.
    + eapply Permutation_Forall; [|exact Hb].
      eapply Permutation_trans; [apply Permutation_app_comm|]. cbn [app].
      eapply Permutation_trans; [|apply Permutation_app_tail; exact Hp]. cbn [app].
      apply perm_skip. apply Permutation_app_comm.
    + exists H'. rewrite (feed_cons ty e ty1 p Ea). splits; auto.
      eapply Permutation_trans; [|exact Hp'].
      eapply Permutation_trans; [|apply Permutation_app_tail; exact Hp]. cbn [app].
      apply Permutation_sym, Permutation_middle.
Qed.

Inductive sublist {A} : list A -> list A -> Prop :=
| sl_nil l : sublist [] l
| sl_keep x k l : sublist k l -> sublist (x :: k) (x :: l)
| sl_skip x k l : sublist k l -> sublist k (x :: l).

Lemma sublist_refl {A} (l : list A) : sublist l l.
Proof. induction l; constructor; auto. Qed.

Lemma sublist_nil_r {A} (k : list A) : sublist k [] -> k = [].
Proof. inversion 1; reflexivity. Qed.

Lemma sublist_Forall {A} (P : A -> Prop) k l : sublist k l -> Forall P l -> Forall P k.
Proof.
  induction 1; intros HF; [constructor| |]; inversion HF; subst; [constructor|]; auto.
Qed.

Lemma sublist_trans {A} : forall (a b c : list A), sublist a b -> sublist b c -> sublist a c.
Proof.
  intros a b c Hab Hbc. revert a Hab. induction Hbc; intros a Hab.
  - apply sublist_nil_r in Hab. subst. constructor.
  - inversion Hab; subst; [constructor|apply sl_keep; auto|apply sl_skip; auto].
  - apply sl_skip; auto.
Qed.

Lemma sublist_remove_nth {A} : forall (l : list A) i, sublist (remove_nth l i) l.
Proof.
  induction l as [|a l IH]; intros i; cbn [remove_nth]; [constructor|].
  destruct i; [apply sl_skip, sublist_refl|apply sl_keep, IH].
Qed.

(* the common prefix of a sublist and its list, and what is left behind the first gap *)
Lemma sublist_split {A} (K L : list A) : sublist K L ->
  exists run rest L2, L = run ++ L2 /\ K = run ++ rest /\ sublist rest (tl L2).
Proof.
  induction 1 as [l|x k l H IH|x k l H IH].
  - exists [], [], l. repeat split. constructor.
  - destruct IH as (run & rest & L2 & -> & -> & Hs). exists (x :: run), rest, L2. auto.
  - exists [], k, (x :: l). auto.
Qed.

Definition rstep (t t' : tcb) (dn : Z) (bytes : list Z) (acks : list header) : Prop :=
  same_core t t' /\ rcv_nxt t' = wadd (rcv_nxt t) dn /\ in_text t' = in_text t ++ bytes /\
  oneshot t' = oneshot t ++ acks.

Lemma rstep_refl t : u32 (rcv_nxt t) -> rstep t t 0 [] [].
Proof. intros Hu. unfold rstep. rewrite (wadd_0_u32 _ Hu), !app_nil_r. auto using same_core_refl. Qed.

Lemma rstep_trans t t1 t2 d1 d2 b1 b2 a1 a2 :
  rstep t t1 d1 b1 a1 -> rstep t1 t2 d2 b2 a2 -> rstep t t2 (d1 + d2) (b1 ++ b2) (a1 ++ a2).
Proof.
  intros (C1 & R1 & I1 & O1) (C2 & R2 & I2 & O2). unfold rstep.
  rewrite R2, R1, wadd_wadd, I2, I1, O2, O1, !app_assoc. split; [eapply same_core_trans; eassumption|auto].
Qed.

Lemma rstep_in_segs t H : u32 (rcv_nxt t) -> rstep t (set_in_segs t H) 0 [] [].
Proof.
  intros Hu. unfold rstep. tcb_simpl. rewrite (wadd_0_u32 _ Hu), !app_nil_r. split; [|auto].
  unfold same_core. tcb_simpl. auto 20.
Qed.

Lemma dupack_ack_hdr t : rcv_wnd t = 65535 -> dupack (snd_nxt t) (rcv_nxt t) (ack_hdr t).
Proof.
  intros Hw. unfold dupack. split; [apply ack_hdr_ack_only|].
  unfold ack_hdr; tcb_simpl. cbn. rewrite Hw. auto.
Qed.

(* seen from a sender that is behind the receiver by pre0 *)
Lemma ack_chain_lift b u pre0 r X hs u' rest : r = wadd u (flight_len pre0) -> hs <> [] ->
  ack_chain b r X hs u' rest -> ack_chain b u (pre0 ++ X) hs u' rest.
Proof.
  intros Er Hne H. destruct H as [|r pre suf h hs u1 u' rest Hh Hs Hw Ha Hu1 Hc]; [congruence|].
  rewrite app_assoc. apply (ac_cons b u (pre0 ++ pre) suf h hs u1 u' rest); auto.
  rewrite Hu1, Er, wadd_wadd, flight_len_app. reflexivity.
Qed.

(* what is parked behind the first gap lies beyond RCV.NXT *)
Lemma parked_beyond lp rp ackv r more K H : u32 r -> flight lp rp ackv r more -> flight_len more <= 65535 ->
  sublist K (tl more) -> Permutation H K -> Forall (beyond r) H.
Proof.
  intros Hu F Hl Hs Hp. eapply Permutation_Forall; [symmetry; exact Hp|].
  eapply sublist_Forall; [exact Hs|]. destruct more as [|m more']; [constructor|]. cbn [tl].
  apply (flight_tail_beyond lp rp ackv r m more' Hu Hl F).
Qed.

(* what lies behind the second gap lies past the run that fills the first *)
Lemma tl_past lp rp ackv a q more2 : u32 a -> flight lp rp ackv a (q ++ more2) -> flight_len (q ++ more2) <= 65535 ->
  Forall (past a (flight_len q)) (tl more2).
Proof.
  intros Hu F Hl. destruct more2 as [|m more2']; [constructor|]. cbn [tl].
  destruct (flight_split lp rp ackv q (m :: more2') a Hu F) as [_ (Fh & Fl & Fr)].
  rewrite flight_len_app, flight_len_cons in Hl. pose proof (flight_len_nonneg q). pose proof (flight_len_nonneg more2').
  rewrite wadd_wadd in Fr.
  pose proof (flight_keys lp rp ackv more2' a (flight_len q + zlen (s_text m)) Hu ltac:(lia) ltac:(lia) Fr) as Hk.
  eapply Forall_impl; [|exact Hk]. intros e He. cbv beta in He. unfold past. lia.
Qed.

(* cur = what is still to come of the flight, starting at sequence number c0; the receiver is |ahead|
   further; K, a sublist of what follows the next missing segment, is parked.  Invariant of the induction:
   the position in the flight never passes RCV.NXT, so a segment is old data or exactly the missing one. *)
Lemma replay lp rp ackv : forall cur c0 ahead more t K H,
  cur = ahead ++ more ->
  st t = Established -> rcv_wnd t = 65535 -> mod_leq ackv (snd_una t) = true ->
  u32 c0 -> flight lp rp ackv c0 cur -> flight_len cur <= 65535 ->
  rcv_nxt t = wadd c0 (flight_len ahead) ->
  in_segs t = H -> heap_ordered H -> Permutation H K -> sublist K (tl more) ->
  zlen (in_text t) + flight_len more <= 65535 ->
  exists t' acks, feed t cur = Some (Live t') /\
    rstep t t' (flight_len more) (flight_bytes more) acks /\ in_segs t' = [] /\
    (forall X, ack_chain (snd_nxt t) (rcv_nxt t) (more ++ X) acks (wadd (rcv_nxt t) (flight_len more)) X) /\
    (cur <> [] -> acks <> []).
Proof.
  induction cur as [|s cur IH]; intros c0 ahead more t K H Ecur Est Hw Hleq Hu0 F Hlen Hr Hs Hord Hperm Hsub Hroom.
  - symmetry in Ecur. apply app_eq_nil in Ecur. destruct Ecur as [-> ->]. cbn [tl] in Hsub.
    apply sublist_nil_r in Hsub. subst K. apply Permutation_sym, Permutation_nil in Hperm. subst H.
    assert (Hu : u32 (rcv_nxt t)) by (rewrite Hr; apply wadd_u32).
    exists t, []. split; [reflexivity|]. split; [apply (rstep_refl t Hu)|]. split; [assumption|].
    split; [|congruence]. intros X. change (flight_len []) with 0. rewrite (wadd_0_u32 _ Hu). constructor.
  - assert (Hu : u32 (rcv_nxt t)) by (rewrite Hr; apply wadd_u32).
    pose proof (zlen_nonneg (in_text t)) as Hit0.
    destruct (flight_split lp rp ackv ahead more c0 Hu0 ltac:(rewrite <- Ecur; exact F)) as [Fa Fm].
    rewrite <- Hr in Fm.
    assert (Hlm : flight_len (s :: cur) = flight_len ahead + flight_len more) by (rewrite Ecur; apply flight_len_app).
    pose proof (flight_len_nonneg ahead) as Ha0. pose proof (flight_len_nonneg more) as Hm0.
    destruct ahead as [|s' ahead'].
    + (* the segment at RCV.NXT: it is consumed together with the run parked behind it *)
      cbn [app] in Ecur. subst more. cbn [tl] in Hsub.
      destruct (sublist_split K cur Hsub) as (run & rest & more2 & -> & -> & Hsub2).
      change (flight_len []) with 0 in Hr, Hlm.
      assert (Ec0 : rcv_nxt t = c0) by (rewrite Hr; apply wadd_0_u32, Hu0).
      destruct (flight_split lp rp ackv (s :: run) more2 (rcv_nxt t) Hu Fm) as [Frun Fm2].
      assert (Hl2 : flight_len (s :: run ++ more2) = flight_len (s :: run) + flight_len more2)
        by (change (s :: run ++ more2) with ((s :: run) ++ more2); apply flight_len_app).
      pose proof (flight_len_nonneg (s :: run)) as Hr0. pose proof (flight_len_nonneg more2) as Hm20.
      destruct (arrives_fill_gen lp rp ackv t s run rest H) as (H' & Ea & Ho' & Hp'); try assumption; try lia.
      { eapply sublist_Forall; [exact Hsub2|]. apply (tl_past lp rp ackv (rcv_nxt t) (s :: run) more2 Hu Fm). cbn [app]. lia. }
      rewrite drain_result_recv in Ea.
      set (t0 := set_in_segs t []) in *.
      set (t1 := set_in_segs (recv_flight t0 (s :: run)) H') in *.
      destruct (recv_flight_facts lp rp ackv (s :: run) t0 Frun Hw Hu) as (C1 & R1 & I1 & _ & acks1 & O1 & FA1).
      cbv zeta in *.
      assert (Hst1 : rstep t t1 (flight_len (s :: run)) (flight_bytes (s :: run)) acks1).
      { unfold rstep. subst t1. tcb_simpl. split; [|auto].
        unfold same_core in *. tcb_simpl. auto 20. }
      pose proof Hst1 as ((_ & _ & _ & Cst & Cun & Cnx & _ & Crw & _) & R1' & I1' & O1').
      destruct F as (Fh & Fl & Fr).
      destruct (IH (wadd c0 (zlen (s_text s))) run more2 t1 rest H') as (t' & acks2 & Ef & Hst2 & Hs2 & Hc2 & _);
        try assumption; try reflexivity; try congruence.
      * apply wadd_u32.
      * rewrite flight_len_cons in Hlen. lia.
      * rewrite R1', Ec0, wadd_wadd, flight_len_cons. reflexivity.
      * now apply Permutation_sym.
      * rewrite I1', zlen_app. fold (flight_len (s :: run)). lia.
      * exists t', (acks1 ++ acks2). split; [rewrite (feed_cons t s t1 _ Ea); exact Ef|]. split; [|split; [exact Hs2|split]].
        3:{ intros _ E. apply app_eq_nil in E. destruct E as [-> _]. inversion FA1. }
        -- pose proof (rstep_trans _ _ _ _ _ _ _ _ _ Hst1 Hst2) as HT.
           rewrite Hl2. change (s :: run ++ more2) with ((s :: run) ++ more2). rewrite flight_bytes_app. exact HT.
        -- intros X. cbn [app]. rewrite <- app_assoc. change (s :: run ++ more2 ++ X) with ((s :: run) ++ (more2 ++ X)).
           eapply ack_chain_app; [exact (ack_chain_ackfor _ lp rp ackv (more2 ++ X) (s :: run) acks1 _ Hu FA1 Frun)|].
           specialize (Hc2 X). rewrite Cnx, R1', wadd_wadd, <- Hl2 in Hc2. exact Hc2.
    + (* a segment the receiver already has: a duplicate ACK, the parked segments stay *)
      cbn [app] in Ecur. injection Ecur as <- Ecur.
      destruct F as (Fh & Fl & Fr). destruct s as [h text]. cbn [s_hdr s_text] in *.
      rewrite flight_len_cons in Hr, Hlm, Hlen. cbn [s_text] in Hr, Hlm, Hlen.
      pose proof (flight_len_nonneg ahead') as Ha'0.
      assert (Hla : flight_len (mkSeg h text :: ahead') = zlen text + flight_len ahead') by (rewrite flight_len_cons; reflexivity).
      assert (Hb : Forall (beyond (rcv_nxt t)) H).
      { apply (parked_beyond lp rp ackv (rcv_nxt t) more K H Hu Fm); try assumption. lia. }
      destruct (arrives_old_parked t h text (flight_len ahead') H) as (H' & Ea & Ho' & Hp'); try assumption; try lia.
      { rewrite Fh. apply data_hdr_ack_only. }
      { rewrite Fh. exact Hu0. }
      { rewrite Fh. cbn [data_hdr hb_wnd hb_ack h_seq]. symmetry. exact Hr. }
      { rewrite Fh. exact Hleq. }
      set (t1 := pstep_old (set_in_segs t H')) in *.
      assert (Hst1 : rstep t t1 0 [] [ack_hdr (set_in_segs t H')]).
      { unfold rstep. subst t1. unfold pstep_old. tcb_simpl. rewrite (wadd_0_u32 _ Hu), app_nil_r.
        split; [|auto]. unfold same_core. tcb_simpl. auto 20. }
      destruct (IH (wadd c0 (zlen text)) ahead' more t1 K H') as (t' & acks2 & Ef & Hst2 & Hs2 & Hc2 & _);
        try assumption; try reflexivity.
      * apply wadd_u32.
      * lia.
      * subst t1. unfold pstep_old. tcb_simpl. rewrite Hr, wadd_wadd. reflexivity.
      * eapply Permutation_trans; [symmetry; exact Hp'|exact Hperm].
      * exists t', ([ack_hdr (set_in_segs t H')] ++ acks2).
        split; [rewrite (feed_cons t _ t1 _ Ea); exact Ef|]. split; [|split; [exact Hs2|split]].
        3:{ intros _ E. discriminate E. }
        -- pose proof (rstep_trans _ _ _ _ _ _ _ _ _ Hst1 Hst2) as HT. cbn [Z.add app] in HT. exact HT.
        -- intros X. eapply ack_chain_app; [|exact (Hc2 X)].
           apply ack_chain_dup; [exact Hu|]. constructor; [|constructor].
           apply (dupack_ack_hdr (set_in_segs t H')). exact Hw.
Qed.

(* the receiver stands at a boundary of the flight got0 ++ more0 with an empty heap; it is fed any sublist
   of what it does not have yet, then the whole flight *)
Theorem feed_lossy lp rp ackv t a got0 more0 net :
  st t = Established -> rcv_wnd t = 65535 -> mod_leq ackv (snd_una t) = true -> u32 a ->
  flight lp rp ackv a (got0 ++ more0) -> flight_len (got0 ++ more0) <= 65535 -> got0 ++ more0 <> [] ->
  rcv_nxt t = wadd a (flight_len got0) -> in_segs t = [] ->
  zlen (in_text t) + flight_len more0 <= 65535 ->
  sublist net more0 ->
  exists t' acks, feed t (net ++ (got0 ++ more0)) = Some (Live t') /\
    rstep t t' (flight_len more0) (flight_bytes more0) acks /\ in_segs t' = [] /\
    ack_chain (snd_nxt t) a (got0 ++ more0) acks (wadd a (flight_len (got0 ++ more0))) [].
Proof.
  intros Est Hw Hleq Hua F Hlen Hne Hr Hs Hroom Hsub.
  assert (Hu : u32 (rcv_nxt t)) by (rewrite Hr; apply wadd_u32).
  pose proof (zlen_nonneg (in_text t)) as Hit0.
  rewrite flight_len_app in Hlen.
  pose proof (flight_len_nonneg got0) as Hg0. pose proof (flight_len_nonneg more0) as Hm0.
  destruct (flight_split lp rp ackv got0 more0 a Hua F) as [Fg Fm]. rewrite <- Hr in Fm.
  (* the survivors: a prefix of more0 in order, the rest parked *)
  destruct (sublist_split net more0 Hsub) as (run & rest & more2 & -> & -> & Hsr).
  rewrite flight_len_app in Hroom, Hlen. pose proof (flight_len_nonneg run). pose proof (flight_len_nonneg more2).
  destruct (flight_split lp rp ackv run more2 (rcv_nxt t) Hu Fm) as [Frun Fm2].
  destruct (replay lp rp ackv run (rcv_nxt t) [] run t [] []) as (t2 & acks2 & Ef2 & Hst2 & Hs2 & Hc2 & _);
    try assumption; try reflexivity.
  { lia. }
  { change (flight_len []) with 0. symmetry. apply wadd_0_u32, Hu. }
  { apply heap_ordered_nil. }
  { constructor. }
  { lia. }
  pose proof Hst2 as ((_ & _ & _ & Cst & Cun & Cnx & _ & Crw & _) & R2 & I2 & O2).
  assert (Hu2 : u32 (rcv_nxt t2)) by (rewrite R2; apply wadd_u32).
  rewrite <- R2 in Fm2.
  assert (Hbr : Forall (beyond (rcv_nxt t2)) rest).
  { apply (parked_beyond lp rp ackv (rcv_nxt t2) more2 rest rest Hu2 Fm2); [lia|exact Hsr|reflexivity]. }
  destruct (feed_parking rest t2 []) as (H3 & Ef3 & Ho3 & Hp3); try assumption; try apply heap_ordered_nil.
  { rewrite Cst, Est. reflexivity. }
  cbn [app] in Hp3. set (t3 := set_in_segs t2 H3) in *.
  (* the whole flight again *)
  destruct (replay lp rp ackv (got0 ++ run ++ more2) a (got0 ++ run) more2 t3 rest H3)
    as (t4 & acks4 & Ef4 & Hst4 & Hs4 & Hc4 & Hne4); try assumption; try reflexivity; try (subst t3; tcb_simpl; congruence).
  { now rewrite <- app_assoc. }
  { rewrite !flight_len_app. lia. }
  { subst t3. tcb_simpl. rewrite R2, Hr, wadd_wadd, flight_len_app. reflexivity. }
  { now apply Permutation_sym. }
  { subst t3. tcb_simpl. rewrite I2, zlen_app. fold (flight_len run). lia. }
  exists t4, (acks2 ++ acks4).
  split; [rewrite <- !app_assoc, (feed_app t run t2 _ Ef2), (feed_app t2 rest t3 _ Ef3); exact Ef4|].
  split.
  { pose proof (rstep_trans _ _ _ _ _ _ _ _ _ Hst2 (rstep_trans _ _ _ _ _ _ _ _ _ (rstep_in_segs t2 H3 Hu2) Hst4)) as HT.
    cbn [Z.add app] in HT. rewrite flight_len_app, flight_bytes_app. exact HT. }
  split; [exact Hs4|].
  assert (Eend : wadd (rcv_nxt t2) (flight_len more2) = wadd a (flight_len (got0 ++ run ++ more2))).
  { rewrite R2, Hr, !wadd_wadd, !flight_len_app. f_equal; lia. }
  set (R := wadd a (flight_len (got0 ++ run ++ more2))) in *.
  apply (ack_chain_lift _ a got0 (rcv_nxt t) (run ++ more2) _ _ _ Hr).
  { intros E. apply app_eq_nil in E. apply Hne4; [exact Hne|apply E]. }
  rewrite <- (app_nil_r (run ++ more2)), <- app_assoc.
  eapply ack_chain_app; [exact (Hc2 (more2 ++ []))|].
  specialize (Hc4 []). change (snd_nxt t3) with (snd_nxt t2) in Hc4. change (rcv_nxt t3) with (rcv_nxt t2) in Hc4.
  rewrite Cnx, Eend, R2 in Hc4. exact Hc4.
Qed.
