(* Facts about Model/SocketRecv.v: the read bound of the repaired recv, conservation of the byte stream by
   recv/recv_msg/push/accept, the FIFO hand-off argument, datagram integrity, routing by (local, remote),
   and what the trace validators establish. *)
From Coq Require Import Permutation Sorted.
From Elvis Require Import Model.Base Model.SocketRecv Proofs.ProtoListFacts.

Definition optb (o : option bytes) : bytes := match o with Some m => m | None => [] end.

Lemma pending_eq : forall s, pending s = optb (stored s) ++ concat (queue s).
Proof. reflexivity. Qed.

(* The loop stops as soon as a remainder is stored (then n <= |buf|), so the remainder is never
   overwritten: in both variants nothing is lost; a parked call has collected nothing; the repaired
   loop never collects more than n. *)
Lemma recv_loop_spec : forall fixed n blk q buf st b st' q' p,
  (st = None \/ n <= length buf) ->
  recv_loop fixed n blk buf st q = (b, st', q', p) ->
  b ++ optb st' ++ concat q' = buf ++ optb st ++ concat q /\
  (p = true -> b = []) /\
  (fixed = true -> length buf <= n -> length b <= n).
Proof.
  intros fixed n blk q. induction q as [|m q IH]; intros buf st b st' q' p Hinv Hrun;
    cbn [recv_loop] in Hrun; destruct (length buf <? n) eqn:Hlt.
  - injection Hrun as <- <- <- <-. split; [reflexivity|]. split; [|auto].
    destruct buf; [reflexivity | rewrite andb_false_r; discriminate].
  - injection Hrun as <- <- <- <-. split; [reflexivity|]. split; [discriminate | auto].
  - apply Nat.ltb_lt in Hlt.
    assert (Hst : st = None) by (destruct Hinv as [H|H]; [exact H | lia]). subst st.
    destruct (length m <=? limit fixed n buf) eqn:Hfit.
    + apply Nat.leb_le in Hfit. apply IH in Hrun; [| left; reflexivity].
      destruct Hrun as (Hc & Hp & Hb). split; [|split].
      * rewrite Hc. cbn [optb concat]. rewrite <- !app_assoc. reflexivity.
      * exact Hp.
      * intros -> Hle. apply (Hb eq_refl). rewrite app_length. cbn [limit] in Hfit. lia.
    + apply Nat.leb_gt in Hfit.
      assert (Hk : length (firstn (limit fixed n buf) m) = limit fixed n buf) by (rewrite firstn_length; lia).
      apply IH in Hrun; [| right; rewrite app_length, Hk; unfold limit; destruct fixed; lia].
      destruct Hrun as (Hc & Hp & Hb). split; [|split].
      * rewrite Hc. cbn [optb concat app]. rewrite <- !app_assoc.
        f_equal. rewrite !app_assoc. f_equal. apply firstn_skipn.
      * exact Hp.
      * intros -> Hle. apply (Hb eq_refl). rewrite app_length, Hk. cbn [limit]. lia.
  - injection Hrun as <- <- <- <-. split; [reflexivity|]. split; [discriminate | auto].
Qed.

(* the two stages of recv: what is taken from the stored remainder, then the loop over the queue *)
Lemma recv_spec : forall fixed n s, exists buf0 st0 b st' q' p,
  buf0 ++ optb st0 = optb (stored s) /\ length buf0 <= n /\ (st0 = None \/ n <= length buf0) /\
  recv_loop fixed n (blocking s) buf0 st0 (queue s) = (b, st', q', p) /\
  recv fixed n s = if p then RBlock (mkSock st' q' (blocking s)) else RData b (mkSock st' q' (blocking s)).
Proof.
  intros fixed n s. unfold recv.
  assert (H1 : exists buf0 st0,
    match stored s with
    | Some m => if length m <=? n then (m, None) else (firstn n m, Some (skipn n m))
    | None => ([], None)
    end = (buf0, st0) /\
    buf0 ++ optb st0 = optb (stored s) /\ length buf0 <= n /\ (st0 = None \/ n <= length buf0)).
  { destruct (stored s) as [m|]; [destruct (length m <=? n) eqn:Hfit|]; do 2 eexists; (split; [reflexivity|]); cbn [optb].
    - apply Nat.leb_le in Hfit. rewrite app_nil_r. auto.
    - apply Nat.leb_gt in Hfit. rewrite firstn_skipn, firstn_length. split; [reflexivity|]. split; [lia | right; lia].
    - split; [reflexivity|]. split; [cbn; lia | left; reflexivity]. }
  destruct H1 as (buf0 & st0 & -> & H1).
  destruct (recv_loop fixed n (blocking s) buf0 st0 (queue s)) as [[[b st'] q'] p] eqn:H2.
  exists buf0, st0, b, st', q', p. repeat split; try apply H1. exact H2.
Qed.

Lemma recv_conserves : forall fixed n s,
  match recv fixed n s with
  | RData out s' => out ++ pending s' = pending s /\ blocking s' = blocking s
  | RBlock s' => pending s' = pending s /\ blocking s' = blocking s
  | RErr _ => False
  end.
Proof.
  intros fixed n s. destruct (recv_spec fixed n s) as (buf0 & st0 & b & st' & q' & p & Hc & _ & Hinv & H2 & ->).
  destruct (recv_loop_spec _ _ _ _ _ _ _ _ _ _ Hinv H2) as (Hcons & Hp & _).
  rewrite (app_assoc buf0), Hc in Hcons. destruct p; (split; [| reflexivity]); rewrite !pending_eq; cbn [stored queue].
  - rewrite (Hp eq_refl) in Hcons. exact Hcons.
  - exact Hcons.
Qed.

Lemma recv_bound : forall n s out s', recv true n s = RData out s' -> length out <= n.
Proof.
  intros n s out s'. destruct (recv_spec true n s) as (buf0 & st0 & b & st' & q' & p & _ & Hle & Hinv & H2 & ->).
  destruct p; intros H; inversion H; subst. exact (proj2 (proj2 (recv_loop_spec _ _ _ _ _ _ _ _ _ _ Hinv H2)) eq_refl Hle).
Qed.

Lemma recv_msg_conserves : forall s,
  match recv_msg s with
  | RData out s' => out ++ pending s' = pending s /\ blocking s' = blocking s
  | RBlock s' => s' = s
  | RErr s' => s' = s
  end.
Proof.
  intros s. unfold recv_msg. rewrite !pending_eq.
  destruct (stored s) as [m|] eqn:Hs.
  - cbn [stored queue optb blocking app]. auto.
  - destruct (queue s) as [|m q'] eqn:Hq.
    + destruct (blocking s); reflexivity.
    + cbn [stored queue optb blocking app concat]. auto.
Qed.

Lemma push_ok : forall m s s', push m s = Ok s' ->
  pending s' = pending s ++ m /\ stored s' = stored s /\ queue s' = queue s ++ [m] /\ blocking s' = blocking s.
Proof.
  intros m s s'. unfold push. destruct (length (queue s) <? CAP); intros H; inversion H; subst.
  rewrite !pending_eq. cbn [stored queue blocking].
  rewrite concat_app. cbn [concat]. rewrite app_nil_r, app_assoc. auto.
Qed.

Lemma accept_replay_ok : forall pre s, accept_replay pre = Ok s ->
  pending s = concat pre /\ stored s = None /\ queue s = pre.
Proof.
  intros pre s. unfold accept_replay. destruct (length pre <=? CAP); intros H; inversion H; subst.
  rewrite pending_eq. cbn. auto.
Qed.

Definition pushed (evs : list ev) : list bytes :=
  concat (map (fun e => match e with EPush m => [m] | _ => [] end) evs).

Lemma pushed_cons : forall e evs, pushed (e :: evs) = match e with EPush m => [m] | _ => [] end ++ pushed evs.
Proof. reflexivity. Qed.

Lemma step_conserves : forall fixed e s o s', step fixed e s = (o, s') ->
  obs_bytes o ++ pending s' = pending s ++ concat (match e, o with EPush m, OPushOk => [m] | _, _ => [] end).
Proof.
  intros fixed e s o s' H. destruct e as [m|n| |b]; cbn [step] in H.
  - destruct (push m s) as [s1| | |] eqn:Hp; inversion H; subst; cbn [obs_bytes app concat];
      try (rewrite app_nil_r; reflexivity).
    apply push_ok in Hp. destruct Hp as [Hp _]. rewrite Hp, app_nil_r. reflexivity.
  - pose proof (recv_conserves fixed n s) as Hc.
    destruct (recv fixed n s) as [out s1|s1|s1]; inversion H; subst; cbn [obs_bytes app concat];
      rewrite app_nil_r; tauto.
  - pose proof (recv_msg_conserves s) as Hc.
    destruct (recv_msg s) as [out s1|s1|s1]; inversion H; subst; cbn [obs_bytes app concat];
      rewrite app_nil_r; try tauto; reflexivity.
  - inversion H; subst. cbn [obs_bytes app concat]. rewrite app_nil_r. reflexivity.
Qed.

Lemma accepted_cons : forall e o evs os,
  accepted (e :: evs) (o :: os) =
  match e, o with EPush m, OPushOk => [m] | _, _ => [] end ++ accepted evs os.
Proof.
  intros. unfold accepted. cbn [combine map concat].
  destruct e; reflexivity.
Qed.

Lemma run_ind fixed (Q : list ev -> sock -> list obs -> sock -> Prop) :
  (forall s, Q [] s [] s) ->
  (forall e evs s o s1 os s2, step fixed e s = (o, s1) -> run fixed evs s1 = (os, s2) ->
     Q evs s1 os s2 -> Q (e :: evs) s (o :: os) s2) ->
  forall evs s os s', run fixed evs s = (os, s') -> Q evs s os s'.
Proof.
  intros H0 HS. induction evs as [|e evs IH]; intros s os s' H; cbn [run] in H.
  - inversion H. apply H0.
  - destruct (step fixed e s) as [o s1] eqn:Hs. destruct (run fixed evs s1) as [os1 s2] eqn:Hr.
    inversion H; subst. exact (HS _ _ _ _ _ _ _ Hs Hr (IH _ _ _ Hr)).
Qed.

Lemma run_length : forall fixed evs s os s', run fixed evs s = (os, s') -> length os = length evs.
Proof.
  intros fixed. apply (run_ind fixed (fun evs _ os _ => length os = length evs)); [reflexivity|].
  intros e evs s o s1 os s2 _ _ IH. cbn [length]. f_equal. exact IH.
Qed.

Lemma run_conserves : forall fixed evs s os s', run fixed evs s = (os, s') ->
  concat (map obs_bytes os) ++ pending s' = pending s ++ concat (accepted evs os).
Proof.
  intros fixed. apply (run_ind fixed (fun evs s os s' =>
    concat (map obs_bytes os) ++ pending s' = pending s ++ concat (accepted evs os))).
  - intros s. cbn. rewrite app_nil_r. reflexivity.
  - intros e evs s o s1 os s2 Hs _ IH. apply step_conserves in Hs.
    rewrite accepted_cons. cbn [map concat]. rewrite concat_app, <- app_assoc, IH, !app_assoc, Hs. reflexivity.
Qed.

Lemma step_bounded : forall e s o s', step true e s = (o, s') -> obs_bounded o = true.
Proof.
  intros e s o s' Hs. destruct e as [m|n| |b]; cbn [step] in Hs.
  - destruct (push m s); inversion Hs; reflexivity.
  - destruct (recv true n s) as [out s3|s3|s3] eqn:Hrecv; inversion Hs; subst; try reflexivity.
    apply Nat.leb_le. exact (recv_bound _ _ _ _ Hrecv).
  - destruct (recv_msg s); inversion Hs; reflexivity.
  - inversion Hs; reflexivity.
Qed.

Lemma run_bounded : forall evs s os s', run true evs s = (os, s') -> forallb obs_bounded os = true.
Proof.
  apply (run_ind true (fun _ _ os _ => forallb obs_bounded os = true)); [reflexivity|].
  intros e evs s o s1 os s2 Hs _ IH. cbn [forallb]. rewrite IH, (step_bounded _ _ _ _ Hs). reflexivity.
Qed.

Lemma accepted_all : forall fixed evs s os s', run fixed evs s = (os, s') ->
  ~ In OPushFull os -> accepted evs os = pushed evs.
Proof.
  intros fixed. apply (run_ind fixed (fun evs _ os _ => ~ In OPushFull os -> accepted evs os = pushed evs));
    [reflexivity|]. intros e evs s o s1 os s2 Hs _ IH Hno.
  rewrite accepted_cons, pushed_cons.
  rewrite IH by (intro Hin; apply Hno; right; exact Hin).
  f_equal. destruct e as [m|n| |b]; try reflexivity.
  cbn [step] in Hs. destruct (push m s); inversion Hs; subst; try reflexivity;
    exfalso; apply Hno; left; reflexivity.
Qed.

Lemma map_snd_combine_seq : forall (ws : list bytes) k, map snd (combine (seq k (length ws)) ws) = ws.
Proof. induction ws as [|w ws IH]; intros k; [reflexivity|]. cbn. f_equal. apply IH. Qed.
Lemma map_fst_combine_seq : forall (ws : list bytes) k, map fst (combine (seq k (length ws)) ws) = seq k (length ws).
Proof. induction ws as [|w ws IH]; intros k; [reflexivity|]. cbn. f_equal. apply IH. Qed.

Lemma outgoing_text_tag : forall ws, outgoing_text (tag ws) = concat ws.
Proof. intros. unfold outgoing_text, tag. rewrite map_snd_combine_seq. reflexivity. Qed.

Definition lt_fst (a b : nat * bytes) : Prop := fst a < fst b.

Lemma ascending_sorted : forall l : list (nat * bytes), ascending (map fst l) = true -> StronglySorted lt_fst l.
Proof.
  induction l as [|a l IH]; intros H; [constructor|].
  assert (Htail : ascending (map fst l) = true).
  { cbn [map ascending] in H. destruct (map fst l) eqn:E; [destruct l; [reflexivity | discriminate]|].
    apply andb_prop in H. tauto. }
  specialize (IH Htail). constructor; [exact IH|].
  destruct l as [|b l]; [constructor|].
  cbn [map ascending] in H. apply andb_prop in H. destruct H as [Hab _]. apply Nat.ltb_lt in Hab.
  constructor; [exact Hab|].
  inversion IH as [|? ? _ Hall]; subst.
  eapply Forall_impl; [| exact Hall]. intros c Hc. unfold lt_fst in *. lia.
Qed.

Lemma seq_sorted_tag : forall (ws : list bytes) k, StronglySorted lt_fst (combine (seq k (length ws)) ws).
Proof.
  induction ws as [|w ws IH]; intros k; [constructor|].
  cbn [length seq combine]. constructor; [apply IH|].
  apply Forall_forall. intros [i x] Hin. apply in_combine_l in Hin. apply in_seq in Hin. unfold lt_fst. cbn. lia.
Qed.

Lemma sorted_perm_eq : forall l1 l2 : list (nat * bytes),
  StronglySorted lt_fst l1 -> StronglySorted lt_fst l2 -> Permutation l1 l2 -> l1 = l2.
Proof.
  induction l1 as [|a t1 IH]; intros l2 H1 H2 Hp.
  - apply Permutation_nil in Hp. subst. reflexivity.
  - destruct l2 as [|b t2]; [apply Permutation_sym, Permutation_nil in Hp; discriminate|].
    inversion H1 as [|? ? Ht1 Ha]; subst. inversion H2 as [|? ? Ht2 Hb]; subst.
    assert (Hab : a = b).
    { assert (Hin1 : In a (b :: t2)) by (eapply Permutation_in; [exact Hp | left; reflexivity]).
      assert (Hin2 : In b (a :: t1)) by (eapply Permutation_in; [apply Permutation_sym; exact Hp | left; reflexivity]).
      destruct Hin1 as [E|Hin1]; [symmetry; exact E|].
      destruct Hin2 as [E|Hin2]; [exact E|].
      rewrite Forall_forall in Ha, Hb. specialize (Ha _ Hin2). specialize (Hb _ Hin1).
      unfold lt_fst in *. lia. }
    subst b. f_equal. apply IH; try assumption. eapply Permutation_cons_inv; exact Hp.
Qed.

Lemma fifo_arrival_is_tag : forall ws arrival,
  Permutation arrival (tag ws) -> fifo arrival = true -> arrival = tag ws.
Proof.
  intros ws arrival Hp Hf. apply sorted_perm_eq; [apply ascending_sorted; exact Hf | apply seq_sorted_tag | exact Hp].
Qed.

Lemma fifo_stream_satisfiable :
  exists fixed ws arrival pre evs s0 os s',
    Permutation arrival (tag ws) /\ fifo arrival = true /\
    concat pre ++ concat (pushed evs) = outgoing_text arrival /\
    accept_replay pre = Ok s0 /\ run fixed evs s0 = (os, s') /\ ~ In OPushFull os /\
    concat (map obs_bytes os) = concat ws /\ ws <> [].
Proof.
  exists true, [[1%N; 2%N; 3%N]; [4%N; 5%N]], [(0, [1%N; 2%N; 3%N]); (1, [4%N; 5%N])],
         [[1%N; 2%N]], [ERecv 1; EPush [3%N; 4%N]; ERecv 2; EPush [5%N]; ERecv 9],
         (mkSock None [[1%N; 2%N]] true).
  eexists. eexists. split; [apply Permutation_refl|]. split; [reflexivity|]. split; [reflexivity|].
  split; [reflexivity|]. split; [vm_compute; reflexivity|]. split.
  - intros [H|[H|[H|[H|[H|[]]]]]]; discriminate.
  - split; [reflexivity | discriminate].
Qed.

Definition msg_only (e : ev) : bool := match e with ERecv _ => false | _ => true end.

Lemma step_msgs : forall fixed e s o s', step fixed e s = (o, s') ->
  msg_only e = true -> stored s = None ->
  stored s' = None /\
  obs_msgs o ++ queue s' = queue s ++ match e, o with EPush m, OPushOk => [m] | _, _ => [] end.
Proof.
  intros fixed e s o s' H Hm Hst. destruct e as [m|n| |b]; cbn [step] in H; try discriminate.
  - destruct (push m s) as [s1| | |] eqn:Hp; inversion H; subst; cbn [obs_msgs app];
      try (rewrite app_nil_r; auto).
    apply push_ok in Hp. destruct Hp as [_ [Hs [Hq _]]]. rewrite Hs, Hq. auto.
  - unfold recv_msg in H. rewrite Hst in H. destruct (queue s) as [|m q'] eqn:Hq.
    + destruct (blocking s); inversion H; subst; cbn [obs_msgs app]; rewrite Hq; auto.
    + inversion H; subst. cbn [obs_msgs app stored queue]. rewrite app_nil_r. auto.
  - inversion H; subst. cbn [obs_msgs app stored queue]. rewrite app_nil_r. auto.
Qed.

Lemma run_msgs : forall fixed evs s os s', run fixed evs s = (os, s') ->
  forallb msg_only evs = true -> stored s = None ->
  stored s' = None /\ concat (map obs_msgs os) ++ queue s' = queue s ++ accepted evs os.
Proof.
  intros fixed. apply (run_ind fixed (fun evs s os s' => forallb msg_only evs = true -> stored s = None ->
    stored s' = None /\ concat (map obs_msgs os) ++ queue s' = queue s ++ accepted evs os)).
  - intros s _ Hst. cbn. rewrite app_nil_r. auto.
  - intros e evs s o s1 os s2 Hs _ IH Hm Hst.
    cbn [forallb] in Hm. apply andb_prop in Hm. destruct Hm as [Hm1 Hm2].
    destruct (step_msgs _ _ _ _ _ Hs Hm1 Hst) as [Hst1 Hq1].
    destruct (IH Hm2 Hst1) as [Hst2 Hq2]. split; [exact Hst2|].
    rewrite accepted_cons. cbn [map concat]. rewrite <- app_assoc, Hq2, !app_assoc, Hq1. reflexivity.
Qed.

Lemma arrivals_in : forall sent d, In d (arrivals sent) -> In d (map fst sent).
Proof.
  induction sent as [|[x f] sent IH]; intros d H; [exact H|].
  unfold arrivals in H. cbn [map concat] in H. apply in_app_or in H. destruct H as [H|H].
  - left. destruct f; cbn in H; intuition.
  - right. apply IH. exact H.
Qed.

Lemma accepted_in_pushed : forall evs os m, In m (accepted evs os) -> In m (pushed evs).
Proof.
  induction evs as [|e evs IH]; intros os m H.
  - unfold accepted in H. cbn in H. exact H.
  - destruct os as [|o os]; [unfold accepted in H; cbn in H; contradiction|].
    rewrite accepted_cons in H. rewrite pushed_cons.
    apply in_app_or in H. apply in_or_app. destruct H as [H|H].
    + left. destruct e; try contradiction. destruct o; try contradiction. exact H.
    + right. eapply IH; exact H.
Qed.

Lemma datagram_whole : forall fixed sent pre evs s0 os s',
  pre ++ pushed evs = arrivals sent ->
  accept_replay pre = Ok s0 ->
  forallb msg_only evs = true ->
  run fixed evs s0 = (os, s') ->
  (forall d, In d (concat (map obs_msgs os)) -> In d (map fst sent)) /\
  (exists rest, concat (map obs_msgs os) ++ rest = pre ++ accepted evs os).
Proof.
  intros fixed sent pre evs s0 os s' Harr Hacc Hm Hrun.
  apply accept_replay_ok in Hacc. destruct Hacc as [_ [Hst Hq]].
  destruct (run_msgs _ _ _ _ _ Hrun Hm Hst) as [_ Heq]. rewrite Hq in Heq.
  split.
  - intros d Hd. apply arrivals_in. rewrite <- Harr.
    assert (Hin : In d (pre ++ accepted evs os)) by (rewrite <- Heq; apply in_or_app; left; exact Hd).
    apply in_app_or in Hin. apply in_or_app. destruct Hin as [Hin|Hin]; [left; exact Hin|].
    right. eapply accepted_in_pushed; exact Hin.
  - exists (queue s'). exact Heq.
Qed.

Lemma lookup_update_same : forall r v l, lookup r (update r v l) = Some v.
Proof.
  intros r v. induction l as [|[k w] t IH]; cbn [update lookup].
  - rewrite N.eqb_refl. reflexivity.
  - destruct (N.eqb k r) eqn:E; cbn [lookup]; rewrite E; [reflexivity | exact IH].
Qed.
Lemma lookup_update_other : forall r r' v l, r' <> r -> lookup r' (update r v l) = lookup r' l.
Proof.
  intros r r' v l Hne. induction l as [|[k w] t IH]; cbn [update lookup].
  - destruct (N.eqb r r') eqn:E; [apply N.eqb_eq in E; congruence | reflexivity].
  - destruct (N.eqb k r) eqn:E; cbn [lookup].
    + apply N.eqb_eq in E. subst k. destruct (N.eqb r r') eqn:E2; [apply N.eqb_eq in E2; congruence | reflexivity].
    + destruct (N.eqb k r'); [reflexivity | exact IH].
Qed.

Lemma demux_peer_only : forall r m a a' r', demux r m a = Ok a' -> r' <> r ->
  lookup r' (sessions a') = lookup r' (sessions a).
Proof.
  intros r m a a' r' H Hne. unfold demux in H.
  destruct (lookup r (sessions a)) as [[st|s]|].
  - inversion H; subst. cbn [sessions]. apply lookup_update_other; exact Hne.
  - destruct (push m s); cbn [bind] in H; inversion H; subst. cbn [sessions]. apply lookup_update_other; exact Hne.
  - destruct (length (conns a) <? backlog a); inversion H; subst. cbn [sessions]. apply lookup_update_other; exact Hne.
Qed.

Definition sess_msgs (v : option sess) : option (list bytes) :=
  match v with
  | Some (SPending st) => Some st
  | Some (SActive s) => match stored s with None => Some (queue s) | Some _ => None end
  | None => Some []
  end.

Lemma demux_whole : forall r m a a' q, demux r m a = Ok a' ->
  sess_msgs (lookup r (sessions a)) = Some q ->
  sess_msgs (lookup r (sessions a')) = Some (q ++ [m]).
Proof.
  intros r m a a' q H Hq. unfold demux in H.
  destruct (lookup r (sessions a)) as [[st|s]|] eqn:Hl.
  - inversion H; subst. cbn [sessions]. rewrite lookup_update_same. cbn in *. inversion Hq; reflexivity.
  - destruct (push m s) as [s1| | |] eqn:Hp; cbn [bind] in H; inversion H; subst. cbn [sessions].
    rewrite lookup_update_same. apply push_ok in Hp. destruct Hp as [_ [Hs [Hq1 _]]].
    cbn [sess_msgs] in *. rewrite Hs. destruct (stored s); [discriminate|]. inversion Hq; subst. rewrite Hq1. reflexivity.
  - destruct (length (conns a) <? backlog a); inversion H; subst. cbn [sessions].
    rewrite lookup_update_same. cbn in *. inversion Hq; reflexivity.
Qed.

Lemma accept_replays : forall a r a' st, accept a = AOk r a' ->
  lookup r (sessions a) = Some (SPending st) ->
  exists s, lookup r (sessions a') = Some (SActive s) /\ stored s = None /\ queue s = st /\
            (forall r', r' <> r -> lookup r' (sessions a') = lookup r' (sessions a)).
Proof.
  intros a r a' st H Hl. unfold accept in H. destruct (conns a) as [|r0 c]; [discriminate|].
  destruct (lookup r0 (sessions a)) as [[st0|s0]|] eqn:Hl0.
  - destruct (accept_replay st0) as [s| | |] eqn:Hacc; inversion H; subst.
    rewrite Hl in Hl0. inversion Hl0; subst st0.
    exists s. cbn [sessions]. rewrite lookup_update_same.
    apply accept_replay_ok in Hacc. destruct Hacc as [_ [Hs Hq]].
    repeat split; try assumption. intros r' Hne. apply lookup_update_other; exact Hne.
  - inversion H; subst. rewrite Hl in Hl0. discriminate.
  - discriminate.
Qed.

Lemma beq_eq : forall a b, beq a b = true -> a = b.
Proof.
  induction a as [|x a IH]; intros [|y b] H; cbn [beq] in H; try discriminate; [reflexivity|].
  apply andb_prop in H. destruct H as [H1 H2]. apply N.eqb_eq in H1. apply IH in H2. congruence.
Qed.

Lemma remove_one_perm : forall d l l', remove_one d l = Some l' -> Permutation l (d :: l').
Proof. exact (remove1_perm bytes (fun d x => beq x d) (fun d x E => eq_sym (beq_eq x d E))). Qed.

Lemma reads_within : forall fixed (reads : list (nat * bytes)),
  negb fixed || forallb (fun r => length (snd r) <=? fst r) reads = true ->
  fixed = true -> Forall (fun r => length (snd r) <= fst r) reads.
Proof.
  intros fixed reads H ->. cbn [negb orb] in H. rewrite forallb_forall in H. apply Forall_forall. intros r Hin.
  apply Nat.leb_le, H, Hin.
Qed.

Lemma strip_prefix_sound : forall w got rest, strip_prefix w got = Some rest -> got = w ++ rest.
Proof.
  induction w as [|x w IH]; intros got rest H; cbn [strip_prefix] in H.
  - inversion H; reflexivity.
  - destruct got as [|y got]; [discriminate|]. destruct (N.eqb x y) eqn:E; [|discriminate].
    apply N.eqb_eq in E. subst y. apply IH in H. subst got. reflexivity.
Qed.

Lemma pick_sound : forall (f : list bytes -> bytes -> bool) post pre got,
  pick f pre post got = true ->
  exists w rest post1 post2, post = post1 ++ w :: post2 /\ got = w ++ rest /\
                             f (rev_append (rev_append post1 pre) post2) rest = true.
Proof.
  intros f. induction post as [|w post IH]; intros pre got H; cbn [pick] in H; [discriminate|].
  apply orb_prop in H. destruct H as [H|H].
  - destruct (strip_prefix w got) as [rest|] eqn:E; [|discriminate].
    exists w, rest, [], post. cbn [app rev_append]. repeat split; try assumption.
    apply strip_prefix_sound; exact E.
  - apply IH in H. destruct H as [w' [rest [p1 [p2 [Hp [Hg Hf]]]]]].
    exists w', rest, (w :: p1), p2. cbn [app rev_append]. subst post. repeat split; assumption.
Qed.

Lemma perm_concat_sound : forall fuel ws got, perm_concat fuel ws got = true ->
  exists ws', Permutation ws' ws /\ got = concat ws'.
Proof.
  induction fuel as [|f IH]; intros ws got H.
  - destruct ws; cbn [perm_concat] in H; [|discriminate].
    exists []. split; [constructor|]. destruct got; [reflexivity | discriminate].
  - destruct ws as [|w0 ws0] eqn:Ews.
    + cbn [perm_concat] in H. exists []. split; [constructor|]. destruct got; [reflexivity | discriminate].
    + cbn [perm_concat] in H. rewrite <- Ews in H. apply pick_sound in H.
      destruct H as [w [rest [p1 [p2 [Hp [Hg Hf]]]]]].
      apply IH in Hf. destruct Hf as [ws' [Hperm Hrest]].
      exists (w :: ws'). split.
      * rewrite <- Ews, Hp. eapply perm_trans; [apply perm_skip; exact Hperm|].
        rewrite !rev_append_rev, app_nil_r, rev_involutive. apply Permutation_middle.
      * cbn [concat]. subst got rest. reflexivity.
Qed.

Lemma sub_multiset_sound : forall got avail, sub_multiset got avail = true ->
  exists rest, Permutation avail (got ++ rest).
Proof.
  induction got as [|g t IH]; intros avail H.
  - exists avail. apply Permutation_refl.
  - cbn [sub_multiset] in H. destruct (remove_one g avail) as [rest|] eqn:E; [|discriminate].
    apply remove_one_perm in E. destruct (IH _ H) as [r Hr]. exists r.
    eapply perm_trans; [exact E|]. cbn [app]. apply perm_skip. exact Hr.
Qed.

Definition copies (sent : list (bytes * nat)) : list bytes :=
  concat (map (fun dc => repeat (fst dc) (snd dc)) sent).

Lemma copies_in : forall sent d, In d (copies sent) -> In d (map fst sent).
Proof.
  induction sent as [|[x c] sent IH]; intros d H; [exact H|].
  unfold copies in H. cbn [map concat] in H. apply in_app_or in H. destruct H as [H|H].
  - left. apply repeat_spec in H. cbn in *. symmetry. exact H.
  - right. apply IH. exact H.
Qed.

Lemma validate_dgram_sound : forall sent got, validate_dgram sent got = true ->
  (forall g, In g got -> In g (map fst sent)) /\
  (exists rest, Permutation (copies sent) (got ++ rest)).
Proof.
  intros sent got H. unfold validate_dgram in H. apply sub_multiset_sound in H. destruct H as [rest Hp].
  split; [| exists rest; exact Hp].
  intros g Hin. apply copies_in. eapply Permutation_in; [apply Permutation_sym; exact Hp|].
  apply in_or_app. left. exact Hin.
Qed.

