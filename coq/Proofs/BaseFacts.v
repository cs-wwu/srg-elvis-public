(* Facts about Model/Base.v: what a [bind] that ended in a given kind of result went through. *)
From Elvis Require Import Model.Base.

Section Bind.
  Context {A B : Type}.
  Implicit Types (r : result A) (f : A -> result B).

  Lemma bind_ok_inv r f b : bind r f = Ok b -> exists a, r = Ok a /\ f a = Ok b.
  Proof. destruct r as [a| | |]; cbn [bind]; try discriminate. intros H. exists a. split; [reflexivity | exact H]. Qed.

  Lemma bind_err_inv r f e : bind r f = Err e -> r = Err e \/ exists a, r = Ok a /\ f a = Err e.
  Proof.
    destruct r as [a| | |]; cbn [bind]; try discriminate; intros H.
    - right. exists a. split; [reflexivity | exact H].
    - left. injection H as ->. reflexivity.
  Qed.

  Lemma bind_panic_inv r f p : bind r f = Panic p -> r = Panic p \/ exists a, r = Ok a /\ f a = Panic p.
  Proof.
    destruct r as [a| | |]; cbn [bind]; try discriminate; intros H.
    - right. exists a. split; [reflexivity | exact H].
    - left. injection H as ->. reflexivity.
  Qed.

  Lemma bind_fuel_inv r f : bind r f = OutOfFuel -> r = OutOfFuel \/ exists a, r = Ok a /\ f a = OutOfFuel.
  Proof.
    destruct r as [a| | |]; cbn [bind]; try discriminate; intros H.
    - right. exists a. split; [reflexivity | exact H].
    - left. reflexivity.
  Qed.
End Bind.

Lemma bind_assoc {A B C} (r : result A) (f : A -> result B) (g : B -> result C) :
  bind (bind r f) g = bind r (fun a => bind (f a) g).
Proof. destruct r; reflexivity. Qed.

(* a result that is a value or an error value: no panic, no fuel exhaustion *)
Definition answers {A} (r : result A) : Prop :=
  match r with Ok _ | Err _ => True | Panic _ | OutOfFuel => False end.

Lemma answers_cases {A} (r : result A) : answers r -> (exists a, r = Ok a) \/ (exists e, r = Err e).
Proof. destruct r as [a|e| |]; cbn; intros H; try contradiction; [left; exists a | right; exists e]; reflexivity. Qed.
