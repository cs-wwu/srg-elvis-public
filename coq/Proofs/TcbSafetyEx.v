(* A concrete closed-system trace that satisfies the hypotheses of C01_safety:
   handshake (with a write accepted in SYN-RECEIVED), three writes, a lost
   segment, a duplicated segment, out-of-order delivery, late reads,
   retransmission.  Evaluated in TcbSafetyThms.v. *)
From Elvis Require Import Model.Base Model.U32 Model.Tcb Model.TcpNet Proofs.TcbSafetyDefs.
Local Open Scope Z_scope.

Definition ex_cfg : config := mkCfg 1000 2000 4294967200 77 100 1500.   (* ISS of A wraps during the transfer *)
Fixpoint bytes_from (k : Z) (n : nat) : list Z :=
  match n with O => [] | S m => (k mod 256) :: bytes_from (k + 7) m end.

Definition ex_trace : list label :=
  [ LOpen SA; LEmit SA; LDeliver SA 0;            (* SYN -> passive open at B *)
    LSend SB (bytes_from 200 30);                  (* write accepted in SYN-RECEIVED *)
    LEmit SB; LDeliver SB 0;                       (* SYN-ACK -> A established *)
    LSend SA (bytes_from 1 70); LSend SA (bytes_from 3 60); LSend SA (bytes_from 5 10);
    LEmit SA;                                      (* ACK + three data segments (MSS 50) *)
    LDrop SA 2;                                    (* lose the second data segment *)
    LDup SA 1;                                     (* duplicate the first *)
    LDeliver SA 2; LDeliver SA 1; LDeliver SA 0; LDeliver SA 0;   (* out of order *)
    LRecv SB;
    LEmit SB; LDeliver SB 1; LDeliver SB 0;
    LTick SA 101; LEmit SA; LDeliver SA 0; LDeliver SA 0; LDeliver SA 0;
    LRecv SB; LRecv SA;
    LFair 2; LCheck ].

Definition ex_mid := run ex_cfg (init_sys true) (firstn 17 ex_trace).
Definition ex_final := run ex_cfg (init_sys true) ex_trace.

Lemma ex_cfg_ok : cfg_ok ex_cfg.
Proof. unfold cfg_ok, ex_cfg, u32, M32. cbn. lia. Qed.
