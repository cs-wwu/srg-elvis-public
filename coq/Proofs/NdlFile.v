(* NDL parser model: what each loop of the parser stack does on a rendered line or
   block followed by an arbitrary tail; the whole-file round trip. *)
From Elvis Require Import Model.Base Model.Ndl Proofs.NdlFacts Proofs.NdlRound.
Local Open Scope Z_scope.

Definition pargs (a : params) : Prop := Forall parg a /\ NoDup (map fst a).
Definition pitem (ty : dectype) (i : item) : Prop := it_ty i = ty /\ pargs (it_opts i).
Definition pnetwork (kn : text * network) : Prop :=
  net_ty (snd kn) = Network /\ pargs (net_opts (snd kn)) /\
  lookup k_id (net_opts (snd kn)) = Some (fst kn) /\
  net_ips (snd kn) <> [] /\ Forall (pitem IP) (net_ips (snd kn)).
Definition pmachine (m : machine) : Prop :=
  m_ty m = Machine /\ pargs (m_opts m) /\
  m_nets m <> [] /\ Forall (pitem Network) (m_nets m) /\
  m_protos m <> [] /\ Forall (pitem Protocol) (m_protos m) /\
  m_apps m <> [] /\ Forall (pitem Application) (m_apps m).
Definition psim (s : sim) : Prop :=
  Forall pnetwork (s_networks s) /\ NoDup (map fst (s_networks s)) /\ Forall pmachine (s_machines s).

Lemma render_line_app n d a tail :
  render_line n d a ++ tail = tabs n ++ (render_sec d a ++ c_nl :: tail).
Proof. unfold render_line. repeat rewrite <- app_assoc. reflexivity. Qed.

Lemma line_is_nil n d a tail : is_nil (render_line n d a ++ tail) = false.
Proof. rewrite render_line_app. destruct n; reflexivity. Qed.

Lemma line_count n d a tail : count_leading c_tab (render_line n d a ++ tail) = n.
Proof. rewrite render_line_app. apply count_leading_repeat. cbn. discriminate. Qed.

Lemma line_not_nl n d a tail : not_nl_head (render_line n d a ++ tail).
Proof. rewrite render_line_app. destruct n; cbn; discriminate. Qed.

Lemma line_str_from n d a tail :
  str_from n (render_line n d a ++ tail) = Ok (render_sec d a ++ c_nl :: tail).
Proof.
  rewrite str_from_tabs by (rewrite line_count; lia).
  rewrite render_line_app. f_equal. apply skipn_repeat.
Qed.

Lemma gp_line d a tail ln : pargs a -> not_nl_head tail ->
  general_parser get_type (render_sec d a ++ c_nl :: tail) ln = Ok (d, a, tail, ln + 1).
Proof.
  intros [Ha Hn] Ht. exact (general_parser_render d a 1 tail ln Ha Hn Ht).
Qed.

Lemma line_len n d a : (1 <= length (render_line n d a))%nat.
Proof. unfold render_line. repeat rewrite app_length. cbn [length]. lia. Qed.

Definition lines_items (l : list item) : Z := Z.of_nat (length l).

Lemma item_eta i : {| it_ty := it_ty i; it_opts := it_opts i |} = i.
Proof. destruct i; reflexivity. Qed.

Lemma items_loop_step f expect nt l0 acc i tail ln : pitem expect i -> not_nl_head tail ->
  items_loop get_type (S f) expect nt l0 acc (render_item nt i ++ tail) ln =
    if Nat.ltb (count_leading c_tab tail) nt then Ok (acc ++ [i], tail, ln + 1)
    else if Nat.ltb nt (count_leading c_tab tail) then Err (ecode E_TABCOUNT (ln + 1))
    else items_loop get_type f expect nt l0 (acc ++ [i]) tail (ln + 1).
Proof.
  intros [Hty Ha] Ht. destruct i as [ty o]. cbn [it_ty it_opts] in *. subst ty.
  unfold render_item. cbn [it_ty it_opts items_loop].
  rewrite line_is_nil, line_str_from, (gp_line _ _ _ _ Ha Ht).
  replace (dectype_eqb expect expect) with true by (destruct expect; reflexivity).
  reflexivity.
Qed.

Lemma network_loop_step f nt l0 acc i tail ln : pitem IP i -> not_nl_head tail ->
  network_loop get_type (S f) nt l0 acc (render_item nt i ++ tail) ln =
    if Nat.ltb (count_leading c_tab tail) nt then Ok (acc ++ [i], tail, ln + 1)
    else if Nat.ltb nt (count_leading c_tab tail) then Err (ecode E_TABCOUNT (ln + 1))
    else network_loop get_type f nt l0 (acc ++ [i]) tail (ln + 1).
Proof.
  intros [Hty Ha] Ht. destruct i as [ty o]. cbn [it_ty it_opts] in *. subst ty.
  unfold render_item. cbn [it_ty it_opts network_loop].
  rewrite line_is_nil, line_str_from, (gp_line _ _ _ _ Ha Ht). reflexivity.
Qed.

Lemma flat_items_head nt i l rest :
  flat_map (render_item nt) (i :: l) ++ rest
  = render_item nt i ++ (flat_map (render_item nt) l ++ rest).
Proof. cbn [flat_map]. rewrite <- app_assoc. reflexivity. Qed.

Lemma items_tail_not_nl nt l rest : not_nl_head rest -> not_nl_head (flat_map (render_item nt) l ++ rest).
Proof.
  intros H. destruct l as [|i l]; [exact H|]. rewrite flat_items_head. apply line_not_nl.
Qed.

Lemma items_tail_count nt l rest : (count_leading c_tab rest < nt)%nat ->
  count_leading c_tab (flat_map (render_item nt) l ++ rest) = nt \/
  (l = [] /\ (count_leading c_tab (flat_map (render_item nt) l ++ rest) < nt)%nat).
Proof.
  intros H. destruct l as [|i l]; [right; split; [reflexivity|exact H]|].
  left. rewrite flat_items_head. apply line_count.
Qed.

Lemma render_item_len nt i : (1 <= length (render_item nt i))%nat.
Proof. apply line_len. Qed.

Lemma items_count_nonempty nt l rest : l <> [] ->
  count_leading c_tab (flat_map (render_item nt) l ++ rest) = nt.
Proof. destruct l as [|i l]; [contradiction|]. intros _. rewrite flat_items_head. apply line_count. Qed.

Lemma items_loop_list expect nt l0 l : forall i acc ln fuel rest,
  Forall (pitem expect) (i :: l) -> (count_leading c_tab rest < nt)%nat -> not_nl_head rest ->
  (length (flat_map (render_item nt) (i :: l) ++ rest) < fuel)%nat ->
  items_loop get_type fuel expect nt l0 acc (flat_map (render_item nt) (i :: l) ++ rest) ln
  = Ok (acc ++ i :: l, rest, ln + lines_items (i :: l)).
Proof.
  induction l as [|i' l IH]; intros i acc ln fuel rest Hall Hc Hr Hf;
    (destruct fuel as [|f]; [lia|]); rewrite flat_items_head in *;
    inversion Hall as [|? ? Hi Hl]; subst;
    rewrite (items_loop_step f expect nt l0 acc i _ ln Hi (items_tail_not_nl nt _ rest Hr)).
  - cbn [flat_map app]. apply Nat.ltb_lt in Hc. rewrite Hc. unfold lines_items. cbn [length].
    reflexivity.
  - rewrite (items_count_nonempty nt (i' :: l) rest) by discriminate. rewrite Nat.ltb_irrefl.
    rewrite app_length in Hf. pose proof (render_item_len nt i).
    rewrite (IH i' (acc ++ [i]) (ln + 1) f rest Hl Hc Hr ltac:(lia)).
    rewrite <- app_assoc. cbn [app]. unfold lines_items. cbn [length]. f_equal. f_equal. lia.
Qed.

Lemma items_parser_list expect nt l rest ln :
  l <> [] -> Forall (pitem expect) l -> (count_leading c_tab rest < nt)%nat -> not_nl_head rest ->
  items_parser get_type expect (flat_map (render_item nt) l ++ rest) nt ln
  = Ok (l, rest, ln + lines_items l).
Proof.
  intros Hne Hall Hc Hr. unfold items_parser. rewrite (items_count_nonempty nt l rest Hne).
  rewrite Nat.eqb_refl. cbn [negb]. destruct l as [|i l]; [contradiction|].
  rewrite (items_loop_list expect nt (ln - 1) l i [] ln _ rest Hall Hc Hr) by lia. reflexivity.
Qed.

Lemma network_parser_list opts nt l rest ln :
  l <> [] -> Forall (pitem IP) l -> (count_leading c_tab rest < nt)%nat -> not_nl_head rest ->
  network_parser get_type Network opts (flat_map (render_item nt) l ++ rest) nt ln
  = Ok ({| net_ty := Network; net_opts := opts; net_ips := l |}, rest, ln + lines_items l).
Proof.
  intros Hne Hall Hc Hr. unfold network_parser. rewrite (items_count_nonempty nt l rest Hne).
  rewrite Nat.eqb_refl. cbn [negb]. destruct l as [|i l]; [contradiction|].
  rewrite (network_loop_of_items _ _ _ _ _ _ _ _
             (items_loop_list IP nt (ln - 1) l i [] ln _ rest Hall Hc Hr (Nat.lt_succ_diag_r _))).
  reflexivity.
Qed.

Definition lines_network (kn : text * network) : Z := 1 + lines_items (net_ips (snd kn)).
Fixpoint lines_networks (l : list (text * network)) : Z :=
  match l with [] => 0 | kn :: r => lines_network kn + lines_networks r end.

Lemma network_eta (kn : text * network) : net_ty (snd kn) = Network ->
  (fst kn, {| net_ty := Network; net_opts := net_opts (snd kn); net_ips := net_ips (snd kn) |}) = kn.
Proof. destruct kn as [k [t o i]]. cbn. intros ->. reflexivity. Qed.

Lemma flat_networks_head kn l rest : net_ty (snd kn) = Network ->
  flat_map render_network (kn :: l) ++ rest
  = render_line 1 Network (net_opts (snd kn))
    ++ (flat_map (render_item 2) (net_ips (snd kn)) ++ (flat_map render_network l ++ rest)).
Proof.
  intros H. cbn [flat_map]. unfold render_network at 1. rewrite H.
  repeat rewrite <- app_assoc. reflexivity.
Qed.

Lemma networks_tail_not_nl l rest : Forall pnetwork l -> not_nl_head rest ->
  not_nl_head (flat_map render_network l ++ rest).
Proof.
  intros Hl H. destruct l as [|kn l]; [exact H|]. inversion Hl as [|? ? (Hty & _) _]. subst.
  rewrite (flat_networks_head kn l rest Hty). apply line_not_nl.
Qed.

Lemma networks_tail_count l rest : Forall pnetwork l -> (count_leading c_tab rest < 1)%nat ->
  (count_leading c_tab (flat_map render_network l ++ rest) < 2)%nat.
Proof.
  intros Hl H. destruct l as [|kn l]; [cbn [flat_map app]; lia|].
  inversion Hl as [|? ? (Hty & _) _]. subst.
  rewrite (flat_networks_head kn l rest Hty), line_count. lia.
Qed.

Lemma networks_loop_step f l0 acc kn tail ln :
  pnetwork kn -> (count_leading c_tab tail < 2)%nat -> not_nl_head tail ->
  networks_loop get_type (S f) 1 l0 acc
    (render_line 1 Network (net_opts (snd kn))
     ++ (flat_map (render_item 2) (net_ips (snd kn)) ++ tail)) ln =
  if has_id (fst kn) acc then Err (ecode E_DUPID l0)
  else networks_loop get_type f 1 l0 (acc ++ [kn]) tail (ln + lines_network kn).
Proof.
  intros (Hty & Ha & Hid & Hne & Hips) Hc Ht. cbn [networks_loop].
  rewrite line_is_nil, line_count. cbn [Nat.ltb Nat.leb]. rewrite line_str_from.
  rewrite (gp_line _ _ _ _ Ha (items_tail_not_nl 2 _ tail Ht)). cbn [dectype_eqb].
  rewrite (network_parser_list _ 2 _ tail (ln + 1) Hne Hips Hc Ht). rewrite Hid.
  destruct (has_id (fst kn) acc); [reflexivity|].
  rewrite (network_eta kn Hty). unfold lines_network. f_equal. lia.
Qed.

Lemma render_network_len kn : (1 <= length (render_network kn))%nat.
Proof. unfold render_network. rewrite app_length. pose proof (line_len 1 (net_ty (snd kn)) (net_opts (snd kn))). lia. Qed.

(* "peeling" a well-formed prefix: the loop goes on behind it *)
Lemma networks_loop_peel l0 l : forall acc ln fuel tail,
  Forall pnetwork l -> NoDup (map fst (acc ++ l)) ->
  (count_leading c_tab tail < 2)%nat -> not_nl_head tail ->
  (length (flat_map render_network l ++ tail) < fuel)%nat ->
  exists fuel', (length tail < fuel')%nat /\
    networks_loop get_type fuel 1 l0 acc (flat_map render_network l ++ tail) ln
    = networks_loop get_type fuel' 1 l0 (acc ++ l) tail (ln + lines_networks l).
Proof.
  induction l as [|kn l IH]; intros acc ln fuel tail Hall Hnd Hc Ht Hf.
  - exists fuel. cbn [flat_map app lines_networks] in *. rewrite app_nil_r, Z.add_0_r. split; [exact Hf|reflexivity].
  - destruct fuel as [|f]; [lia|]. inversion Hall as [|? ? Hkn Hl]. subst.
    pose proof Hkn as (Hty & _).
    rewrite (flat_networks_head kn l tail Hty) in *.
    assert (Hc' : (count_leading c_tab (flat_map render_network l ++ tail) < 2)%nat).
    { destruct l as [|kn' l']; [exact Hc|]. inversion Hl as [|? ? (Hty' & _) _]. subst.
      rewrite (flat_networks_head kn' l' tail Hty'), line_count. lia. }
    rewrite (networks_loop_step f l0 acc kn _ ln Hkn Hc' (networks_tail_not_nl l tail Hl Ht)).
    rewrite (nodup_has_id (fst kn) (snd kn) acc l) by (rewrite <- surjective_pairing; exact Hnd).
    assert (Hnd' : NoDup (map fst ((acc ++ [kn]) ++ l))) by (rewrite <- app_assoc; exact Hnd).
    repeat rewrite app_length in Hf. pose proof (line_len 1 Network (net_opts (snd kn))).
    destruct (IH (acc ++ [kn]) (ln + lines_network kn) f tail Hl Hnd' Hc Ht
                ltac:(rewrite app_length; lia)) as (fuel' & Hf' & Heq).
    exists fuel'. split; [exact Hf'|]. rewrite Heq. rewrite <- app_assoc. cbn [app lines_networks].
    f_equal. lia.
Qed.

(* a shallower line, or the end of the text, ends a loop *)
Lemma networks_loop_exit fuel nt l0 acc rest ln :
  (count_leading c_tab rest < nt)%nat -> (0 < fuel)%nat ->
  networks_loop get_type fuel nt l0 acc rest ln = Ok (acc, rest, ln).
Proof.
  intros Hc Hf. destruct fuel as [|f]; [lia|]. cbn [networks_loop].
  destruct (is_nil rest) eqn:E; [reflexivity|].
  apply Nat.ltb_lt in Hc. rewrite Hc. reflexivity.
Qed.

Lemma networks_parser_list l rest ln :
  Forall pnetwork l -> NoDup (map fst l) ->
  (count_leading c_tab rest < 1)%nat -> not_nl_head rest ->
  networks_parser get_type (flat_map render_network l ++ rest) 1 ln
  = Ok (l, rest, ln + lines_networks l).
Proof.
  intros Hall Hnd Hc Ht. unfold networks_parser.
  destruct (networks_loop_peel (ln - 1) l [] ln _ rest Hall Hnd ltac:(lia) Ht (Nat.lt_succ_diag_r _))
    as (fuel' & Hf' & ->).
  apply networks_loop_exit; [exact Hc|lia].
Qed.

Lemma networks_parser_dup pre kn tail ln :
  Forall pnetwork pre -> NoDup (map fst pre) -> pnetwork kn -> In (fst kn) (map fst pre) ->
  (count_leading c_tab tail < 2)%nat -> not_nl_head tail ->
  networks_parser get_type
    (flat_map render_network pre ++ render_network kn ++ tail) 1 ln = Err (ecode E_DUPID (ln - 1)).
Proof.
  intros Hpre Hnd Hkn Hin Hc Ht. unfold networks_parser. pose proof Hkn as (Hty & _).
  assert (Hk : render_network kn ++ tail = flat_map render_network [kn] ++ tail)
    by (cbn [flat_map]; rewrite app_nil_r; reflexivity).
  rewrite Hk. rewrite (flat_networks_head kn [] tail Hty). cbn [flat_map app].
  match goal with |- networks_loop _ _ _ _ _ (_ ++ ?t) _ = _ =>
    destruct (networks_loop_peel (ln - 1) pre [] ln _ t Hpre Hnd
                ltac:(rewrite line_count; lia) (line_not_nl _ _ _ _) (Nat.lt_succ_diag_r _))
      as (fuel' & Hf' & ->)
  end.
  destruct fuel' as [|f]; [lia|].
  rewrite (networks_loop_step f (ln - 1) ([] ++ pre) kn tail _ Hkn Hc Ht).
  cbn [app]. apply has_id_in in Hin. rewrite Hin. reflexivity.
Qed.

Definition render_msection (sec : dectype) (its : list item) : text :=
  render_line 2 sec [] ++ flat_map (render_item 3) its.

Lemma pargs_nil : pargs [].
Proof. split; constructor. Qed.

Lemma machine_loop_step f l0 req req' nets protos apps sec its tail ln :
  (sec = Networks \/ sec = Protocols \/ sec = Applications) ->
  req_contains sec req = true -> req_remove sec req = Some req' ->
  its <> [] -> Forall (pitem (item_type_of sec)) its ->
  (count_leading c_tab tail < 3)%nat -> not_nl_head tail ->
  machine_loop get_type (S f) 2 l0 req nets protos apps
    (render_line 2 sec [] ++ (flat_map (render_item 3) its ++ tail)) ln =
  machine_loop get_type f 2 l0 req'
    (match sec with Networks => nets ++ its | _ => nets end)
    (match sec with Protocols => protos ++ its | _ => protos end)
    (match sec with Applications => apps ++ its | _ => apps end)
    tail (ln + 1 + lines_items its).
Proof.
  intros Hsec Hc Hr Hne Hall Hct Ht. cbn [machine_loop].
  rewrite line_is_nil, line_count. cbn [Nat.ltb Nat.leb]. rewrite line_str_from.
  rewrite (gp_line _ _ _ _ pargs_nil (items_tail_not_nl 3 _ tail Ht)).
  rewrite Hc, Hr. rewrite (items_parser_list _ 3 its tail (ln + 1) Hne Hall Hct Ht).
  destruct Hsec as [->|[->| ->]]; reflexivity.
Qed.

Definition render_mbody (m : machine) : text :=
  render_line 2 Networks [] ++ flat_map (render_item 3) (m_nets m)
  ++ render_line 2 Protocols [] ++ flat_map (render_item 3) (m_protos m)
  ++ render_line 2 Applications [] ++ flat_map (render_item 3) (m_apps m).

Definition lines_machine (m : machine) : Z :=
  1 + (1 + lines_items (m_nets m)) + (1 + lines_items (m_protos m)) + (1 + lines_items (m_apps m)).
Fixpoint lines_machines (l : list machine) : Z :=
  match l with [] => 0 | m :: r => lines_machine m + lines_machines r end.

Lemma machine_loop_exit fuel nt l0 req a b c rest ln :
  (count_leading c_tab rest < nt)%nat -> (0 < fuel)%nat ->
  machine_loop get_type fuel nt l0 req a b c rest ln = Ok (req, a, b, c, rest, ln).
Proof.
  intros Hc Hf. destruct fuel as [|f]; [lia|]. cbn [machine_loop].
  destruct (is_nil rest) eqn:E; [reflexivity|].
  apply Nat.ltb_lt in Hc. rewrite Hc. reflexivity.
Qed.

Lemma machine_eta m : m_ty m = Machine ->
  {| m_ty := Machine; m_opts := m_opts m; m_nets := m_nets m; m_protos := m_protos m; m_apps := m_apps m |} = m.
Proof. destruct m; cbn; intros ->; reflexivity. Qed.

Lemma machine_parser_body m rest ln :
  pmachine m -> (count_leading c_tab rest < 2)%nat -> not_nl_head rest ->
  machine_parser get_type (m_opts m) (render_mbody m ++ rest) 2 ln
  = Ok (m, rest, ln + (lines_machine m - 1)).
Proof.
  intros (Hty & Ha & Hn1 & Hn2 & Hp1 & Hp2 & Ha1 & Ha2) Hc Ht. unfold machine_parser, render_mbody.
  repeat rewrite <- app_assoc.
  set (fuel := S (length _)).
  assert (Hfuel : (4 <= fuel)%nat).
  { unfold fuel. repeat rewrite app_length.
    pose proof (line_len 2 Networks []). pose proof (line_len 2 Protocols []).
    pose proof (line_len 2 Applications []). lia. }
  destruct fuel as [|[|[|[|f]]]]; try lia.
  set (t3 := render_line 2 Applications [] ++ (flat_map (render_item 3) (m_apps m) ++ rest)).
  set (t2 := render_line 2 Protocols [] ++ (flat_map (render_item 3) (m_protos m) ++ t3)).
  assert (C3 : (count_leading c_tab t3 < 3)%nat) by (unfold t3; rewrite line_count; lia).
  assert (C2 : (count_leading c_tab t2 < 3)%nat) by (unfold t2; rewrite line_count; lia).
  assert (N3 : not_nl_head t3) by apply line_not_nl.
  assert (N2 : not_nl_head t2) by apply line_not_nl.
  rewrite (machine_loop_step _ (ln - 1) [Networks; Protocols; Applications] [Protocols; Applications]
             [] [] [] Networks (m_nets m) t2 ln (or_introl eq_refl) eq_refl eq_refl Hn1 Hn2 C2 N2).
  unfold t2.
  rewrite (machine_loop_step _ (ln - 1) [Protocols; Applications] [Applications]
             _ [] [] Protocols (m_protos m) t3 _ (or_intror (or_introl eq_refl)) eq_refl eq_refl Hp1 Hp2 C3 N3).
  unfold t3.
  rewrite (machine_loop_step _ (ln - 1) [Applications] []
             _ _ [] Applications (m_apps m) rest _ (or_intror (or_intror eq_refl)) eq_refl eq_refl Ha1 Ha2
             ltac:(lia) Ht).
  rewrite machine_loop_exit by (try exact Hc; lia).
  cbn [is_nil negb app]. rewrite (machine_eta m Hty). unfold lines_machine. f_equal. f_equal. lia.
Qed.

Lemma flat_machines_head m l rest : m_ty m = Machine ->
  flat_map render_machine (m :: l) ++ rest
  = render_line 1 Machine (m_opts m) ++ (render_mbody m ++ (flat_map render_machine l ++ rest)).
Proof.
  intros H. cbn [flat_map]. unfold render_machine at 1, render_mbody. rewrite H.
  repeat rewrite <- app_assoc. reflexivity.
Qed.

Lemma mbody_not_nl m rest : not_nl_head (render_mbody m ++ rest).
Proof. unfold render_mbody. repeat rewrite <- app_assoc. apply line_not_nl. Qed.

Lemma machines_tail_not_nl l rest : Forall pmachine l -> not_nl_head rest ->
  not_nl_head (flat_map render_machine l ++ rest).
Proof.
  intros Hl H. destruct l as [|m l]; [exact H|]. inversion Hl as [|? ? (Hty & _) _]. subst.
  rewrite (flat_machines_head m l rest Hty). apply line_not_nl.
Qed.

Lemma machines_tail_count l rest : Forall pmachine l -> (count_leading c_tab rest < 1)%nat ->
  (count_leading c_tab (flat_map render_machine l ++ rest) < 2)%nat.
Proof.
  intros Hl H. destruct l as [|m l]; [cbn [flat_map app]; lia|].
  inversion Hl as [|? ? (Hty & _) _]. subst.
  rewrite (flat_machines_head m l rest Hty), line_count. lia.
Qed.

Lemma machines_loop_step f l0 acc m tail ln :
  pmachine m -> (count_leading c_tab tail < 2)%nat -> not_nl_head tail ->
  machines_loop get_type (S f) 1 l0 acc
    (render_line 1 Machine (m_opts m) ++ (render_mbody m ++ tail)) ln =
  machines_loop get_type f 1 l0 (acc ++ [m]) tail (ln + lines_machine m).
Proof.
  intros Hm Hc Ht. pose proof Hm as (Hty & Ha & _). cbn [machines_loop].
  rewrite line_is_nil, line_count. cbn [Nat.ltb Nat.leb]. rewrite line_str_from.
  rewrite (gp_line _ _ _ _ Ha (mbody_not_nl m tail)). cbn [dectype_eqb].
  rewrite (machine_parser_body m tail (ln + 1) Hm Hc Ht). f_equal. lia.
Qed.

Lemma machines_loop_exit fuel nt l0 acc rest ln :
  (count_leading c_tab rest < nt)%nat -> (0 < fuel)%nat ->
  machines_loop get_type fuel nt l0 acc rest ln = Ok (acc, rest, ln).
Proof.
  intros Hc Hf. destruct fuel as [|f]; [lia|]. cbn [machines_loop].
  destruct (is_nil rest) eqn:E; [reflexivity|].
  apply Nat.ltb_lt in Hc. rewrite Hc. reflexivity.
Qed.

Lemma machines_loop_peel l0 l : forall acc ln fuel tail,
  Forall pmachine l -> (count_leading c_tab tail < 2)%nat -> not_nl_head tail ->
  (length (flat_map render_machine l ++ tail) < fuel)%nat ->
  exists fuel', (length tail < fuel')%nat /\
    machines_loop get_type fuel 1 l0 acc (flat_map render_machine l ++ tail) ln
    = machines_loop get_type fuel' 1 l0 (acc ++ l) tail (ln + lines_machines l).
Proof.
  induction l as [|m l IH]; intros acc ln fuel tail Hall Hc Ht Hf.
  - exists fuel. cbn [flat_map app lines_machines] in *. rewrite app_nil_r, Z.add_0_r. split; [exact Hf|reflexivity].
  - destruct fuel as [|f]; [lia|]. inversion Hall as [|? ? Hm Hl]. subst.
    pose proof Hm as (Hty & _).
    rewrite (flat_machines_head m l tail Hty) in *.
    assert (Hc' : (count_leading c_tab (flat_map render_machine l ++ tail) < 2)%nat).
    { destruct l as [|m' l']; [exact Hc|]. inversion Hl as [|? ? (Hty' & _) _]. subst.
      rewrite (flat_machines_head m' l' tail Hty'), line_count. lia. }
    rewrite (machines_loop_step f l0 acc m _ ln Hm Hc' (machines_tail_not_nl l tail Hl Ht)).
    repeat rewrite app_length in Hf. pose proof (line_len 1 Machine (m_opts m)).
    destruct (IH (acc ++ [m]) (ln + lines_machine m) f tail Hl Hc Ht ltac:(rewrite app_length; lia)) as (fuel' & Hf' & Heq).
    exists fuel'. split; [exact Hf'|]. rewrite Heq. rewrite <- app_assoc. cbn [app lines_machines].
    f_equal. lia.
Qed.

Lemma machines_parser_list l rest ln :
  Forall pmachine l -> (count_leading c_tab rest < 1)%nat -> not_nl_head rest ->
  machines_parser get_type (flat_map render_machine l ++ rest) 1 ln
  = Ok (l, rest, ln + lines_machines l).
Proof.
  intros Hall Hc Ht. unfold machines_parser.
  destruct (machines_loop_peel (ln - 1) l [] ln _ rest Hall ltac:(lia) Ht (Nat.lt_succ_diag_r _))
    as (fuel' & Hf' & ->).
  apply machines_loop_exit; [exact Hc|lia].
Qed.

Lemma merge_networks_nodup new : forall acc, NoDup (map fst (acc ++ new)) ->
  merge_networks acc new = Some (acc ++ new).
Proof.
  induction new as [|[id n] new IH]; intros acc Hnd; cbn [merge_networks].
  - rewrite app_nil_r. reflexivity.
  - rewrite (nodup_has_id id n acc new Hnd). rewrite IH by (rewrite <- app_assoc; exact Hnd). rewrite <- app_assoc. reflexivity.
Qed.

Lemma sim_eta s : {| s_networks := s_networks s; s_machines := s_machines s |} = s.
Proof. destruct s; reflexivity. Qed.

Lemma render_line0 d a tail : render_line 0 d a ++ tail = render_sec d a ++ c_nl :: tail.
Proof. rewrite render_line_app. reflexivity. Qed.

Lemma core_loop_render s fuel : psim s -> (2 < fuel)%nat ->
  core_loop get_type fuel [] [] (render s) 1 = Ok s.
Proof.
  intros (Hn & Hnd & Hm) Hf. unfold render.
  destruct fuel as [|[|[|f]]]; try lia.
  set (tm := render_line 0 Machines [] ++ flat_map render_machine (s_machines s)).
  assert (Cm : (count_leading c_tab tm < 1)%nat) by (unfold tm; rewrite line_count; lia).
  assert (Nm : not_nl_head tm) by apply line_not_nl.
  (* [Networks] *)
  cbn [core_loop]. rewrite (line_is_nil 0 Networks []). rewrite (render_line0 Networks []).
  rewrite (gp_line Networks [] _ 1 pargs_nil (networks_tail_not_nl _ _ Hn Nm)).
  rewrite (networks_parser_list (s_networks s) tm (1 + 1) Hn Hnd Cm Nm).
  rewrite (merge_networks_nodup (s_networks s) [] Hnd). cbn [app].
  (* [Machines] *)
  unfold tm. cbn [core_loop]. rewrite (line_is_nil 0 Machines []).
  rewrite <- (app_nil_r (flat_map render_machine (s_machines s))).
  rewrite (render_line0 Machines []).
  rewrite (gp_line Machines [] _ _ pargs_nil (machines_tail_not_nl _ [] Hm I)).
  rewrite (machines_parser_list (s_machines s) [] _ Hm ltac:(cbn; lia) I). cbn [app].
  (* end of input *)
  cbn [core_loop is_nil]. rewrite sim_eta. reflexivity.
Qed.
