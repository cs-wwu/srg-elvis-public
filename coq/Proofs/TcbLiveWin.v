(* C01 liveness: a write of up to one window (65535 bytes), TCB level.
   segments() cuts it into a flight of contiguous segments; old data is acknowledged and
   dropped; an ACK that covers a prefix of the queued flight removes exactly that prefix. *)
From Elvis Require Import Model.Base Model.U32 Model.Tcb Model.TcpNet Proofs.U32Facts Proofs.TcbSafetyBase
  Proofs.TcbSafetySnd Proofs.TcbSafetyRcv Proofs.TcbLive.
Local Open Scope Z_scope.

(* the header segments() puts on a data segment *)
Definition data_hdr (lp rp sq ackv : Z) : header :=
  hb_wnd (hb_ack (mkHdr lp rp sq 0 ctl0 0 0) ackv) 65535.

Lemma data_hdr_ack_only lp rp sq ackv : ack_only (data_hdr lp rp sq ackv).
Proof. unfold ack_only. auto. Qed.

(* contiguous data segments starting at sequence number a *)
Fixpoint flight (lp rp ackv a : Z) (segs : list segment) : Prop :=
  match segs with
  | [] => True
  | s :: r => s_hdr s = data_hdr lp rp a ackv /\ 0 < zlen (s_text s) <= 65485 /\
              flight lp rp ackv (wadd a (zlen (s_text s))) r
  end.

Definition flight_bytes (segs : list segment) : list Z := concat (map s_text segs).
Definition flight_len (segs : list segment) : Z := zlen (flight_bytes segs).

Lemma flight_len_cons s r : flight_len (s :: r) = zlen (s_text s) + flight_len r.
Proof. unfold flight_len, flight_bytes. cbn [map concat]. apply zlen_app. Qed.
Lemma flight_len_nonneg segs : 0 <= flight_len segs.
Proof. apply zlen_nonneg. Qed.

Lemma flight_len_app p q : flight_len (p ++ q) = flight_len p + flight_len q.
Proof. unfold flight_len, flight_bytes. rewrite map_app, concat_app. apply zlen_app. Qed.

Lemma flight_bytes_app p q : flight_bytes (p ++ q) = flight_bytes p ++ flight_bytes q.
Proof. unfold flight_bytes. rewrite map_app. apply concat_app. Qed.

Lemma flight_split lp rp ackv : forall p q a, u32 a ->
  flight lp rp ackv a (p ++ q) ->
  flight lp rp ackv a p /\ flight lp rp ackv (wadd a (flight_len p)) q.
Proof.
  induction p as [|s r IH]; intros q a Hu F; cbn [app flight] in *.
  - change (flight_len []) with 0. rewrite (wadd_0_u32 a Hu). auto.
  - destruct F as (Fh & Fl & Fr).
    destruct (IH q _ (wadd_u32 _ _) Fr) as [F1 F2].
    rewrite wadd_wadd in F2. rewrite flight_len_cons. auto.
Qed.

Lemma flight_len_pos lp rp ackv a segs : flight lp rp ackv a segs -> segs <> [] -> 0 < flight_len segs.
Proof.
  destruct segs as [|s r]; [congruence|]. intros (_ & Hl & _) _.
  rewrite flight_len_cons. pose proof (flight_len_nonneg r). lia.
Qed.

Lemma flight_offsets lp rp ackv a : forall segs off,
  flight lp rp ackv (wadd a off) segs -> 0 <= off -> off + flight_len segs <= 65535 ->
  Forall (fun s => let e := wsub (wadd (h_seq (s_hdr s)) (seg_len s)) a in
                   off < e <= off + flight_len segs) segs.
Proof.
  induction segs as [|s r IH]; intros off F H0 Hroom; [constructor|].
  destruct F as (Fh & Fl & Fr). rewrite flight_len_cons in *.
  pose proof (flight_len_nonneg r) as Hr0.
  assert (Hsl : seg_len s = zlen (s_text s)) by (unfold seg_len; rewrite Fh; cbn; lia).
  constructor.
  - cbv zeta. rewrite Hsl, Fh. cbn [data_hdr hb_wnd hb_ack h_seq].
    rewrite wsub_spec, !wadd_spec. unfold M32. lia.
  - rewrite wadd_wadd in Fr. specialize (IH (off + zlen (s_text s)) Fr ltac:(lia) ltac:(lia)).
    eapply Forall_impl; [|exact IH]. intros s' Hs'. cbv beta zeta in *. lia.
Qed.

Lemma wsub_of_wadd u n : u32 u -> 0 <= n <= 65535 -> wsub (wadd u n) u = n.
Proof. intros Hu Hn. rewrite wsub_spec, wadd_spec. unfold u32, M32 in *. lia. Qed.

Lemma filter_needs_false segs : filter t_needs (map (fun s => mkTx s false) segs) = [].
Proof. induction segs; cbn [map filter t_needs]; auto. Qed.

Lemma map_tseg_mk b segs : map t_seg (map (fun s => mkTx s b) segs) = segs.
Proof. rewrite map_map. cbn [t_seg]. apply map_id. Qed.
Lemma filter_needs_true segs : filter t_needs (map (fun s => mkTx s true) segs) = map (fun s => mkTx s true) segs.
Proof. induction segs; cbn [map filter t_needs]; [reflexivity|now rewrite IHsegs]. Qed.
Lemma reflag_map b b' segs :
  map (fun tx => mkTx (t_seg tx) b') (map (fun s => mkTx s b) segs) = map (fun s => mkTx s b') segs.
Proof. rewrite map_map. reflexivity. Qed.

(* it stops when the text or the window (65535 bytes in flight) is exhausted *)
Lemma seg_loop_flight mss : 0 < mss <= 65485 -> forall fuel t sent,
  snd_wnd t = 65535 -> rcv_wnd t = 65535 -> wsub (snd_nxt t) (snd_una t) = sent -> 0 <= sent <= 65535 ->
  u32 (snd_nxt t) -> (length (out_text t) < fuel)%nat ->
  let m := Z.min (zlen (out_text t)) (65535 - sent) in
  exists segs,
    seg_loop fuel t mss (zlen (out_text t)) =
    Ok (set_retx (set_snd_nxt (set_out_text t (skipn (Z.to_nat m) (out_text t))) (wadd (snd_nxt t) m))
                 (retx t ++ map (fun s => mkTx s true) segs)) /\
    flight (lport t) (rport t) (rcv_nxt t) (snd_nxt t) segs /\
    flight_bytes segs = firstn (Z.to_nat m) (out_text t).
Proof.
  intros Hmss. induction fuel as [|f IH]; intros t sent Hsw Hrw Hfl Hs0 Hu Hfuel m; [lia|].
  cbn [seg_loop]. rewrite Hsw, Hfl.
  pose proof (zlen_nonneg (out_text t)) as Hz.
  set (bytes := Z.min (Z.min mss (Z.max 0 (65535 - sent))) (zlen (out_text t))).
  assert (Hb : bytes = Z.min mss m) by (subst bytes m; lia).
  destruct (bytes =? 0) eqn:Eb.
  { assert (Hm0 : m = 0) by lia.
    exists []. rewrite Hm0. cbn [Z.to_nat skipn firstn map flight flight_bytes concat]. splits; auto.
    f_equal. tcb_eq; rewrite ?app_nil_r; auto. symmetry. apply wadd_0_u32, Hu. }
  replace (65535 <? bytes + 20) with false by lia.
  set (text := firstn (Z.to_nat bytes) (out_text t)).
  set (h := hb_wnd (hb_ack (hb t (snd_nxt t)) (rcv_nxt t)) (rcv_wnd t)).
  set (t3 := set_retx _ _).
  assert (Hbm : 0 < bytes <= m) by (subst m; lia).
  assert (Htl : zlen text = bytes) by (subst text m; rewrite zlen_firstn; lia).
  assert (Hrest : zlen (out_text t3) = zlen (out_text t) - bytes).
  { subst t3; tcb_simpl. rewrite zlen_skipn. subst m. lia. }
  destruct (IH t3 (sent + bytes)) as (segs & E & F & B).
  - exact Hsw.
  - exact Hrw.
  - subst t3; tcb_simpl. rewrite wsub_spec, wadd_spec. rewrite wsub_spec in Hfl. subst m. unfold u32, M32 in *.
    clear -Hfl Hs0 Hbm Hu Hmss. lia.
  - subst m. lia.
  - subst t3; tcb_simpl. apply wadd_u32.
  - subst t3; tcb_simpl. rewrite skipn_length. unfold zlen in *. subst m. lia.
  - cbv zeta in E, B. rewrite Hrest in E, B.
    replace (Z.min (zlen (out_text t) - bytes) (65535 - (sent + bytes))) with (m - bytes) in E, B by (subst m; lia).
    exists (mkSeg h text :: segs).
    rewrite E. splits.
    + f_equal. subst t3. tcb_eq.
      * rewrite wadd_wadd. f_equal. clear -Hbm. lia.
      * rewrite skipn_skipn. f_equal. clear -Hbm. lia.
      * rewrite <- app_assoc. reflexivity.
    + cbn [flight s_hdr s_text]. rewrite Htl. splits; try lia.
      * subst h. unfold data_hdr, hb. rewrite Hrw. reflexivity.
      * exact F.
    + unfold flight_bytes in *. cbn [map concat s_text]. rewrite B. subst t3 text; tcb_simpl.
      rewrite firstn_app_slice. f_equal. lia.
Qed.

(* segments() of a quiescent sender that has just been handed text: the first window of it *)
Lemma segments_flight t bytes :
  st t = Established -> oneshot t = [] -> retx t = [] -> out_text t = bytes -> fin_pending t = false ->
  snd_wnd t = 65535 -> rcv_wnd t = 65535 -> snd_una t = snd_nxt t -> u32 (snd_nxt t) ->
  100 <= mtu t <= 65535 -> 0 < zlen bytes ->
  let m := Z.min (zlen bytes) 65535 in
  exists segs,
    tcb_segments t =
    Ok (set_rto (set_retx (set_snd_nxt (set_out_text (set_oneshot t []) (skipn (Z.to_nat m) bytes))
                                       (wadd (snd_nxt t) m))
                          (map (fun s => mkTx s false) segs)) RTO, segs) /\
    flight (lport t) (rport t) (rcv_nxt t) (snd_nxt t) segs /\
    flight_bytes segs = firstn (Z.to_nat m) bytes /\ segs <> [].
Proof.
  intros Est Hone Hretx Hout Hf Hsw Hrw Hun Hu Hm Hn m.
  unfold tcb_segments. tcb_simpl. rewrite Est, Hone. cbn [segmentizes map]. unfold SPACE_FOR_HEADERS.
  replace (mtu t <? 50) with false by lia.
  set (t0 := set_oneshot t []).
  destruct (seg_loop_flight (mtu t - 50) ltac:(lia) (Datatypes.S (length (out_text t0))) t0 0)
    as (segs & E & F & B); try assumption; try reflexivity.
  - subst t0; tcb_simpl. rewrite Hun. apply wsub_diag.
  - lia.
  - lia.
  - cbv zeta in E, B.
    change (out_text t0) with (out_text t) in *. change (snd_nxt t0) with (snd_nxt t) in *.
    change (retx t0) with (retx t) in *. rewrite E. clear E.
    rewrite Hout, Hretx in *. cbn [app]. rewrite Z.sub_0_r in *. fold m in B |- *.
    assert (Hne : segs <> []).
    { intros ->. assert (Hz : zlen (firstn (Z.to_nat m) bytes) = 0) by (rewrite <- B; reflexivity).
      rewrite zlen_firstn in Hz. subst m. lia. }
    exists segs. split; [|auto]. subst t0.
    unfold queue_pending_fin. tcb_simpl. rewrite Hf. cbn [andb]. tcb_simpl.
    rewrite filter_needs_true, map_tseg_mk, reflag_map.
    destruct segs as [|s0 r]; [congruence|]. reflexivity.
Qed.

(* the second emission after the retransmission timer fired: the whole flight again, and
   nothing new because either the text or the window is exhausted *)
Lemma segments_retransmit t segs :
  fin_pending t = false -> segmentizes (st t) = true -> 100 <= mtu t ->
  Z.min (Z.max 0 (snd_wnd t - wsub (snd_nxt t) (snd_una t))) (zlen (out_text t)) = 0 ->
  oneshot t = [] -> retx t = map (fun s => mkTx s true) segs -> segs <> [] ->
  tcb_segments t = Ok (set_rto (set_retx (set_oneshot t []) (map (fun s => mkTx s false) segs)) RTO, segs).
Proof.
  intros Hf Hs Hm Hnone Hone Hretx Hne.
  rewrite (tcb_segments_eq t (set_oneshot t [])); [|exact Hs|lia|apply seg_loop_stop; [exact Hnone|lia]].
  rewrite queue_pending_fin_no by exact Hf. unfold emit_queue. tcb_simpl.
  rewrite Hone, Hretx, filter_needs_true, map_tseg_mk, reflag_map. cbn [map app fst snd].
  destruct segs; [congruence|]. reflexivity.
Qed.

Lemma ack_prefix_segs lp rp ackv t h pre suf :
  st t = Established -> in_segs t = [] -> rcv_wnd t = 65535 -> u32 (rcv_nxt t) ->
  ack_only h -> h_seq h = rcv_nxt t -> h_wnd h = 65535 -> snd_wnd t = 65535 ->
  u32 (snd_una t) -> retx t = map (fun s => mkTx s false) (pre ++ suf) ->
  flight lp rp ackv (snd_una t) (pre ++ suf) -> flight_len (pre ++ suf) <= 65535 ->
  snd_nxt t = wadd (snd_una t) (flight_len (pre ++ suf)) -> pre <> [] ->
  h_ack h = wadd (snd_una t) (flight_len pre) ->
  exists w1 w2,
  segment_arrives t (mkSeg h []) =
  Ok (set_snd_window (set_retx (set_snd_una (set_in_segs t []) (wadd (snd_una t) (flight_len pre)))
                               (map (fun s => mkTx s false) suf)) 65535 w1 w2, AOk).
Proof.
  intros Est Hs Hw Hu (Ha & Hr & Hsy & Hf) Hseq Hhw Hsw Huu Hretx F Hfl Hnx Hne Hack.
  set (una := snd_una t) in *. set (P := flight_len pre) in *.
  destruct (flight_split lp rp ackv pre suf una Huu F) as [Fp Fs].
  rewrite flight_len_app in Hfl, Hnx. fold P in Hfl, Hnx.
  pose proof (flight_len_nonneg suf) as Hs0.
  assert (HP : 0 < P) by (apply (flight_len_pos lp rp ackv una pre Fp Hne)).
  set (t0 := set_in_segs t []).
  assert (Hleq : mod_leq (h_ack h) una = false).
  { rewrite Hack. unfold mod_leq, mod_lt. rewrite wsub_spec, wadd_spec. unfold u32, M32, H31 in *. lia. }
  assert (Hgt : mod_gt (h_ack h) (snd_nxt t) = false).
  { rewrite Hack, Hnx. unfold mod_gt, mod_lt. rewrite wsub_spec, !wadd_spec. unfold u32, M32, H31 in *. lia. }
  set (t1 := remove_acked (set_snd_una t0 (h_ack h)) (h_ack h)).
  assert (Hret1 : retx t1 = map (fun s => mkTx s false) suf).
  { subst t1 t0. unfold remove_acked; tcb_simpl. rewrite Hretx, map_app, filter_app, Hack.
    pose proof (flight_offsets lp rp ackv una pre 0) as Hop.
    rewrite (wadd_0_u32 una Huu) in Hop. specialize (Hop Fp ltac:(lia) ltac:(fold P; lia)). fold P in Hop.
    pose proof (flight_offsets lp rp ackv una suf P Fs ltac:(lia) ltac:(lia)) as Hos.
    assert (E1 : filter (fun tx => mod_lt (wadd una P) (wadd (h_seq (s_hdr (t_seg tx))) (seg_len (t_seg tx))))
                        (map (fun s => mkTx s false) pre) = []).
    { clearbody P. clear - Hop Huu HP Hfl Hs0. induction Hop as [|s l He _ IH]; cbn [map filter t_seg]; [reflexivity|].
      rewrite IH. cbv beta zeta in He.
      replace (mod_lt (wadd una P) (wadd (h_seq (s_hdr s)) (seg_len s))) with false; [reflexivity|].
      symmetry. unfold mod_lt. rewrite wsub_spec in *. rewrite !wadd_spec in *. unfold u32, M32, H31 in *. lia. }
    assert (E2 : filter (fun tx => mod_lt (wadd una P) (wadd (h_seq (s_hdr (t_seg tx))) (seg_len (t_seg tx))))
                        (map (fun s => mkTx s false) suf) = map (fun s => mkTx s false) suf).
    { clearbody P. clear - Hos Huu HP Hfl Hs0. induction Hos as [|s l He _ IH]; cbn [map filter t_seg]; [reflexivity|].
      rewrite IH. cbv beta zeta in He.
      replace (mod_lt (wadd una P) (wadd (h_seq (s_hdr s)) (seg_len s))) with true; [reflexivity|].
      symmetry. unfold mod_lt. rewrite wsub_spec in *. rewrite !wadd_spec in *. unfold u32, M32, H31 in *. lia. }
    rewrite E1, E2. reflexivity. }
  set (cond := mod_lt (snd_wl1 t1) (h_seq h) || ((snd_wl1 t1 =? h_seq h) && mod_leq (snd_wl2 t1) (h_ack h))).
  set (t2 := if cond then set_snd_window t1 (h_wnd h) (h_seq h) (h_ack h) else t1).
  assert (Hproc : process_segment t0 (mkSeg h []) = Ok (t2, PSuccess)).
  { unfold process_segment. tcb_simpl. change (st t0) with (st t). rewrite Est, Hsy, Hf.
    assert (Hok : is_seq_ok t0 (zlen (@nil Z)) (h_seq h) false false = true).
    { rewrite Hseq. apply (is_seq_ok_at_nxt t0); assumption. }
    rewrite Hok. cbn [negb].
    unfold ps_ack. rewrite Ha. change (st t0) with (st t). rewrite Est. cbn [negb]. unfold ack_est.
    change (snd_una t0) with una. change (snd_nxt t0) with (snd_nxt t).
    rewrite Hleq, Hgt. fold t1. fold cond. fold t2.
    assert (Est2 : st t2 = Established) by (subst t2; destruct cond; exact Est).
    unfold ps_rst. rewrite Hr. cbn [negb]. unfold ps_syn. rewrite Hsy. cbn [negb].
    rewrite Est2. cbn [state_eqb]. rewrite ps_text_nil, ps_fin_nofin by exact Hf. reflexivity. }
  exists (snd_wl1 t2), (snd_wl2 t2).
  eapply arrives_single; try assumption; try reflexivity.
  - now rewrite Est.
  - tcb_simpl. rewrite Hseq. apply mod_gt_refl_false.
  - fold t0. rewrite Hproc. f_equal. f_equal.
    subst t2. destruct cond; tcb_eq; try exact Hret1; subst t1 t0; unfold remove_acked; tcb_simpl; auto.
  - subst t2. destruct cond; reflexivity.
Qed.
