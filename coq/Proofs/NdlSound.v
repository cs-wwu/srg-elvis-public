(* NDL parser model: soundness of acceptance (an accepted text yields a wf_sim
   description).  The induction over the parser stack is NdlFacts' Section Stack; here:
   the arguments of an accepted line are substrings of the rewritten text, in the form
   the argument grammar can carry. *)
From Elvis Require Import Model.Base Model.Ndl Proofs.NdlFacts Proofs.NdlRound Proofs.NdlFile
  Proofs.NdlRewrite Proofs.NdlReject.
Local Open Scope N_scope.

Definition infix (x s : text) : Prop := exists a b, s = a ++ x ++ b.
Definition suffix (r s : text) : Prop := exists a, s = a ++ r.

Lemma suffix_refl s : suffix s s.
Proof. exists []. reflexivity. Qed.

Lemma suffix_trans a b c : suffix a b -> suffix b c -> suffix a c.
Proof. intros [x ->] [y ->]. exists (y ++ x). rewrite app_assoc. reflexivity. Qed.

Lemma suffix_skipn n (s : text) : suffix (skipn n s) s.
Proof. exists (firstn n s). symmetry. apply firstn_skipn. Qed.

Lemma suffix_cons c (b : text) : suffix b (c :: b).
Proof. exists [c]. reflexivity. Qed.

Lemma infix_suffix x r s : infix x r -> suffix r s -> infix x s.
Proof. intros (a & b & ->) [p ->]. exists (p ++ a), b. rewrite <- app_assoc. reflexivity. Qed.

Lemma infix_in c x s : infix x s -> In c x -> In c s.
Proof. intros (a & b & ->) H. apply in_or_app. right. apply in_or_app. left. exact H. Qed.

Lemma suffix_len (r s : text) : suffix r s -> (length r <= length s)%nat.
Proof. intros [a ->]. rewrite app_length. lia. Qed.

Lemma clean_infix x s : clean s -> infix x s -> clean x.
Proof.
  intros [Hc Hn] Hi. split.
  - intros H. apply Hc. exact (infix_in _ _ _ Hi H).
  - destruct Hi as (a & b & ->). apply norun4_app_r in Hn. apply norun4_app_l in Hn. exact Hn.
Qed.

Lemma escaped_wf_val : forall n f i v r, (length i <= n)%nat -> escaped f i = Some (v, r) -> wf_val v.
Proof.
  induction n as [|n IH]; intros f i v r Hl H.
  - destruct i; [|cbn in Hl; lia]. cbn in H. injection H as <- <-. constructor.
  - destruct i as [|c i]; cbn [escaped] in H.
    + injection H as <- <-. constructor.
    + cbn [length] in Hl. destruct (c =? c_bslash) eqn:Eb.
      * apply N.eqb_eq in Eb. subst c. destruct i as [|d i]; [discriminate|].
        destruct (d =? c_quote) eqn:Eq; [|discriminate]. apply N.eqb_eq in Eq. subst d.
        destruct (escaped false i) as [[v' r']|] eqn:E; [|discriminate]. injection H as <- <-.
        cbn [length] in Hl. apply wfv_esc. exact (IH false i v' r' ltac:(lia) E).
      * destruct (c =? c_quote) eqn:Eq.
        -- destruct f; [discriminate|]. injection H as <- <-. constructor.
        -- destruct (escaped false i) as [[v' r']|] eqn:E; [|discriminate]. injection H as <- <-.
           apply wfv_normal; [apply N.eqb_neq; exact Eb|apply N.eqb_neq; exact Eq|].
           exact (IH false i v' r' ltac:(lia) E).
Qed.

Lemma value_body_wf_val i v r : value_body i = (v, r) -> wf_val v.
Proof.
  unfold value_body. destruct (escaped true i) as [[v' r']|] eqn:E; intros H; injection H as <- <-.
  - exact (escaped_wf_val _ _ _ _ _ (Nat.le_refl _) E).
  - constructor.
Qed.

Lemma arg1_spec i k v r : arg1 i = Some ((k, v), r) ->
  (exists ws, i = ws ++ k ++ c_eq :: c_quote :: v ++ c_quote :: r) /\
  ~ In c_eq k /\ head_not_ws k /\ wf_val v.
Proof.
  unfold arg1. destruct (span_ws i) as [ws r0] eqn:HS. apply span_ws_spec in HS. destruct HS as [-> Hh].
  destruct ws as [|w ws]; [discriminate|].
  destruct (take_until c_eq r0) as [[key r2]|] eqn:T; [|discriminate].
  apply take_until_split in T. destruct T as (-> & (r3' & ->) & Hn).
  destruct r3' as [|q r4]; [discriminate|].
  destruct (q =? c_quote) eqn:Eq; [|discriminate]. apply N.eqb_eq in Eq. subst q.
  destruct (value_body r4) as [v' r5] eqn:V. pose proof (value_body_wf_val _ _ _ V) as Hv.
  apply value_body_app in V. subst r4.
  destruct r5 as [|q2 r6]; [discriminate|]. destruct (q2 =? c_quote) eqn:Eq2; [|discriminate].
  apply N.eqb_eq in Eq2. subst q2. intros H. injection H as <- <- <-.
  split; [exists (w :: ws); reflexivity|]. split; [exact Hn|]. split; [|exact Hv].
  destruct key as [|c key]; [exact I|exact Hh].
Qed.

(* what [arguments] returns: every pair is well-formed and a substring of the input *)
Definition arg_ok (src : text) (kv : text * text) : Prop :=
  ~ In c_eq (fst kv) /\ head_not_ws (fst kv) /\ wf_val (snd kv) /\ infix (fst kv) src /\ infix (snd kv) src.

Lemma arguments_spec fuel : forall i args r, arguments fuel i = Ok (args, r) -> Forall (arg_ok i) args.
Proof.
  induction fuel as [|f IH]; intros i args r H; cbn [arguments] in H; [discriminate|].
  destruct (arg1 i) as [[[k v] r1]|] eqn:A.
  - destruct (Nat.eqb (length r1) (length i)); [discriminate|].
    destruct (arguments f r1) as [[l r']| | |] eqn:E; try discriminate. injection H as <- <-.
    apply arg1_spec in A. destruct A as ((ws & Hi) & Hn & Hh & Hv).
    constructor.
    + unfold arg_ok. cbn [fst snd]. split; [exact Hn|]. split; [exact Hh|]. split; [exact Hv|]. split.
      * exists ws, (c_eq :: c_quote :: v ++ c_quote :: r1). exact Hi.
      * exists (ws ++ k ++ [c_eq; c_quote]), (c_quote :: r1). rewrite Hi.
        repeat rewrite <- app_assoc. reflexivity.
    + specialize (IH _ _ _ E). eapply Forall_impl; [|exact IH].
      intros [k' v'] (H1 & H2 & H3 & H4 & H5). unfold arg_ok. cbn [fst snd] in *.
      assert (Hsuf : suffix r1 i).
      { exists (ws ++ k ++ c_eq :: c_quote :: v ++ [c_quote]). rewrite Hi.
        repeat rewrite <- app_assoc. cbn [app]. repeat rewrite <- app_assoc. reflexivity. }
      repeat split; try assumption; eapply infix_suffix; eassumption.
  - injection H as <- <-. constructor.
Qed.

Lemma kw_suffix tag : forall i r, kw tag i = Some r -> suffix r i.
Proof.
  induction tag as [|b t IH]; intros i r H; cbn [kw] in H.
  - injection H as <-. apply suffix_refl.
  - destruct i as [|a i]; [discriminate|]. destruct (ascii_lower a =? b); [|discriminate].
    eapply suffix_trans; [exact (IH _ _ H)|apply suffix_cons].
Qed.

Lemma get_type_suffix i d r : get_type i = Ok (d, r) -> suffix r i.
Proof.
  unfold get_type. generalize tags_fixed. intros tags. induction tags as [|t ts IH]; cbn [get_type_alt].
  - discriminate.
  - destruct (kw (tag_name t) i) as [r'|] eqn:E.
    + intros H. injection H as <- <-. exact (kw_suffix _ _ _ E).
    + exact IH.
Qed.

Lemma section_spec s content rem : section s = Some (content, rem) ->
  s = c_lbr :: content ++ c_rbr :: rem /\ ~ In c_rbr content.
Proof.
  unfold section. destruct s as [|x s]; [discriminate|].
  destruct (x =? c_lbr) eqn:E; [|discriminate]. apply N.eqb_eq in E. subst x.
  destruct (take_until c_rbr s) as [[a b]|] eqn:T; [|discriminate].
  destruct b as [|y b]; [discriminate|]. intros H. injection H as <- <-.
  apply take_until_split in T. destruct T as (-> & (r & Hr) & Hn). injection Hr as -> ->.
  split; [reflexivity|exact Hn].
Qed.

Local Open Scope Z_scope.

Definition good_args (a : params) : Prop := pargs a /\ cargs a.

Section Sound.
  Variable T : text.
  Variable T_clean : clean T.

  Lemma general_parser_sound s ln : suffix s T ->
    okp (line_ok (fun r => suffix r T) good_args s) (general_parser get_type s ln).
  Proof.
    intros Hs. pose proof (general_parser_good get_type s ln get_type_total) as G.
    destruct (general_parser get_type s ln) as [[[[ty args] rem] ln']| | |] eqn:H;
      try contradiction; [|exact I].
    unfold general_parser in H.
    destruct (section s) as [[content rem0]|] eqn:HS; [|discriminate].
    apply section_spec in HS. destruct HS as [Hseq Hnb].
    destruct (get_type content) as [[ty0 r]| | |] eqn:Gt; try discriminate.
    apply get_type_suffix in Gt.
    destruct (arguments (S (length r)) r) as [[args0 r2]| | |] eqn:A; try discriminate.
    destruct (negb (is_nil r2)); [discriminate|].
    destruct (negb (dupcheck [] args0)) eqn:D; [discriminate|].
    injection H as <- <- <- <-. split; [|split; [exact G|]].
    - eapply suffix_trans; [apply suffix_skipn|]. eapply suffix_trans; [|exact Hs].
      exists (c_lbr :: content ++ [c_rbr]). rewrite Hseq. cbn [app]. rewrite <- app_assoc. reflexivity.
    - apply negb_false_iff, dupcheck_nodup in D. apply arguments_spec in A.
      assert (Hcs : infix content s).
      { exists [c_lbr], (c_rbr :: rem0). rewrite Hseq. reflexivity. }
      assert (Hinf : forall x, infix x r -> infix x T /\ ~ In c_rbr x).
      { intros x Hx. assert (Hxc : infix x content) by (eapply infix_suffix; eassumption).
        split.
        - destruct Hxc as (a & b & Hc). destruct Hcs as (a' & b' & Hs'). destruct Hs as [p Hp].
          exists (p ++ a' ++ a), (b ++ b'). rewrite Hp, Hs', Hc. repeat rewrite <- app_assoc. reflexivity.
        - intros Hi. apply Hnb. exact (infix_in _ _ _ Hxc Hi). }
      assert (Hp : Forall parg args0).
      { eapply Forall_impl; [|exact A]. intros [k v] (H1 & H2 & H3 & H4 & H5). cbn [fst snd] in *.
        split; cbn [fst snd].
        - split; [exact H1|]. split; [exact (proj2 (Hinf _ H4))|exact H2].
        - split; [exact H3|exact (proj2 (Hinf _ H5))]. }
      split; [split; [exact Hp|exact D]|split; [|exact Hp]].
      eapply Forall_impl; [|exact A]. intros [k v] (H1 & H2 & H3 & H4 & H5). cbn [fst snd] in *.
      split; cbn [fst snd]; eapply clean_infix; try exact T_clean; [exact (proj1 (Hinf _ H4))|exact (proj1 (Hinf _ H5))].
  Qed.
End Sound.

Lemma req_remove_sub d req req' : req_remove d req = Some req' ->
  forall x, req_contains x req' = true -> req_contains x req = true.
Proof.
  revert req'. induction req as [|y r IH]; intros req' H x Hx; cbn [req_remove] in H; [discriminate|].
  cbn [req_contains]. destruct (dectype_eqb y d).
  - injection H as <-. rewrite Hx. apply orb_true_r.
  - destruct (req_remove d r) as [r'|] eqn:E; [|discriminate]. injection H as <-.
    cbn [req_contains] in Hx. apply orb_prop in Hx. destruct Hx as [Hx|Hx].
    + rewrite Hx. reflexivity.
    + rewrite (IH _ eq_refl x Hx). apply orb_true_r.
Qed.

Lemma qsim_csim s : qsim cargs s -> csim s.
Proof.
  assert (Hi : forall ty l, Forall (qitem cargs ty) l -> Forall citem l).
  { intros ty l. apply Forall_impl. intros i [_ H]. exact H. }
  intros (Hn & _ & Hm). split.
  - eapply Forall_impl; [|exact Hn]. intros kn (_ & Ho & _ & _ & Hips). split; [exact Ho|exact (Hi _ _ Hips)].
  - eapply Forall_impl; [|exact Hm]. intros m (_ & Ho & _ & H1 & _ & H2 & _ & H3).
    split; [exact Ho|]. split; [exact (Hi _ _ H1)|]. split; [exact (Hi _ _ H2)|exact (Hi _ _ H3)].
Qed.

(* Section Stack with "a suffix of the rewritten text" for what remains to be read *)
Lemma core_parse_sound txt s : core_parse txt = Ok s -> wf_sim s.
Proof.
  intros H. assert (G : okp (qsim good_args) (core_parse txt)).
  { apply (core_loop_ok get_type (fun r => suffix r (rewrite txt)) good_args);
      [|exact (general_parser_sound _ (rewrite_clean txt))|lia|apply suffix_refl|constructor..].
    intros n r. apply suffix_trans, suffix_skipn. }
  rewrite H in G. split.
  - exact (qsim_impl good_args pargs (fun a => @proj1 _ _) s G).
  - exact (qsim_csim s (qsim_impl good_args cargs (fun a => @proj2 _ _) s G)).
Qed.
