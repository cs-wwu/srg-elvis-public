(* Lemmas about the IPv4 header codec model (Model/Ipv4Hdr.v). *)
From Elvis Require Import Model.Base Model.Bytes Model.Checksum Model.Ipv4Hdr
  Proofs.BytesFacts Proofs.ChecksumFacts.
Local Open Scope Z_scope.

(* what the decoder (l.67-97) and the builder (l.239-259) feed to the accumulator *)
Definition ipv4_items (vi tos tl ident ff ttl proto src dst : Z) : list ckitem :=
  [I8 vi tos; I16 tl; I16 ident; I16 ff; I8 ttl proto; I32 src; I32 dst].
Definition ipv4_bs_items (bs : list Z) : list ckitem :=
  ipv4_items (nth 0 bs 0) (nth 1 bs 0) (w16 bs 2) (w16 bs 4) (w16 bs 6) (nth 8 bs 0) (nth 9 bs 0)
             (w32 bs 12) (w32 bs 16).
Definition ipv4_sum (ck : bool) (bs : list Z) : Z := as_u16 ck (ck_run ck (ipv4_bs_items bs)).
Definition ipv4_view (bs : list Z) : ipv4_hdr :=
  mk_ipv4 (band (nth 0 bs 0) 15) (nth 1 bs 0) (w16 bs 2) (w16 bs 4) (band (w16 bs 6) 8191)
          (shr (w16 bs 6) 13) (nth 8 bs 0) (nth 9 bs 0) (w16 bs 10) (w32 bs 12) (w32 bs 16).

Lemma ipv4_cksum_run : forall ck tos tl ident ff ttl proto src dst,
  ipv4_cksum ck tos tl ident ff ttl proto src dst =
  as_u16 ck (ck_run ck (ipv4_items 69 tos tl ident ff ttl proto src dst)).
Proof. reflexivity. Qed.

Lemma ipv4_decode_ge20 : forall fck ftl ck bs, (20 <= length bs)%nat ->
  ipv4_decode fck ftl ck bs =
  if negb (shr (nth 0 bs 0) 4 =? 4) then Err E_VER else
  if negb (band (nth 0 bs 0) 15 =? 5) then Err E_IHL else
  if negb (band (nth 1 bs 0) 3 =? 0) then Err E_TOS else
  if ftl && (w16 bs 2 <? 20) then Err E_TOTLEN else
  if negb (band (shr (w16 bs 6) 13) 4 =? 0) then Err E_FLAG else
  if negb (ck_match fck (ipv4_sum ck bs) (w16 bs 10)) then Err (E_CK (w16 bs 10) (ipv4_sum ck bs))
  else Ok (ipv4_view bs).
Proof. intros fck ftl ck bs H. do 20 (destruct bs as [|? bs]; [cbn in H; lia|]). reflexivity. Qed.

Lemma ipv4_decode_short : forall fck ftl ck bs, (length bs < 20)%nat ->
  exists e, ipv4_decode fck ftl ck bs = Err e.
Proof.
  intros fck ftl ck bs Hl. unfold ipv4_decode.
  do 20 (destruct bs as [|? bs];
         [ cbn [bind ok_or next_u8 next_u16_be next_u32_be]; cbv zeta; kill_ifs_err | ]).
  cbn in Hl. lia.
Qed.

(* the structural checks of the decoder, without the checksum *)
Definition ipv4_struct (ftl : bool) (bs : list Z) : Prop :=
  shr (nth 0 bs 0) 4 = 4 /\ band (nth 0 bs 0) 15 = 5 /\ band (nth 1 bs 0) 3 = 0 /\
  (ftl = true -> 20 <= w16 bs 2) /\ band (shr (w16 bs 6) 13) 4 = 0.

Lemma ipv4_decode_ok_iff : forall fck ftl ck bs h, ipv4_decode fck ftl ck bs = Ok h <->
  (20 <= length bs)%nat /\ ipv4_struct ftl bs /\
  ck_match fck (ipv4_sum ck bs) (w16 bs 10) = true /\ h = ipv4_view bs.
Proof.
  intros fck ftl ck bs h. unfold ipv4_struct. destruct (Nat.ltb_spec (length bs) 20) as [Hs|Hl].
  - destruct (ipv4_decode_short fck ftl ck bs Hs) as [e ->]. split; [discriminate | lia].
  - rewrite ipv4_decode_ge20 by assumption.
    destruct (shr (nth 0 bs 0) 4 =? 4) eqn:E1; cbn [negb]; [|split; [discriminate | lia]].
    destruct (band (nth 0 bs 0) 15 =? 5) eqn:E2; cbn [negb]; [|split; [discriminate | lia]].
    destruct (band (nth 1 bs 0) 3 =? 0) eqn:E3; cbn [negb]; [|split; [discriminate | lia]].
    destruct (ftl && (w16 bs 2 <? 20)) eqn:E4; [split; [discriminate | destruct ftl; [lia | discriminate]]|].
    destruct (band (shr (w16 bs 6) 13) 4 =? 0) eqn:E5; cbn [negb]; [|split; [discriminate | lia]].
    destruct (ck_match fck _ _); cbn [negb]; [|split; [discriminate | intros (_ & _ & [=] & _)]].
    split; [intros [= <-] | intros (_ & _ & _ & ->)]; repeat split; try lia.
    intros ->. cbn [andb] in E4. lia.
Qed.

Lemma ipv4_items_ok : forall bs, bytes bs -> Forall item_ok (ipv4_bs_items bs).
Proof. intros. unfold ipv4_bs_items. items_ok. Qed.
Lemma ipv4_sum_items : forall bs, Forall item_ok (ipv4_bs_items bs) ->
  ipv4_sum true bs = as_u16 true (oc_norm (items_sum (ipv4_bs_items bs))).
Proof. intros bs H. unfold ipv4_sum. rewrite ck_run_norm by exact H. reflexivity. Qed.
Lemma ipv4_sum_on : forall bs, bytes bs ->
  ipv4_sum true bs = as_u16 true (oc_norm (items_sum (ipv4_bs_items bs))).
Proof. intros bs Hb. apply ipv4_sum_items, ipv4_items_ok, Hb. Qed.
Lemma ipv4_sum_off : forall bs, ipv4_sum false bs = 0.
Proof. reflexivity. Qed.

Lemma ipv4_build_ok : forall ck tos plen ident frag flags ttl proto src dst,
  0 <= plen -> plen + 20 <= 65535 -> 0 <= frag <= 8191 -> 0 <= flags < 8 ->
  ipv4_build ck tos plen ident frag flags ttl proto src dst =
  Ok ([69; tos] ++ be16 (plen + 20) ++ be16 ident ++ be16 (flags * 8192 + frag) ++ [ttl; proto]
        ++ be16 (ipv4_cksum ck tos (plen + 20) ident (flags * 8192 + frag) ttl proto src dst)
        ++ be32 src ++ be32 dst).
Proof.
  intros ck tos plen ident frag flags ttl proto src dst Hp Hp2 Hf Hfl.
  unfold ipv4_build. cbv zeta. change (bor (shl 4 4) 5) with 69.
  replace (65535 <? plen + 20) with false by lia.
  replace (8191 <? frag) with false by lia.
  rewrite shl_13, band_8191.
  rewrite (Z.mod_small (flags * 8192)) by lia.
  rewrite (Z.mod_small frag) by lia.
  rewrite bor_add_8192 by lia.
  reflexivity.
Qed.

Lemma ipv4_cksum_u16 : forall ck tos tl ident ff ttl proto src dst,
  byte tos -> u16 tl -> u16 ident -> u16 ff -> byte ttl -> byte proto -> u32 src -> u32 dst ->
  u16 (ipv4_cksum ck tos tl ident ff ttl proto src dst).
Proof. intros. rewrite ipv4_cksum_run. apply cksum_u16. items_ok. Qed.

Lemma ipv4_decode_encode : forall fck ftl ck h payload, ipv4_wf ck h ->
  exists bs, ipv4_encode ck h = Ok bs /\ length bs = 20%nat /\
             ipv4_decode fck ftl ck (bs ++ payload) = Ok h.
Proof.
  intros fck ftl ck [ihl tos tl ident frag flags ttl proto cks src dst] payload W.
  unfold ipv4_wf in W. cbn [ip_ihl ip_tos ip_len ip_id ip_frag ip_flags ip_ttl ip_proto ip_ck ip_src ip_dst] in W.
  destruct W as (Wihl & Wtos & Wtos4 & Wtl & Wid & Wfrag & Wfl & Wttl & Wpr & Wsrc & Wdst & Wck).
  unfold ipv4_encode. cbn [ip_ihl ip_tos ip_len ip_id ip_frag ip_flags ip_ttl ip_proto ip_ck ip_src ip_dst].
  replace (tl <? 20) with false by lia.
  rewrite ipv4_build_ok by lia. replace (tl - 20 + 20) with tl by lia.
  eexists. split; [reflexivity|]. split; [reflexivity|].
  assert (Hff : u16 (flags * 8192 + frag)) by (unfold u16; lia).
  assert (Hck : u16 (ipv4_cksum ck tos tl ident (flags * 8192 + frag) ttl proto src dst)).
  { apply ipv4_cksum_u16; unfold u8, byte, u16 in *; try assumption; lia. }
  cbn [app be16 be32]. apply ipv4_decode_ok_iff. split; [cbn [length]; lia|].
  unfold ipv4_struct, ipv4_sum, ipv4_bs_items, ipv4_view, w16, w32. cbn [nth].
  replace (shr 69 4) with 4 by reflexivity. replace (band 69 15) with 5 by reflexivity.
  rewrite band_3, Wtos4.
  rewrite !of_be16_be16 by (assumption || (unfold u16; lia)).
  rewrite !of_be32_be32 by assumption.
  rewrite shr_13, band_4, band_8191.
  replace ((flags * 8192 + frag) / 8192) with flags by lia.
  replace (flags / 4 mod 2 * 4) with 0 by lia.
  replace ((flags * 8192 + frag) mod 8192) with frag by lia.
  rewrite <- ipv4_cksum_run. unfold ck_match. rewrite Z.eqb_refl. subst ihl cks.
  repeat split; lia.
Qed.

Lemma ipv4_b0_69 : forall b0, byte b0 -> shr b0 4 = 4 -> band b0 15 = 5 -> b0 = 69.
Proof. intros b0 Hb. rewrite shr_4, band_15. unfold byte in Hb. lia. Qed.

Lemma ipv4_encode_decode : forall fck ck bs h, bytes bs ->
  (ck = false \/ fck = false) ->
  ipv4_decode fck true ck bs = Ok h -> ipv4_encode ck h = Ok (firstn 20 bs).
Proof.
  intros fck ck bs h Hb Hmode H.
  apply ipv4_decode_ok_iff in H as (L & (Hv & Hi & Ht & Htl & Hfl) & Hm & ->).
  specialize (Htl eq_refl).
  assert (E0 : nth 0 bs 0 = 69) by (apply ipv4_b0_69; auto with ck).
  pose proof (w16_range bs 2 Hb) as R23. pose proof (w16_range bs 6 Hb) as R67.
  unfold ipv4_encode, ipv4_view. cbn [ip_ihl ip_tos ip_len ip_id ip_frag ip_flags ip_ttl ip_proto ip_ck ip_src ip_dst].
  replace (w16 bs 2 <? 20) with false by lia.
  rewrite shr_13, band_8191. unfold u16 in R23, R67.
  rewrite ipv4_build_ok by lia.
  replace (w16 bs 2 - 20 + 20) with (w16 bs 2) by lia.
  replace (w16 bs 6 / 8192 * 8192 + w16 bs 6 mod 8192) with (w16 bs 6) by lia.
  (* the emitted checksum is the received field *)
  assert (Hck : ipv4_sum ck bs = w16 bs 10).
  { unfold ck_match in Hm. destruct Hmode as [-> | ->]; [rewrite ipv4_sum_off in * | cbn [andb] in Hm]; lia. }
  rewrite ipv4_cksum_run. rewrite <- E0. fold (ipv4_bs_items bs) (ipv4_sum ck bs). rewrite Hck.
  rewrite !be16_w16, !be32_w32, firstn_nth by assumption. reflexivity.
Qed.

Lemma ipv4_matches_rfc : forall ck prec d t r plen ident df mf frag ttl proto src dst,
  0 <= prec < 8 -> 0 <= d < 2 -> 0 <= t < 2 -> 0 <= r < 2 ->
  0 <= plen -> plen + 20 <= 65535 -> u16 ident -> 0 <= df < 2 -> 0 <= mf < 2 -> 0 <= frag <= 8191 ->
  u8 ttl -> u8 proto -> u32 src -> u32 dst ->
  let tos := prec * 32 + d * 16 + t * 8 + r * 4 in
  let flags := df * 2 + mf in
  ipv4_build ck tos plen ident frag flags ttl proto src dst =
  Ok (rfc791_bytes 4 5 prec d t r (plen + 20) ident df mf frag ttl proto
        (ipv4_cksum ck tos (plen + 20) ident (flags * 8192 + frag) ttl proto src dst) src dst).
Proof.
  intros ck prec d t r plen ident df mf frag ttl proto src dst
         Hprec Hd Ht Hr Hp Hp2 Hid Hdf Hmf Hfrag Httl Hpr Hsrc Hdst tos flags.
  rewrite ipv4_build_ok by (subst flags; lia).
  assert (Hck : u16 (ipv4_cksum ck tos (plen + 20) ident (flags * 8192 + frag) ttl proto src dst)).
  { apply ipv4_cksum_u16; subst tos flags; unfold u8, byte, u16 in *; try assumption; lia. }
  generalize dependent (ipv4_cksum ck tos (plen + 20) ident (flags * 8192 + frag) ttl proto src dst).
  intros cks Hck. f_equal. subst tos flags.
  unfold rfc791_bytes, octets32, be16, be32, u8, u16, u32 in *. norm_pow. cbn [app].
  list_eq.
Qed.

Lemma tos_new_arith : forall prec d t r, 0 <= prec < 8 -> 0 <= d < 2 -> 0 <= t < 2 -> 0 <= r < 2 ->
  tos_new prec d t r = prec * 32 + d * 16 + t * 8 + r * 4.
Proof.
  intros prec d t r Hp Hd Ht Hr.
  assert (forallb (fun p => forallb (fun d => forallb (fun t => forallb (fun r =>
            tos_new p d t r =? p * 32 + d * 16 + t * 8 + r * 4) (zrange 2)) (zrange 2)) (zrange 2)) (zrange 8) = true)
    as S by (vm_compute; reflexivity).
  pose proof (zrange_forallb2 _ 8 2 S prec d Hp Hd) as S2. cbv beta in S2.
  pose proof (zrange_forallb2 _ 2 2 S2 t r Ht Hr) as S4. cbv beta in S4. lia.
Qed.
Lemma ipv4_view_fields_rfc : forall bs, bytes bs -> (20 <= length bs)%nat -> ipv4_view bs = rfc791_fields bs.
Proof.
  intros bs Hb L. do 20 (destruct bs as [|? bs]; [cbn in L; lia|]).
  repeat (apply bytes_cons in Hb; let B := fresh "B" in destruct Hb as [B Hb]).
  unfold ipv4_view, rfc791_fields, row, fld, w16, w32. cbn [Nat.mul Nat.add nth].
  rewrite band_15, band_8191, shr_13. unfold of_be16, of_be32, byte in *. norm_pow.
  f_equal; lia.
Qed.
Lemma ipv4_wsum_split : forall bs, bytes bs -> (20 <= length bs)%nat ->
  wsum (firstn 20 bs) = items_sum (ipv4_bs_items bs) + w16 bs 10.
Proof.
  intros bs Hb L. unfold items_sum, ipv4_bs_items, ipv4_items. cbn [map item_sum zsum fold_right].
  rewrite !halves_w32 by assumption. clear Hb.
  do 20 (destruct bs as [|? bs]; [cbn in L; lia|]). cbn [firstn].
  rewrite !wsum_two, wsum_nil. unfold w16, of_be16. cbn [nth]. lia.
Qed.

Lemma ipv4_sum_pos : forall bs, bytes bs -> nth 0 bs 0 = 69 -> 0 < items_sum (ipv4_bs_items bs).
Proof.
  intros bs Hb E. apply (items_sum_pos _ 69 (nth 1 bs 0)); [apply ipv4_items_ok, Hb | rewrite <- E; cbn; tauto |].
  pose proof (bytes_nth bs 1 Hb) as B. unfold byte in B. lia.
Qed.

Lemma ipv4_accepted_verifies : forall fck ftl bs h, bytes bs ->
  ipv4_decode fck ftl true bs = Ok h -> rfc1071_verifies (firstn 20 bs) = true.
Proof.
  intros fck ftl bs h Hb H.
  apply ipv4_decode_ok_iff in H as (L & (Hv & Hi & _) & Hm & _).
  assert (E0 : nth 0 bs 0 = 69) by (apply ipv4_b0_69; auto with ck).
  rewrite verifies_wsum by (apply bytes_firstn, Hb). rewrite ipv4_wsum_split by assumption.
  rewrite ipv4_sum_on in Hm by assumption.
  apply Z.eqb_eq. apply (cksum_accept_verifies fck); auto using ipv4_sum_pos with ck.
Qed.

(* structural part of the decoder's decision on a string of >= 20 bytes *)
Definition ipv4_struct_ok (bs : list Z) : bool :=
  (shr (nth 0 bs 0) 4 =? 4) && (band (nth 0 bs 0) 15 =? 5) && (band (nth 1 bs 0) 3 =? 0) &&
  (20 <=? of_be16 (nth 2 bs 0) (nth 3 bs 0)) &&
  (band (shr (of_be16 (nth 6 bs 0) (nth 7 bs 0)) 13) 4 =? 0).

Lemma ipv4_struct_ok_iff : forall bs, ipv4_struct_ok bs = true <-> ipv4_struct true bs.
Proof. intros bs. unfold ipv4_struct_ok, ipv4_struct, w16. split; [intros H; repeat split; lia | intros (?&?&?&H&?); specialize (H eq_refl); lia]. Qed.

Lemma ipv4_accept_iff : forall bs, bytes bs -> (20 <= length bs)%nat ->
  ((exists h, ipv4_decode true true true bs = Ok h) <->
   ipv4_struct_ok bs = true /\ rfc1071_verifies (firstn 20 bs) = true).
Proof.
  intros bs Hb Hl. rewrite ipv4_struct_ok_iff. split.
  - intros [h H]. split; [apply ipv4_decode_ok_iff in H; tauto | eapply ipv4_accepted_verifies; eassumption].
  - intros [Hs Hv]. eexists. apply ipv4_decode_ok_iff.
    split; [exact Hl|]. split; [exact Hs|]. split; [|reflexivity].
    assert (E0 : nth 0 bs 0 = 69) by (destruct Hs as (? & ? & _); apply ipv4_b0_69; auto with ck).
    rewrite verifies_wsum in Hv by (apply bytes_firstn, Hb). rewrite ipv4_wsum_split in Hv by assumption.
    apply Z.eqb_eq in Hv. rewrite ipv4_sum_on by assumption.
    apply verify_iff_match_fixed; auto using ipv4_sum_pos with ck.
Qed.

Lemma ipv4_emitted_verifies : forall tos plen ident frag flags ttl proto src dst bs,
  u8 tos -> 0 <= plen -> plen + 20 <= 65535 -> u16 ident -> 0 <= frag <= 8191 -> 0 <= flags < 8 ->
  u8 ttl -> u8 proto -> u32 src -> u32 dst ->
  ipv4_build true tos plen ident frag flags ttl proto src dst = Ok bs ->
  length bs = 20%nat /\ rfc1071_verifies bs = true.
Proof.
  intros tos plen ident frag flags ttl proto src dst bs Htos Hp Hp2 Hid Hfrag Hfl Httl Hpr Hsrc Hdst H.
  rewrite ipv4_build_ok in H by lia. apply Ok_inj in H. subst bs.
  split; [reflexivity|].
  assert (Hff : u16 (flags * 8192 + frag)) by (unfold u16; lia).
  assert (Htl : u16 (plen + 20)) by (unfold u16; lia).
  assert (Hok : Forall item_ok (ipv4_items 69 tos (plen + 20) ident (flags * 8192 + frag) ttl proto src dst))
    by (unfold u8 in *; items_ok).
  assert (Hck : u16 (ipv4_cksum true tos (plen + 20) ident (flags * 8192 + frag) ttl proto src dst))
    by (rewrite ipv4_cksum_run; apply cksum_u16, Hok).
  set (bs := [69; tos] ++ _) in *.
  assert (Hb : bytes bs).
  { subst bs. unfold u8 in *. repeat (apply bytes_app; split); try apply be16_bytes; try apply be32_bytes;
      repeat (apply bytes_cons; split; [auto with ck|]); constructor. }
  change bs with (firstn 20 bs). rewrite verifies_wsum by (apply bytes_firstn, Hb).
  rewrite ipv4_wsum_split by (assumption || (cbn; lia)).
  subst bs. unfold be16, be32. cbn [app]. unfold ipv4_bs_items, w16, w32. cbn [nth].
  rewrite !of_be16_be16, !of_be32_be32 by assumption.
  rewrite ipv4_cksum_run, ck_run_norm by exact Hok.
  apply Z.eqb_eq, emitted_sum_verifies, items_sum_nonneg, Hok.
Qed.

(* a conforming sender's header (RFC 1071 (2): field = complement of the sum
   over the header with a zero field) is accepted after the repair; [zs] is [bs] with the field zeroed *)
Lemma ipv4_accepts_field : forall bs zs c, bytes zs -> (20 <= length zs)%nat -> (20 <= length bs)%nat ->
  nth 0 zs 0 = 69 -> w16 zs 10 = 0 -> ipv4_bs_items bs = ipv4_bs_items zs ->
  c = rfc1071_checksum (firstn 20 zs) ->
  nth 10 bs 0 = c / 256 mod 256 -> nth 11 bs 0 = c mod 256 ->
  ipv4_struct true bs -> ipv4_decode true true true bs = Ok (ipv4_view bs).
Proof.
  intros bs zs c Hz Lz L E0 F0 Ei Hc H10 H11 Hs.
  assert (Hpos : 0 < items_sum (ipv4_bs_items zs)) by (apply ipv4_sum_pos; assumption).
  rewrite checksum_wsum, ipv4_wsum_split, F0, Z.add_0_r in Hc by auto using bytes_firstn.
  pose proof (oc_norm_range _ (Z.lt_le_incl _ _ Hpos)) as Rn.
  apply ipv4_decode_ok_iff. split; [exact L|]. split; [exact Hs|]. split; [|reflexivity].
  rewrite ipv4_sum_items by (rewrite Ei; apply ipv4_items_ok, Hz). rewrite Ei.
  unfold w16. rewrite H10, H11, of_be16_be16 by (unfold u16; lia). rewrite Hc. apply cksum_reference, Hpos.
Qed.
Lemma ipv4_accepts_reference_c : forall b1 b2 b3 b4 b5 b6 b7 b8 b9 b12 b13 b14 b15 b16 b17 b18 b19 rest c,
  bytes [b1; b2; b3; b4; b5; b6; b7; b8; b9; b12; b13; b14; b15; b16; b17; b18; b19] ->
  c = rfc1071_checksum [69; b1; b2; b3; b4; b5; b6; b7; b8; b9; 0; 0; b12; b13; b14; b15; b16; b17; b18; b19] ->
  ipv4_struct_ok [69; b1; b2; b3; b4; b5; b6; b7; b8; b9; c / 256 mod 256; c mod 256;
                  b12; b13; b14; b15; b16; b17; b18; b19] = true ->
  exists h, ipv4_decode true true true
              ([69; b1; b2; b3; b4; b5; b6; b7; b8; b9; c / 256 mod 256; c mod 256;
                b12; b13; b14; b15; b16; b17; b18; b19] ++ rest) = Ok h /\
            h = rfc791_fields [69; b1; b2; b3; b4; b5; b6; b7; b8; b9; c / 256 mod 256; c mod 256;
                               b12; b13; b14; b15; b16; b17; b18; b19].
Proof.
  intros b1 b2 b3 b4 b5 b6 b7 b8 b9 b12 b13 b14 b15 b16 b17 b18 b19 rest c Hb Hc Hs.
  repeat (apply bytes_cons in Hb; let B := fresh "B" in destruct Hb as [B Hb]).
  set (zeroed := [69; b1; b2; b3; b4; b5; b6; b7; b8; b9; 0; 0; b12; b13; b14; b15; b16; b17; b18; b19]) in *.
  set (hdr := [69; b1; b2; b3; b4; b5; b6; b7; b8; b9; c / 256 mod 256; c mod 256;
               b12; b13; b14; b15; b16; b17; b18; b19]) in *.
  assert (Hz : bytes zeroed).
  { repeat (apply bytes_cons; split; [auto with ck|]). constructor. }
  assert (Hh : bytes hdr).
  { repeat (apply bytes_cons; split; [assumption || (unfold byte; lia)|]). constructor. }
  exists (ipv4_view (hdr ++ rest)). split.
  - apply (ipv4_accepts_field (hdr ++ rest) zeroed c Hz);
      [cbn; lia | cbn; lia | reflexivity | reflexivity | reflexivity | exact Hc | reflexivity | reflexivity |].
    exact (proj1 (ipv4_struct_ok_iff hdr) Hs).
  - rewrite <- (ipv4_view_fields_rfc hdr Hh) by (cbn; lia). reflexivity.
Qed.
(* before the repair: a conforming header whose other words sum to 0xffff
   (field 0x0000) was rejected; after it the same string is accepted *)
Definition ipv4_ffff_witness : list Z :=
  [69; 240; 108; 207; 192; 210; 42; 223; 163; 205; 0; 0; 211; 117; 234; 74; 0; 0; 0; 0].
(* before the total-length repair: total_length < 20 was accepted and the
   re-encoding of the accepted value panics *)
Definition ipv4_totlen_witness : list Z :=
  [69; 0; 0; 0; 0; 0; 0; 0; 0; 0; 0; 0; 0; 0; 0; 0; 0; 0; 0; 0].
Lemma ipv4_encode_decode_orig : forall fck ck bs h, bytes bs ->
  (ck = false \/ fck = false) ->
  ipv4_decode fck false ck bs = Ok h -> 20 <= ip_len h -> ipv4_encode ck h = Ok (firstn 20 bs).
Proof.
  intros fck ck bs h Hb Hmode H Hlen.
  apply ipv4_encode_decode with (fck := fck); try assumption.
  apply ipv4_decode_ok_iff in H as (L & (Hv & Hi & Ht & _ & Hfl) & Hm & ->).
  apply ipv4_decode_ok_iff. unfold ipv4_struct. auto 10.
Qed.

(* with checksums computed, the repaired decoder hands on the received field;
   the one case where re-encoding differs (outside C08's default build) *)
Lemma ipv4_encode_decode_ck_corner :
  exists h, ipv4_decode true true true ipv4_ffff_witness = Ok h /\
            ipv4_encode true h <> Ok (firstn 20 ipv4_ffff_witness).
Proof.
  exists (mk_ipv4 5 240 27855 49362 2783 1 163 205 0 3547720266 0).
  split; [vm_compute; reflexivity|]. vm_compute. discriminate.
Qed.

Lemma firstn20_length : forall fck ftl ck bs h i, ipv4_decode fck ftl ck bs = Ok h -> (i < 20)%nat ->
  (i < length (firstn 20 bs))%nat.
Proof. intros fck ftl ck bs h i H Hi. apply ipv4_decode_ok_iff in H as (L & _). rewrite firstn_length. lia. Qed.

Lemma ipv4_decode_rfc : forall fck ftl ck prec d t r plen ident df mf frag ttl proto src dst payload,
  0 <= prec < 8 -> 0 <= d < 2 -> 0 <= t < 2 -> 0 <= r < 2 ->
  0 <= plen -> plen + 20 <= 65535 -> u16 ident -> 0 <= df < 2 -> 0 <= mf < 2 -> 0 <= frag <= 8191 ->
  u8 ttl -> u8 proto -> u32 src -> u32 dst ->
  let tos := prec * 32 + d * 16 + t * 8 + r * 4 in
  let flags := df * 2 + mf in
  let cks := ipv4_cksum ck tos (plen + 20) ident (flags * 8192 + frag) ttl proto src dst in
  ipv4_decode fck ftl ck
    (rfc791_bytes 4 5 prec d t r (plen + 20) ident df mf frag ttl proto cks src dst ++ payload)
  = Ok (mk_ipv4 5 tos (plen + 20) ident frag flags ttl proto cks src dst).
Proof.
  intros fck ftl ck prec d t r plen ident df mf frag ttl proto src dst payload
         Hprec Hd Ht Hr Hp Hp2 Hid Hdf Hmf Hfrag Httl Hpr Hsrc Hdst tos flags cks.
  destruct (ipv4_decode_encode fck ftl ck (mk_ipv4 5 tos (plen + 20) ident frag flags ttl proto cks src dst) payload)
    as (bs & He & _ & Hdec).
  { unfold ipv4_wf. cbn [ip_ihl ip_tos ip_len ip_id ip_frag ip_flags ip_ttl ip_proto ip_ck ip_src ip_dst].
    subst cks tos flags. unfold u8, u16, u32 in *. repeat split; try lia; try assumption; try reflexivity. }
  unfold ipv4_encode in He. cbn [ip_ihl ip_tos ip_len ip_id ip_frag ip_flags ip_ttl ip_proto ip_ck ip_src ip_dst] in He.
  replace (plen + 20 <? 20) with false in He by lia.
  replace (plen + 20 - 20) with plen in He by lia.
  subst cks tos flags. rewrite ipv4_matches_rfc in He by assumption.
  apply Ok_inj in He. subst bs. exact Hdec.
Qed.
