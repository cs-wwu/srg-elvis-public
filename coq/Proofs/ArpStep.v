(* C06 - what one move of the ARP transition system of Model/ArpProto.v does: the post-state as
   functions of the pre-state and the label, component by component. *)
From Coq Require Import Permutation.
From Elvis Require Import Model.Base Model.ArpProto Proofs.ListFacts.

Lemma existsb_eqb_In (x : N) (l : list N) :
  existsb (fun y => (y =? x)%N) l = true <-> In x l.
Proof.
  apply (existsb_eqb_iff (fun a b => (b =? a)%N)). intros a b. rewrite N.eqb_eq. split; congruence.
Qed.

Lemma nodupb_NoDup (l : list N) : nodupb l = true -> NoDup l.
Proof.
  apply (nd_NoDup (fun x y => (y =? x)%N) nodupb); [|reflexivity..].
  intros x y. rewrite N.eqb_eq. split; congruence.
Qed.

Lemma NoDup_app_inv {A} (l1 l2 : list A) :
  NoDup (l1 ++ l2) -> NoDup l2 /\ forall x, In x l1 -> ~ In x l2.
Proof.
  induction l1 as [|a l1 IH]; cbn [app]; intros H; [split; [exact H|intros x []]|].
  inversion H as [|? ? Hn Hnd]; subst. destruct (IH Hnd) as [H2 Hd]. split; [exact H2|].
  intros x [<-|Hx]; [intros Hi; apply Hn, in_or_app; right; exact Hi|apply Hd; exact Hx].
Qed.

Lemma NoDup_concat_nth {A} (f : A -> list N) (d : A) (l : list A) :
  NoDup (concat (map f l)) ->
  forall i j x, (i < length l)%nat -> (j < length l)%nat ->
    In x (f (nth i l d)) -> In x (f (nth j l d)) -> i = j.
Proof.
  induction l as [|a l IH]; intros Hnd i j x Hi Hj Hxi Hxj; [cbn in Hi; lia|].
  cbn [map concat] in Hnd. destruct (NoDup_app_inv _ _ Hnd) as [Htail Hsep].
  assert (Hin : forall k, (k < length l)%nat -> In x (f (nth k l d)) -> In x (concat (map f l))).
  { intros k Hk Hx. apply in_concat. exists (f (nth k l d)). split; [apply in_map, nth_In; exact Hk|exact Hx]. }
  destruct i as [|i], j as [|j]; cbn [nth length] in *.
  - reflexivity.
  - exfalso. apply (Hsep x Hxi), (Hin j); [lia|exact Hxj].
  - exfalso. apply (Hsep x Hxj), (Hin i); [lia|exact Hxi].
  - f_equal. apply (IH Htail i j x); [lia | lia | exact Hxi | exact Hxj].
Qed.

Lemma upd_same {A} (f : N -> A) k v : upd f k v k = v.
Proof. unfold upd. rewrite N.eqb_refl. reflexivity. Qed.
Lemma upd_other {A} (f : N -> A) k v x : x <> k -> upd f k v x = f x.
Proof. intros H. unfold upd. destruct (N.eqb_spec x k); [contradiction|reflexivity]. Qed.
Lemma updn_same {A} (f : nat -> A) k v : updn f k v k = v.
Proof. unfold updn. rewrite Nat.eqb_refl. reflexivity. Qed.
Lemma updn_other {A} (f : nat -> A) k v x : x <> k -> updn f k v x = f x.
Proof. intros H. unfold updn. destruct (Nat.eqb_spec x k); [contradiction|reflexivity]. Qed.

Lemma claimsb_In cfg m ip : claimsb cfg m ip = true <-> In ip (claims_of cfg m).
Proof. unfold claimsb. apply existsb_eqb_In. Qed.

Lemma packet_eqb_eq a b : packet_eqb a b = true -> a = b.
Proof.
  unfold packet_eqb. intros H.
  repeat (apply andb_true_iff in H; destruct H as [H ?]).
  destruct a as [oa a1 a2 a3 a4], b as [ob b1 b2 b3 b4]. cbn in *.
  repeat match goal with E : (_ =? _)%N = true |- _ => apply N.eqb_eq in E end.
  destruct oa, ob; try discriminate; subst; reflexivity.
Qed.

Lemma remove1_perm p m l l' : remove1 p m l = Some l' -> Permutation l ((p, m) :: l').
Proof.
  revert l'. induction l as [|[q k] l IH]; intros l' H; [discriminate|].
  cbn [remove1] in H. destruct (packet_eqb p q && Nat.eqb m k) eqn:He.
  - apply andb_true_iff in He. destruct He as [He1 He2].
    apply packet_eqb_eq in He1. apply Nat.eqb_eq in He2. inversion H. subst. apply Permutation_refl.
  - destruct (remove1 p m l) as [r|]; [|discriminate]. inversion H; subst.
    eapply perm_trans; [apply perm_skip, IH; reflexivity | apply perm_swap].
Qed.

Lemma remove1_In p m l l' : remove1 p m l = Some l' -> In (p, m) l /\ forall x, In x l' -> In x l.
Proof.
  intros H. apply remove1_perm, Permutation_sym in H.
  split; [|intros x Hx]; apply (Permutation_in _ H); [left; reflexivity | right; exact Hx].
Qed.

Lemma route_dest cfg dst p q d : In (q, d) (route cfg dst p) -> q = p /\ (d < n_machs cfg)%nat.
Proof.
  assert (Hall : forall l, (forall i, In i l -> (i < n_machs cfg)%nat) ->
                      In (q, d) (map (fun i => (p, i)) l) -> q = p /\ (d < n_machs cfg)%nat).
  { intros l Hl Hin. apply in_map_iff in Hin. destruct Hin as (i & He & Hi). inversion He; subst. auto. }
  assert (Hseq : forall i, In i (all_machs cfg) -> (i < n_machs cfg)%nat).
  { intros i Hi. unfold all_machs in Hi. apply in_seq in Hi. lia. }
  unfold route. destruct dst as [d0|]; [|apply Hall; exact Hseq].
  destruct (d0 =? BROADCAST_MAC)%N; [apply Hall; exact Hseq|].
  apply Hall. intros i Hi. unfold with_mac in Hi. apply filter_In in Hi. apply Hseq. tauto.
Qed.

Lemma time_ok_spec s t :
  time_ok s t = true <->
  (st_now s <= t)%Z /\ forall rid, In rid (st_rids s) -> res_time_ok s t rid = true.
Proof. unfold time_ok. rewrite andb_true_iff, Z.leb_le, forallb_forall. reflexivity. Qed.

Lemma upd_some_local {A} (f : N -> option A) ip (v : A) x :
  upd f ip (Some v) x <> None <-> (f x <> None \/ x = ip).
Proof.
  unfold upd. destruct (N.eqb_spec x ip) as [->|Hne]; split; auto; [intros _; discriminate|].
  intros [H|H]; [exact H | contradiction].
Qed.

Lemma listen_local ms ip x :
  ms_local (listen ms ip) x <> None <-> (ms_local ms x <> None \/ x = ip).
Proof.
  unfold listen. destruct (ms_local ms ip) eqn:Hl; [|apply upd_some_local].
  split; [auto|]. intros [H| ->]; [exact H | congruence].
Qed.
Lemma listen_table ms ip : ms_table (listen ms ip) = ms_table ms.
Proof. unfold listen. destruct (ms_local ms ip); reflexivity. Qed.
Lemma listen_flipped ms ip : ms_flipped (listen ms ip) = ms_flipped ms.
Proof. unfold listen. destruct (ms_local ms ip); reflexivity. Qed.

Lemma set_subnet_local ms ip sn x :
  ms_local (set_subnet ms ip sn) x <> None <-> (ms_local ms x <> None \/ x = ip).
Proof. apply upd_some_local. Qed.

Lemma demux_state cfg m ms p : fst (demux cfg m ms p) = set_mac ms (pk_sip p) (pk_smac p).
Proof.
  unfold demux.
  destruct (pk_oper p); [|reflexivity].
  destruct (ms_local (set_mac ms (pk_sip p) (pk_smac p)) (pk_tip p)); [|reflexivity].
  destruct (send_pci _ _ _); reflexivity.
Qed.

(* every frame that demux emits is the reply of arp.rs:114-119, emitted because the request's
   target address is local, and addressed to the tap that owns the requester's MAC *)
Lemma demux_frames cfg m ms p q d :
  In (q, d) (snd (demux cfg m ms p)) ->
  pk_oper p = Request /\ ms_local ms (pk_tip p) <> None /\ q = reply_of cfg m p /\
  (d < n_machs cfg)%nat /\ (ARP_SIZE <= cfg_mtu cfg)%N /\
  (pk_smac p = BROADCAST_MAC \/ mac_of cfg d = pk_smac p).
Proof.
  unfold demux.
  destruct (pk_oper p) eqn:Ho; [|cbn; contradiction].
  cbn [set_mac ms_local].
  destruct (ms_local ms (pk_tip p)) eqn:Hl; [|cbn; contradiction].
  unfold send_pci. destruct (N.ltb_spec (cfg_mtu cfg) ARP_SIZE) as [Hm|Hm]; [cbn; contradiction|].
  cbn [snd]. intros Hin.
  destruct (route_dest _ _ _ _ _ Hin) as [-> Hd].
  repeat split; auto; try congruence.
  unfold route in Hin. destruct (N.eqb_spec (pk_smac p) BROADCAST_MAC) as [Hb|Hb]; [left; exact Hb|].
  right. apply in_map_iff in Hin. destruct Hin as (i & He & Hi). inversion He; subst.
  unfold with_mac in Hi. apply filter_In in Hi. destruct Hi as [_ Hi]. apply N.eqb_eq in Hi. exact Hi.
Qed.

(* the five point operations on a machine, and what each does to the three fields *)
Inductive mop : Type :=
| MId | MListen (ip : N) | MSetSubnet (ip : N) (sn : subnet_info) | MSetMac (ip mac : N) | MFail (ip : N).

Definition apply_mop (op : mop) (ms : mstate) : mstate :=
  match op with
  | MId => ms
  | MListen ip => listen ms ip
  | MSetSubnet ip sn => set_subnet ms ip sn
  | MSetMac ip mac => set_mac ms ip mac
  | MFail ip => fail_mac ms ip
  end.

Lemma mop_table op ms x : ms_table (apply_mop op ms) x =
  match op with
  | MSetMac ip mac => if (x =? ip)%N then Some (SOk mac) else ms_table ms x
  | MFail ip => if (x =? ip)%N then Some SFailed else ms_table ms x
  | _ => ms_table ms x
  end.
Proof. destruct op; cbn [apply_mop]; try reflexivity. rewrite listen_table. reflexivity. Qed.

Lemma mop_flipped op ms x : ms_flipped (apply_mop op ms) x =
  match op with
  | MSetMac ip _ =>
      match ms_table ms ip with Some SFailed => (x =? ip)%N || ms_flipped ms x | _ => ms_flipped ms x end
  | _ => ms_flipped ms x
  end.
Proof.
  destruct op; cbn [apply_mop]; try reflexivity; [rewrite listen_flipped; reflexivity|].
  cbn [set_mac ms_flipped]. destruct (ms_table ms ip) as [[|]|]; reflexivity.
Qed.

Lemma mop_local op ms x : ms_local (apply_mop op ms) x <> None <->
  ms_local ms x <> None \/ match op with MListen ip | MSetSubnet ip _ => x = ip | _ => False end.
Proof.
  destruct op; cbn [apply_mop]; [tauto|apply listen_local|apply set_subnet_local|cbn; tauto|cbn; tauto].
Qed.

Definition with_phase (r : resolver) (ph : phase) : resolver :=
  mkRes (r_mach r) (r_pair r) (r_sub r) (r_dest r) (r_born r) ph.

Definition start_sub (s : state) (m : nat) (p : pair) : option subnet_info :=
  match ms_local (listen (st_machs s m) (p_local p)) (p_local p) with Some inner => inner | None => None end.

(* arp.rs:202-216: the first phase of a resolver, given the table entry of its destination *)
Definition start_phase (cfg : config) (entry : option status) (t : Z) : phase :=
  match entry with
  | Some st => PDone st t CCache
  | None => if (cfg_mtu cfg <? ARP_SIZE)%N then PDone SFailed t CSend else PWait 1 (t + RESEND_DELAY)
  end.

Definition started (cfg : config) (s : state) (t : Z) (m : nat) (p : pair) : resolver :=
  let sub := start_sub s m p in
  let dest := target sub p in
  mkRes m p sub dest t (start_phase cfg (ms_table (st_machs s m) dest) t).

(* arp.rs:216-223: the phase after a poll *)
Definition poll_phase (cfg : config) (s : state) (t : Z) (r : resolver) : phase :=
  match r_phase r with
  | PWait k _ =>
      match ms_table (st_machs s (r_mach r)) (r_dest r) with
      | Some st => PDone st t CCache
      | None =>
          if (k <? RESEND_TRIES)%N
          then if (cfg_mtu cfg <? ARP_SIZE)%N then PDone SFailed t CSend else PWait (k + 1) (t + RESEND_DELAY)
          else PDone SFailed t CBudget
      end
  | ph => ph
  end.

(* a resolver that goes on waiting has just broadcast a request *)
Definition with_request (cfg : config) (net : list (packet * nat)) (r : resolver) : list (packet * nat) :=
  match r_phase r with
  | PWait _ _ => net ++ route cfg None (request_of cfg (r_mach r) (p_local (r_pair r)) (r_dest r))
  | PDone _ _ _ => net
  end.

Definition mop_of (cfg : config) (s : state) (t : Z) (l : label) : nat * mop :=
  match l with
  | LListen m ip => (m, MListen ip)
  | LSetSubnet m ip sn => (m, MSetSubnet ip sn)
  | LStart m _ p _ => (m, MListen (p_local p))
  | LPoll rid =>
      match st_res s rid with
      | Some r => (r_mach r, match poll_phase cfg s t r with PDone _ _ CBudget => MFail (r_dest r) | _ => MId end)
      | None => (O, MId)
      end
  | LDeliver p m => (m, MSetMac (pk_sip p) (pk_smac p))
  | LDrop _ _ | LDup _ _ => (O, MId)
  end.

Definition res_after (cfg : config) (s : state) (t : Z) (l : label) (rid : N) : option resolver :=
  match l with
  | LStart m rid0 p _ => if (rid =? rid0)%N then Some (started cfg s t m p) else st_res s rid
  | LPoll rid0 =>
      if (rid =? rid0)%N
      then match st_res s rid0 with Some r => Some (with_phase r (poll_phase cfg s t r)) | None => None end
      else st_res s rid
  | _ => st_res s rid
  end.

Definition net_after (cfg : config) (s : state) (t : Z) (l : label) : list (packet * nat) :=
  match l with
  | LStart m _ p _ => with_request cfg (st_net s) (started cfg s t m p)
  | LPoll rid =>
      match st_res s rid with
      | Some r => with_request cfg (st_net s) (with_phase r (poll_phase cfg s t r))
      | None => st_net s
      end
  | LDeliver p m =>
      match remove1 p m (st_net s) with Some rest => rest | None => [] end ++ snd (demux cfg m (st_machs s m) p)
  | LDrop p m => match remove1 p m (st_net s) with Some rest => rest | None => [] end
  | LDup p m => st_net s ++ [(p, m)]
  | _ => st_net s
  end.

Definition guard (cfg : config) (s : state) (t : Z) (l : label) : Prop :=
  time_ok s t = true /\
  match l with
  | LListen m ip | LSetSubnet m ip _ => (m < n_machs cfg)%nat /\ In ip (claims_of cfg m)
  | LStart m rid p slot =>
      (m < n_machs cfg)%nat /\ In (p_local p) (claims_of cfg m) /\ st_res s rid = None
  | LPoll rid =>
      exists r k dl, st_res s rid = Some r /\ r_phase r = PWait k dl /\
        (ms_table (st_machs s (r_mach r)) (r_dest r) = None -> t = dl)
  | LDeliver p m | LDrop p m | LDup p m => In (p, m) (st_net s)
  end.

Lemma updn_mop (f : nat -> mstate) m op o :
  updn f m (apply_mop op (f m)) o = if Nat.eqb o m then apply_mop op (f o) else f o.
Proof. unfold updn. destruct (Nat.eqb_spec o m) as [->|]; reflexivity. Qed.

Lemma step_post cfg s t l s' : step cfg s (t, l) = Ok s' ->
  guard cfg s t l /\ st_now s' = t /\
  (forall o, st_machs s' o =
     if Nat.eqb o (fst (mop_of cfg s t l)) then apply_mop (snd (mop_of cfg s t l)) (st_machs s o) else st_machs s o) /\
  (forall rid, st_res s' rid = res_after cfg s t l rid) /\
  st_rids s' = match l with LStart _ rid _ _ => rid :: st_rids s | _ => st_rids s end /\
  st_net s' = net_after cfg s t l.
Proof.
  unfold step, guard. destruct (time_ok s t); cbn [negb]; [|discriminate].
  destruct l as [m ip|m ip sn|m rid p slot|rid|p m|p m|p m]; cbn [mop_of res_after net_after fst snd].
  6,7: destruct (remove1 p m (st_net s)) as [rest|] eqn:Hrm; [|discriminate]; apply remove1_In in Hrm;
       intros H; inversion H; cbn [st_now st_machs st_res st_rids st_net]; repeat split; auto;
       [apply (proj1 Hrm)|]; intros o; destruct (Nat.eqb o 0); reflexivity.
  1,2: destruct (Nat.ltb_spec m (n_machs cfg)) as [Hm|Hm]; cbn [negb]; [|discriminate];
       destruct (claimsb cfg m ip) eqn:Hc; cbn [negb]; [|discriminate]; apply claimsb_In in Hc;
       intros H; inversion H; cbn [set_mach st_now st_machs st_res st_rids st_net]; rewrite app_nil_r;
       repeat split; auto; intros o.
  - exact (updn_mop _ _ (MListen ip) o).
  - exact (updn_mop _ _ (MSetSubnet ip sn) o).
  - destruct (Nat.ltb_spec m (n_machs cfg)) as [Hm|Hm]; cbn [negb]; [|discriminate].
    destruct (claimsb cfg m (p_local p)) eqn:Hc; cbn [negb]; [|discriminate]. apply claimsb_In in Hc.
    destruct (st_res s rid) eqn:Hr; [discriminate|].
    unfold start_resolve, started, start_phase, with_request, send_pci. rewrite listen_table.
    fold (start_sub s m p).
    destruct (ms_table (st_machs s m) (target (start_sub s m p) p));
      [|destruct (1 <=? slot)%N; [discriminate|destruct (cfg_mtu cfg <? ARP_SIZE)%N]];
      intros H; inversion H; cbn [st_now st_machs st_res st_rids st_net]; repeat split; auto;
      intros o; exact (updn_mop _ _ (MListen (p_local p)) o).
  - unfold poll_resolve, poll_phase, with_request, with_phase, send_pci.
    destruct (st_res s rid) as [r|] eqn:Hr; [|discriminate].
    destruct (r_phase r) as [k dl|] eqn:Hp; [|discriminate]. cbn [fst snd r_phase r_mach r_pair r_dest].
    destruct (ms_table (st_machs s (r_mach r)) (r_dest r)) eqn:Ht.
    + intros H. inversion H. cbn [st_now st_machs st_res st_rids st_net].
      split; [split; [reflexivity|]; exists r, k, dl; split; [reflexivity|split; [exact Hp|congruence]]|].
      repeat split; auto. intros o. exact (updn_mop _ _ MId o).
    + destruct (Z.eqb_spec t dl) as [->|]; cbn [negb]; [|discriminate].
      split; [split; [reflexivity|]; exists r, k, dl; auto|]. revert H.
      destruct (k <? RESEND_TRIES)%N; [destruct (cfg_mtu cfg <? ARP_SIZE)%N|]; intros H; inversion H;
        cbn [st_now st_machs st_res st_rids st_net]; repeat split; auto; intros o;
        [exact (updn_mop _ _ MId o)..|exact (updn_mop _ _ (MFail (r_dest r)) o)].
  - destruct (remove1 p m (st_net s)) as [rest|] eqn:Hrm; [|discriminate]. apply remove1_In in Hrm.
    pose proof (demux_state cfg m (st_machs s m) p) as Hd.
    destruct (demux cfg m (st_machs s m) p) as [ms' fr]. cbn [fst snd] in *. subst ms'.
    intros H. inversion H. cbn [st_now st_machs st_res st_rids st_net]. repeat split; auto; [apply (proj1 Hrm)|].
    intros o. exact (updn_mop _ _ (MSetMac (pk_sip p) (pk_smac p)) o).
Qed.

Lemma start_phase_done cfg e t st t' c : start_phase cfg e t = PDone st t' c ->
  t' = t /\ match c with
            | CCache => e = Some st
            | CSend => st = SFailed /\ e = None /\ (cfg_mtu cfg < ARP_SIZE)%N
            | CBudget => False
            end.
Proof.
  unfold start_phase. destruct e; [intros H; inversion H; auto|].
  destruct (N.ltb_spec (cfg_mtu cfg) ARP_SIZE) as [Hm|Hm]; intros H; inversion H; auto.
Qed.

Lemma start_phase_wait cfg e t k dl : start_phase cfg e t = PWait k dl ->
  e = None /\ k = 1%N /\ dl = (t + RESEND_DELAY)%Z /\ (ARP_SIZE <= cfg_mtu cfg)%N.
Proof.
  unfold start_phase. destruct e; [discriminate|].
  destruct (N.ltb_spec (cfg_mtu cfg) ARP_SIZE) as [Hm|Hm]; intros H; inversion H; auto.
Qed.

Lemma poll_phase_done cfg s t r k dl st t' c : r_phase r = PWait k dl ->
  poll_phase cfg s t r = PDone st t' c ->
  t' = t /\ match c with
            | CCache => ms_table (st_machs s (r_mach r)) (r_dest r) = Some st
            | CSend => st = SFailed /\ ms_table (st_machs s (r_mach r)) (r_dest r) = None /\ (cfg_mtu cfg < ARP_SIZE)%N
            | CBudget => st = SFailed /\ ms_table (st_machs s (r_mach r)) (r_dest r) = None /\ (RESEND_TRIES <= k)%N
            end.
Proof.
  unfold poll_phase. intros ->. destruct (ms_table _ _); [intros H; inversion H; auto|].
  destruct (N.ltb_spec k RESEND_TRIES) as [Hk|Hk]; [destruct (N.ltb_spec (cfg_mtu cfg) ARP_SIZE) as [Hm|Hm]|];
    intros H; inversion H; auto.
Qed.

Lemma poll_phase_wait cfg s t r k dl k' dl' : r_phase r = PWait k dl ->
  poll_phase cfg s t r = PWait k' dl' ->
  ms_table (st_machs s (r_mach r)) (r_dest r) = None /\ (k < RESEND_TRIES)%N /\ k' = (k + 1)%N /\
  dl' = (t + RESEND_DELAY)%Z /\ (ARP_SIZE <= cfg_mtu cfg)%N.
Proof.
  unfold poll_phase. intros ->. destruct (ms_table _ _); [discriminate|].
  destruct (N.ltb_spec k RESEND_TRIES) as [Hk|Hk]; [destruct (N.ltb_spec (cfg_mtu cfg) ARP_SIZE) as [Hm|Hm]|];
    intros H; inversion H; auto.
Qed.

Definition listens_new (l : label) (o : nat) (x : N) : Prop :=
  match l with
  | LListen m ip | LSetSubnet m ip _ => o = m /\ x = ip
  | LStart m _ p _ => o = m /\ x = p_local p
  | _ => False
  end.

Lemma step_local cfg s t l s' o x : step cfg s (t, l) = Ok s' ->
  (ms_local (st_machs s' o) x <> None <-> ms_local (st_machs s o) x <> None \/ listens_new l o x) /\
  (listens_new l o x -> (o < n_machs cfg)%nat /\ In x (claims_of cfg o)).
Proof.
  intros Hs. destruct (step_post _ _ _ _ _ Hs) as ((_ & Hg) & _ & Hm & _). rewrite Hm.
  split.
  - destruct (Nat.eqb_spec o (fst (mop_of cfg s t l))) as [E|E].
    + rewrite mop_local. destruct l; cbn [mop_of fst snd listens_new] in *; try tauto.
      destruct (st_res s r); cbn [snd]; [|tauto]. destruct (poll_phase cfg s t r0) as [|? ? []]; tauto.
    + destruct l; cbn [mop_of fst listens_new] in *; tauto.
  - destruct l; cbn [listens_new]; try contradiction; intros [-> ->]; tauto.
Qed.

(* how one table entry can move: an exhausted budget fills an empty entry with the failure, a
   delivery overwrites anything with the sender pair of the frame *)
Lemma step_table cfg s t l s' m D : step cfg s (t, l) = Ok s' ->
  ms_table (st_machs s' m) D = ms_table (st_machs s m) D \/
  (ms_table (st_machs s m) D = None /\ ms_table (st_machs s' m) D = Some SFailed /\
   exists rid r, l = LPoll rid /\ st_res s rid = Some r /\ r_mach r = m /\ r_dest r = D /\
                 poll_phase cfg s t r = PDone SFailed t CBudget) \/
  (exists p, l = LDeliver p m /\ pk_sip p = D /\ In (p, m) (st_net s) /\
             ms_table (st_machs s' m) D = Some (SOk (pk_smac p))).
Proof.
  intros Hs. destruct (step_post _ _ _ _ _ Hs) as ((_ & Hg) & _ & Hm & _). rewrite Hm.
  destruct (Nat.eqb_spec m (fst (mop_of cfg s t l))) as [E|]; [|auto]. rewrite mop_table.
  destruct l; cbn [mop_of fst snd] in *; auto.
  - destruct Hg as (r0 & k & dl & Hr & Hp & _). rewrite Hr in *. cbn [fst snd] in *.
    destruct (poll_phase cfg s t r0) as [|st t' []] eqn:Hph; auto.
    destruct (poll_phase_done _ _ _ _ _ _ _ _ _ Hp Hph) as (-> & -> & Hn & _).
    destruct (N.eqb_spec D (r_dest r0)) as [->|]; [|auto]. subst m. right. left. eauto 10.
  - subst m0. destruct (N.eqb_spec D (pk_sip p)) as [->|]; [|auto]. right. right. eauto.
Qed.

Lemma step_budget cfg s t rid s' r st t' : step cfg s (t, LPoll rid) = Ok s' -> st_res s rid = Some r ->
  poll_phase cfg s t r = PDone st t' CBudget -> ms_table (st_machs s' (r_mach r)) (r_dest r) = Some SFailed.
Proof.
  intros Hs Hr Hph. destruct (step_post _ _ _ _ _ Hs) as (_ & _ & Hm & _). rewrite Hm. cbn [mop_of].
  rewrite Hr, Hph. cbn [fst snd]. rewrite Nat.eqb_refl, mop_table, N.eqb_refl. reflexivity.
Qed.

Definition sends (s : state) (l : label) (o : nat) (ip : N) : Prop :=
  match l with
  | LStart m _ p _ => o = m /\ ip = p_local p
  | LPoll rid => exists r, st_res s rid = Some r /\ o = r_mach r /\ ip = p_local (r_pair r)
  | LDeliver p m => o = m /\ ip = pk_tip p /\ ms_local (st_machs s m) ip <> None
  | _ => False
  end.

Lemma step_net cfg s t l s' q d : step cfg s (t, l) = Ok s' -> In (q, d) (st_net s') ->
  In (q, d) (st_net s) \/
  ((d < n_machs cfg)%nat /\ exists o, pk_smac q = mac_of cfg o /\ sends s l o (pk_sip q)).
Proof.
  intros Hs. destruct (step_post _ _ _ _ _ Hs) as ((_ & Hg) & _ & _ & _ & _ & Hnet). rewrite Hnet.
  assert (Hreq : forall r, In (q, d) (with_request cfg (st_net s) r) -> In (q, d) (st_net s) \/
            ((d < n_machs cfg)%nat /\ pk_smac q = mac_of cfg (r_mach r) /\ pk_sip q = p_local (r_pair r))).
  { intros r. unfold with_request. destruct (r_phase r); [|auto]. intros H.
    apply in_app_or in H. destruct H as [H|H]; [auto|]. apply route_dest in H. destruct H as [-> Hd]. auto. }
  destruct l as [| |m rid p slot|rid|p m|p m|p m]; cbn [net_after sends]; auto.
  - intros H. destruct (Hreq _ H) as [|(Hd & E1 & E2)]; [auto|]. right. split; [exact Hd|]. exists m. auto.
  - destruct Hg as (r & k & dl & Hr & _). rewrite Hr. intros H.
    destruct (Hreq _ H) as [|(Hd & E1 & E2)]; [auto|]. right. split; [exact Hd|]. exists (r_mach r). eauto.
  - destruct (remove1 p m (st_net s)) as [rest|] eqn:Hrm; intros H; apply in_app_or in H; destruct H as [H|H].
    + left. apply (remove1_In _ _ _ _ Hrm). exact H.
    + apply demux_frames in H. destruct H as (_ & Hl & -> & Hd & _). right. split; [exact Hd|]. exists m. auto.
    + contradiction.
    + apply demux_frames in H. destruct H as (_ & Hl & -> & Hd & _). right. split; [exact Hd|]. exists m. auto.
  - destruct (remove1 p m (st_net s)) as [rest|] eqn:Hrm; [|contradiction].
    intros H. left. apply (remove1_In _ _ _ _ Hrm). exact H.
  - intros H. apply in_app_or in H. destruct H as [H|[H|[]]]; [auto|]. inversion H; subst. auto.
Qed.

Lemma res_step cfg s t l s' rid r : step cfg s (t, l) = Ok s' -> st_res s rid = Some r ->
  (l <> LPoll rid /\ st_res s' rid = Some r) \/
  (l = LPoll rid /\ (exists k dl, r_phase r = PWait k dl) /\
   st_res s' rid = Some (with_phase r (poll_phase cfg s t r))).
Proof.
  intros Hs Hr. destruct (step_post _ _ _ _ _ Hs) as ((_ & Hg) & _ & _ & Hres & _). rewrite Hres.
  destruct l as [| |m rid0 p slot|rid0| | |]; cbn [res_after];
    try (left; split; [discriminate|exact Hr]).
  - left. split; [discriminate|]. destruct (N.eqb_spec rid rid0) as [->|]; [|exact Hr].
    destruct Hg as (_ & _ & Hn). congruence.
  - destruct (N.eqb_spec rid rid0) as [->|]; [|left; split; [congruence|exact Hr]]. right. rewrite Hr.
    destruct Hg as (r0 & k & dl & Hr0 & Hp & _). rewrite Hr in Hr0. inversion Hr0. eauto.
Qed.

Lemma res_step_inv cfg s t l s' rid r' : step cfg s (t, l) = Ok s' -> st_res s' rid = Some r' ->
  st_res s rid = Some r' \/
  (exists m p slot, l = LStart m rid p slot /\ (m < n_machs cfg)%nat /\ r' = started cfg s t m p) \/
  (exists r k dl, l = LPoll rid /\ st_res s rid = Some r /\ r_phase r = PWait k dl /\
     (ms_table (st_machs s (r_mach r)) (r_dest r) = None -> t = dl) /\
     r' = with_phase r (poll_phase cfg s t r)).
Proof.
  intros Hs. destruct (step_post _ _ _ _ _ Hs) as ((_ & Hg) & _ & _ & Hres & _). rewrite Hres.
  destruct l as [| |m rid0 p slot|rid0| | |]; cbn [res_after]; auto.
  - destruct (N.eqb_spec rid rid0) as [->|]; [|auto]. intros H. inversion H. right. left.
    exists m, p, slot. split; [reflexivity|]. split; [apply Hg|reflexivity].
  - destruct (N.eqb_spec rid rid0) as [->|]; [|auto]. destruct Hg as (r & k & dl & Hr & Hp & Ht).
    rewrite Hr. intros H. inversion H. right. right. exists r, k, dl. auto.
Qed.

Lemma step_flipped cfg s t l s' m D : step cfg s (t, l) = Ok s' ->
  ms_flipped (st_machs s' m) D =
  ms_flipped (st_machs s m) D ||
  match l with
  | LDeliver p m0 => Nat.eqb m m0 && (D =? pk_sip p)%N &&
                     match ms_table (st_machs s m) D with Some SFailed => true | _ => false end
  | _ => false
  end.
Proof.
  intros Hs. destruct (step_post _ _ _ _ _ Hs) as (_ & _ & Hm & _). rewrite Hm.
  destruct l as [| | |rid|p m0| |]; cbn [mop_of fst snd];
    try (destruct (Nat.eqb m _); [rewrite mop_flipped|]; rewrite orb_false_r; reflexivity).
  - destruct (st_res s rid) as [r|]; cbn [fst snd]; destruct (Nat.eqb m _);
      rewrite ?mop_flipped, orb_false_r; try reflexivity.
    destruct (poll_phase cfg s t r) as [|? ? []]; reflexivity.
  - destruct (Nat.eqb_spec m m0) as [->|]; [|rewrite orb_false_r; reflexivity]. rewrite mop_flipped.
    destruct (N.eqb_spec D (pk_sip p)) as [->|]; cbn [andb].
    + destruct (ms_table (st_machs s m0) (pk_sip p)) as [[|]|]; rewrite ?orb_false_r, ?orb_true_r; reflexivity.
    + rewrite orb_false_r. destruct (ms_table (st_machs s m0) (pk_sip p)) as [[|]|]; reflexivity.
Qed.

Lemma start_res cfg s t m rid p slot s' :
  step cfg s (t, LStart m rid p slot) = Ok s' -> st_res s' rid = Some (started cfg s t m p).
Proof.
  intros H. destruct (step_post _ _ _ _ _ H) as (_ & _ & _ & Hres & _). rewrite Hres.
  cbn [res_after]. rewrite N.eqb_refl. reflexivity.
Qed.

Lemma done_stable cfg s x s' rid r st t c :
  step cfg s x = Ok s' -> st_res s rid = Some r -> r_phase r = PDone st t c -> st_res s' rid = Some r.
Proof.
  destruct x as [t0 l]. intros Hs Hr Hp.
  destruct (res_step _ _ _ _ _ _ _ Hs Hr) as [[_ E]|(_ & (k & dl & Hp') & _)]; [exact E|congruence].
Qed.

Lemma run_app cfg tr1 : forall tr2 s s1 s2,
  run cfg s tr1 = Ok s1 -> run cfg s1 tr2 = Ok s2 -> run cfg s (tr1 ++ tr2) = Ok s2.
Proof.
  induction tr1 as [|x tr1 IH]; intros tr2 s s1 s2 H1 H2; cbn [run app] in *.
  - inversion H1; subst. exact H2.
  - destruct (step cfg s x) as [s'| | |]; cbn [bind] in *; try discriminate. eapply IH; eauto.
Qed.

Lemma run_inv cfg (P : state -> Prop) (G : state -> list (Z * label) -> Prop) :
  (forall s x tr s', G s (x :: tr) -> P s -> step cfg s x = Ok s' -> P s' /\ G s' tr) ->
  forall tr s s', P s -> G s tr -> run cfg s tr = Ok s' -> P s'.
Proof.
  intros Hstep. induction tr as [|x tr IH]; intros s s' HP HG Hrun; cbn [run] in Hrun.
  - inversion Hrun; subst. exact HP.
  - destruct (step cfg s x) as [s1| | |] eqn:Hs; cbn [bind] in Hrun; try discriminate.
    destruct (Hstep _ _ _ _ HG HP Hs). eapply IH; eauto.
Qed.
