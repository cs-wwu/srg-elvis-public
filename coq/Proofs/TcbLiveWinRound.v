(* C01 liveness: writes of any size from a quiescent state, one window per loss-free round (in the
   sender's half the first window of what is left is cut into a flight, emitted, retransmitted once by
   the 101 ms tick, delivered and read); the schedule lemma shared by the recovery theorems; writes of
   at most one window or one MSS as special cases. *)
From Elvis Require Import Model.Base Model.U32 Model.Tcb Model.TcpNet Proofs.U32Facts Proofs.TcbSafetyDefs
  Proofs.TcbSafetyBase Proofs.TcbSafetySnd Proofs.TcbSafetySys Proofs.TcbLive Proofs.TcbLiveSys Proofs.TcbLiveThm
  Proofs.TcbLiveWin Proofs.TcbLiveWinSys Proofs.TcbLiveMidSys Proofs.TcbLiveEnd.
Local Open Scope Z_scope.

Lemma flush2_write t a b bytes : writer t a b bytes -> 0 < zlen bytes ->
  let m := Z.min (zlen bytes) 65535 in
  exists t' segs, flush2 t = Some (t', segs ++ segs) /\
    sending t' a (wadd a m) b segs (skipn (Z.to_nat m) bytes) /\
    flight (lport t) (rport t) b a segs /\ flight_bytes segs = firstn (Z.to_nat m) bytes /\
    segs <> [] /\ mtu t' = mtu t.
Proof.
  intros (W1 & W2 & W3 & W4 & W5 & W6 & W7 & W8 & W9 & W10 & W11 & W12 & W13 & W14 & W15 & W16 & W17) Hn m.
  set (n := zlen bytes) in *.
  assert (Hm : 0 < m <= 65535 /\ m <= n) by (subst m; lia).
  destruct (segments_flight t bytes W1 W9 W8 W7 W10 W5 W6 ltac:(congruence) ltac:(rewrite W3; exact W15) W17 Hn)
    as (segs & E1 & F & B & Hne).
  cbv zeta in E1, B. fold n in E1, B. fold m in E1, B. set (t1 := set_rto _ RTO) in E1.
  pose proof (advance_101 t1 eq_refl W14) as E2.
  change (retx t1) with (map (fun s => mkTx s false) segs) in E2. rewrite reflag_map in E2.
  set (t2 := set_retx _ _) in E2.
  assert (E3 : tcb_segments t2 =
               Ok (set_rto (set_retx (set_oneshot t2 []) (map (fun s => mkTx s false) segs)) RTO, segs)).
  { apply segments_retransmit; try reflexivity; try assumption.
    - change (st t2) with (st t). now rewrite W1.
    - change (mtu t2) with (mtu t). lia.
    - change (snd_wnd t2) with (snd_wnd t). change (snd_una t2) with (snd_una t).
      change (snd_nxt t2) with (wadd (snd_nxt t) m).
      change (out_text t2) with (skipn (Z.to_nat m) bytes).
      rewrite W5, W2, W3, (wsub_of_wadd a m W15 ltac:(lia)), zlen_skipn. fold n. lia. }
  set (t3 := set_rto _ RTO) in E3.
  rewrite W3, W4 in F.
  assert (Hfl : flight_len segs = m).
  { unfold flight_len. rewrite B, zlen_firstn. fold n. lia. }
  exists t3, segs. splits; try assumption; try reflexivity.
  - unfold flush2. rewrite E1, E2, E3. reflexivity.
  - unfold sending. subst t3 t2 t1. tcb_simpl.
    splits; try assumption; try reflexivity; try congruence; try lia.
    exists (lport t), (rport t), b. exact F.
Qed.

Lemma half_sendN c s x tx ty a b bytes :
  end_of s x = ELive tx -> end_of s (other x) = ELive ty ->
  net_of s x = [] -> net_of s (other x) = [] -> panicked s = false ->
  writer tx a b bytes -> quiet ty b a -> 0 < zlen bytes ->
  let m := Z.min (zlen bytes) 65535 in
  let s' := fair_half c s x in
  exists tx' ty' segs, end_of s' x = ELive tx' /\ end_of s' (other x) = ELive ty' /\
    net_of s' x = [] /\ net_of s' (other x) = [] /\ panicked s' = false /\
    (forall y, sub_of s' y = sub_of s y) /\ del_of s' x = del_of s x /\
    del_of s' (other x) = del_of s (other x) ++ [firstn (Z.to_nat m) bytes] /\
    sending tx' a (wadd a m) b segs (skipn (Z.to_nat m) bytes) /\ acking ty' b a (wadd a m) segs /\
    mtu tx' = mtu tx /\ mtu ty' = mtu ty.
Proof.
  intros Ex Ey Nx Ny Pn Wx Qy Hn m s'.
  destruct (flush2_write tx a b bytes Wx Hn) as (tx' & segs & Hfl & HS & F & B & Hne & Mx). fold m in HS, B.
  assert (Hm : 0 < m <= 65535 /\ m <= zlen bytes) by (subst m; lia).
  assert (Hlen : flight_len segs = m) by (unfold flight_len; rewrite B, zlen_firstn; lia).
  (* the flight and its copy: nothing was lost *)
  destruct (feed_lossy (lport tx) (rport tx) b ty a [] segs segs) as (t' & acks & Hfeed & (C & Rn & It & Os) & Hs' & Hc);
    try assumption; try apply Qy; try (cbn [app]; lia).
  { rewrite (quiet_una Qy). apply mod_leq_refl. }
  { change (flight_len []) with 0. rewrite (quiet_rcv Qy). symmetry. apply wadd_0_u32, (quiet_u32_rcv Qy). }
  { rewrite (quiet_in_text Qy), Hlen. cbn. lia. }
  { apply sublist_refl. }
  cbn [app] in Hfeed, Hc. rewrite Hlen in Rn, Hc. rewrite (quiet_rcv Qy) in Rn. rewrite (quiet_nxt Qy) in Hc.
  rewrite (quiet_in_text Qy), B in It. rewrite (quiet_oneshot Qy) in Os. cbn [app] in It, Os.
  destruct (half_send_flight c s x tx ty a b a (wadd a m) segs _ tx' _ t' (firstn (Z.to_nat m) bytes)
              Ex Ey Ny Pn Qy Hfl HS Mx ltac:(rewrite Nx; exact Hfeed)) as (tx2 & ty2 & H); try assumption.
  - apply wadd_u32.
  - rewrite Os. exact Hc.
  - exists tx2, ty2, segs.
    replace (chunk (firstn (Z.to_nat m) bytes)) with [firstn (Z.to_nat m) bytes] in H; [exact H|].
    destruct (firstn (Z.to_nat m) bytes) eqn:E0; [|reflexivity].
    apply (f_equal (@zlen Z)) in E0. rewrite zlen_firstn in E0. cbn in E0. lia.
Qed.

(* the state between flights: x still has [bytes] to send, everything else is quiescent;
   p = SND.UNA = SND.NXT of x, q = the same of the peer *)
Definition WriterState (c : config) (x : side) (s : sys) (p q : Z) (bytes : list Z) : Prop :=
  exists tx ty, end_of s x = ELive tx /\ end_of s (other x) = ELive ty /\
    writer tx p q bytes /\ quiet ty q p /\ mtu tx = mtu_of c x /\ mtu ty = mtu_of c (other x) /\
    net_of s x = [] /\ net_of s (other x) = [] /\ panicked s = false.

(* number of loss-free rounds that carry n bytes: one per window, plus one *)
Definition rounds_for (n : Z) : nat := Datatypes.S (Z.to_nat ((n + 65534) / 65535)).

Section RoundN.
  Variable c : config.

  Definition pair_round (x : side) (s : sys) : sys := fair_half c (fair_half c s x) (other x).
  Fixpoint pairs (k : nat) (x : side) (s : sys) : sys :=
    match k with O => s | Datatypes.S k' => pairs k' x (pair_round x s) end.

  Lemma quiescent_writerstate s a b x : Quiescent c s a b -> WriterState c x s (sel x a b) (sel x b a) [].
  Proof.
    intros HQ. destruct (quiescent_at c s a b x HQ) as (tx & ty & H).
    exists tx, ty. exact H.
  Qed.

  Lemma writerstate_quiescent s x p q : WriterState c x s p q [] -> Quiescent c s (sel x p q) (sel x q p).
  Proof.
    intros (tx & ty & H1 & H2 & H3 & H4 & H5 & H6 & H7 & H8 & H9).
    eapply quiescent_from; eassumption.
  Qed.

  (* two loss-free rounds in which x's half retransmits or emits a flight whose acknowledgments
     leave nothing outstanding: the peer's half empties the queue and the other two halves are idle *)
  Lemma recover_after_send x s tx ty qa qr p q R segs chunkl :
    end_of s x = ELive tx -> in_text tx = [] -> end_of s (other x) = ELive ty -> quiet ty qa qr ->
    net_of s (other x) = [] -> mtu tx = mtu_of c x -> mtu ty = mtu_of c (other x) ->
    (let s1 := fair_half c s x in
     exists tx2 ty2, end_of s1 x = ELive tx2 /\ end_of s1 (other x) = ELive ty2 /\
       net_of s1 x = [] /\ net_of s1 (other x) = [] /\ panicked s1 = false /\
       (forall y, sub_of s1 y = sub_of s y) /\ del_of s1 x = del_of s x /\
       del_of s1 (other x) = del_of s (other x) ++ chunkl /\
       sending tx2 p R q segs [] /\ acking ty2 q p R segs /\ mtu tx2 = mtu tx /\ mtu ty2 = mtu ty) ->
    let s' := fair_rounds 2 c s in
    Quiescent c s' (sel x R q) (sel x q R) /\
    (forall y, sub_of s' y = sub_of s y) /\ del_of s' x = del_of s x /\
    del_of s' (other x) = del_of s (other x) ++ chunkl.
  Proof.
    intros Ex Hit Ey Qy Ny Mx My (tx2 & ty2 & E1 & E2 & E3 & E4 & E5 & E6 & E7 & E8 & E9 & E10 & E11 & E12) s'.
    set (s1 := fair_half c s x) in *.
    assert (E1' : end_of s1 (other (other x)) = ELive tx2) by (now rewrite other_other).
    assert (E3' : net_of s1 (other (other x)) = []) by (now rewrite other_other).
    destruct (half_ack c s1 (other x) ty2 tx2 p q R segs [] E2 E1' E4 E3' E5 E10 E9)
      as (ty3 & tx3 & F1 & F2 & F3 & F4 & F5 & F6 & F7 & F8 & F9 & F10 & F11).
    cbv zeta in *. rewrite other_other in *. set (s2 := fair_half c s1 (other x)) in *.
    assert (Es' : s' = s2).
    { subst s'. cbn [fair_rounds]. destruct x; cbn [other] in *.
      - fold s1. fold s2. rewrite (half_idle c s2 SA tx3 ty3 _ _ F2 F9 F4 F1 (quiet_in_text F8)).
        apply (half_idle c s2 SB ty3 tx3 _ _ F1 F8 F3 F2 (quiet_in_text F9)).
      - rewrite (half_idle c s SA ty tx _ _ Ey Qy Ny Ex Hit). fold s1. fold s2.
        apply (half_idle c s2 SB tx3 ty3 _ _ F2 F9 F4 F1 (quiet_in_text F8)). }
    rewrite Es'. split; [eapply quiescent_from; eauto; congruence|]. splits.
    - intros y. rewrite F6. apply E6.
    - rewrite F7. exact E7.
    - rewrite F7. exact E8.
  Qed.

  Lemma pair_round_spec x s p q bytes : WriterState c x s p q bytes -> 0 < zlen bytes ->
    let m := Z.min (zlen bytes) 65535 in
    let s' := pair_round x s in
    WriterState c x s' (wadd p m) q (skipn (Z.to_nat m) bytes) /\
    (forall y, sub_of s' y = sub_of s y) /\ del_of s' x = del_of s x /\
    del_of s' (other x) = del_of s (other x) ++ [firstn (Z.to_nat m) bytes].
  Proof.
    intros (tx & ty & Ex & Ey & Wx & Qy & Mx & My & Nx & Ny & Pn) Hn m s'.
    destruct (half_sendN c s x tx ty p q bytes Ex Ey Nx Ny Pn Wx Qy Hn)
      as (tx2 & ty2 & segs & E1 & E2 & E3 & E4 & E5 & E6 & E7 & E8 & E9 & E10 & E11 & E12).
    cbv zeta in *. fold m in E8, E9, E10.
    set (s2 := fair_half c s x) in *.
    assert (E1' : end_of s2 (other (other x)) = ELive tx2) by (now rewrite other_other).
    assert (E3' : net_of s2 (other (other x)) = []) by (now rewrite other_other).
    destruct (half_ack c s2 (other x) ty2 tx2 p q (wadd p m) segs _ E2 E1' E4 E3' E5 E10 E9)
      as (ty3 & tx3 & F1 & F2 & F3 & F4 & F5 & F6 & F7 & F8 & F9 & F10 & F11).
    cbv zeta in *. rewrite other_other in *.
    subst s'. unfold pair_round. fold s2.
    split; [|split; [|split]].
    - exists tx3, ty3. splits; auto; congruence.
    - intros y. rewrite F6. apply E6.
    - rewrite F7. exact E7.
    - rewrite F7. exact E8.
  Qed.

  Lemma pair_round_idle x s p q : WriterState c x s p q [] -> pair_round x s = s.
  Proof.
    intros (tx & ty & Ex & Ey & Wx & Qy & Mx & My & Nx & Ny & Pn). unfold pair_round.
    rewrite (half_idle c s x tx ty p q Ex Wx Nx Ey (quiet_in_text Qy)).
    assert (Ex' : end_of s (other (other x)) = ELive tx) by (now rewrite other_other).
    apply (half_idle c s (other x) ty tx q p Ey Qy Ny Ex' (quiet_in_text Wx)).
  Qed.

  Lemma pairs_idle k x s p q : WriterState c x s p q [] -> pairs k x s = s.
  Proof.
    induction k as [|k IH]; intros H; cbn [pairs]; [reflexivity|].
    rewrite (pair_round_idle x s p q H). apply IH, H.
  Qed.

  Lemma pairs_spec x q : forall k bytes s p, WriterState c x s p q bytes -> zlen bytes <= 65535 * Z.of_nat k ->
    let s' := pairs k x s in
    WriterState c x s' (wadd p (zlen bytes)) q [] /\
    (forall y, sub_of s' y = sub_of s y) /\ del_of s' x = del_of s x /\
    delivered s' (other x) = delivered s (other x) ++ bytes.
  Proof.
    induction k as [|k IH]; intros bytes s p HW Hk s'.
    - assert (Hb : bytes = []) by (apply zlen_zero_nil; pose proof (zlen_nonneg bytes); lia).
      subst bytes s'. cbn [pairs]. rewrite app_nil_r. splits; auto.
      change (zlen (@nil Z)) with 0.
      destruct HW as (tx & ty & H1 & H2 & H3 & H4). 
      assert (Hu : u32 p) by apply H3. rewrite (wadd_0_u32 p Hu).
      exists tx, ty. auto.
    - destruct (Z.eq_dec (zlen bytes) 0) as [Hz|Hz].
      + assert (Hb : bytes = []) by (apply zlen_zero_nil; exact Hz). subst bytes s'.
        rewrite (pairs_idle _ x s p q HW). rewrite app_nil_r. splits; auto.
        change (zlen (@nil Z)) with 0.
        destruct HW as (tx & ty & H1 & H2 & H3 & H4).
        assert (Hu : u32 p) by apply H3. rewrite (wadd_0_u32 p Hu).
        exists tx, ty. auto.
      + pose proof (zlen_nonneg bytes) as Hn0.
        destruct (pair_round_spec x s p q bytes HW ltac:(lia)) as (HW1 & S1 & D1 & D2).
        cbv zeta in *. set (m := Z.min (zlen bytes) 65535) in *.
        set (s1 := pair_round x s) in *.
        assert (Hrest : zlen (skipn (Z.to_nat m) bytes) = zlen bytes - m) by (rewrite zlen_skipn; subst m; lia).
        destruct (IH (skipn (Z.to_nat m) bytes) s1 (wadd p m) HW1) as (HW2 & S2 & D3 & D4).
        { rewrite Hrest. subst m. lia. }
        subst s'. cbn [pairs]. fold s1. cbv zeta in *. splits.
        * rewrite Hrest, wadd_wadd in HW2. replace (m + (zlen bytes - m)) with (zlen bytes) in HW2 by lia. exact HW2.
        * intros y. rewrite S2. apply S1.
        * rewrite D3. exact D1.
        * rewrite D4. unfold delivered. rewrite D2, concat_app. cbn [concat]. rewrite app_nil_r.
          rewrite <- app_assoc, firstn_skipn. reflexivity.
  Qed.

  Lemma fair_rounds_pairs_A k : forall s, fair_rounds k c s = pairs k SA s.
  Proof. induction k as [|k IH]; intros s; cbn [fair_rounds pairs]; [reflexivity|]. apply IH. Qed.

  Lemma fair_rounds_pairs_B k : forall s,
    fair_rounds (Datatypes.S k) c s = fair_half c (pairs k SB (fair_half c s SA)) SB.
  Proof.
    (* stated over the two half-round functions as variables, so that no step compares fair_half terms *)
    assert (H : forall (f g : sys -> sys) (F P : nat -> sys -> sys),
      (forall k s, F (Datatypes.S k) s = F k (g (f s))) -> (forall s, F O s = s) ->
      (forall k s, P (Datatypes.S k) s = P k (f (g s))) -> (forall s, P O s = s) ->
      forall k s, F (Datatypes.S k) s = g (P k (f s))).
    { intros f g F P HF HF0 HP HP0. induction k0 as [|k0 IH]; intros s.
      - now rewrite HF, HF0, HP0.
      - now rewrite HF, IH, HP. }
    intros s.
    apply (H (fun s => fair_half c s SA) (fun s => fair_half c s SB)
             (fun k s => fair_rounds k c s) (fun k s => pairs k SB s)); intros; reflexivity.
  Qed.

  Theorem write_any s a b x bytes :
    Quiescent c s a b ->
    let n := zlen bytes in
    let s' := run c s [LSend x bytes; LFair (rounds_for n)] in
    Quiescent c s' (sel x (wadd a n) a) (sel x b (wadd b n)) /\
    sub_of s' x = sub_of s x ++ bytes /\ sub_of s' (other x) = sub_of s (other x) /\
    delivered s' (other x) = delivered s (other x) ++ bytes /\ del_of s' x = del_of s x.
  Proof.
    intros HQ n s'. pose proof (zlen_nonneg bytes) as Hn.
    destruct (quiescent_at c s a b x HQ) as (tx & ty & Ex & Ey & Qx & Qy & Mx & My & Nx & Ny & Pn).
    set (p := sel x a b) in *. set (q := sel x b a) in *.
    assert (Est : st tx = Established) by apply Qx.
    subst s'. cbn [run fold_left]. rewrite (send_step c s x tx Pn Ex Est).
    set (s1 := set_end _ x _).
    assert (HW1 : WriterState c x s1 p q bytes).
    { exists (tcb_send tx bytes), ty. subst s1. sysr. splits; auto.
      - apply writer_of_quiet, Qx.
      - unfold tcb_send. rewrite Est. cbn [accepts_send]. exact Mx. }
    assert (Pn1 : panicked s1 = false) by (subst s1; sysr; first [reflexivity|assumption]).
    rewrite (fairk c s1 _ Pn1).
    set (k := Z.to_nat ((n + 65534) / 65535)).
    assert (Hk : n <= 65535 * Z.of_nat k) by (subst k n; lia).
    assert (Hfinal : exists s3, fair_rounds (rounds_for n) c s1 = s3 /\
      WriterState c x s3 (wadd p n) q [] /\ (forall y, sub_of s3 y = sub_of s1 y) /\
      del_of s3 x = del_of s1 x /\ delivered s3 (other x) = delivered s1 (other x) ++ bytes).
    { unfold rounds_for. fold n k. destruct x.
      - rewrite fair_rounds_pairs_A.
        destruct (pairs_spec SA q (Datatypes.S k) bytes s1 p HW1 ltac:(fold n; lia)) as (A1 & A2 & A3 & A4).
        eexists. split; [reflexivity|]. auto.
      - rewrite fair_rounds_pairs_B.
        destruct HW1 as (tx1 & ty1 & Ex1 & Ey1 & Wx1 & Qy1 & Mx1 & My1 & Nx1 & Ny1 & Pn1').
        cbn [other] in *.
        rewrite (half_idle c s1 SA ty1 tx1 q p Ey1 Qy1 Ny1 Ex1 (writer_in_text Wx1)).
        assert (HW1 : WriterState c SB s1 p q bytes) by (exists tx1, ty1; splits; auto).
        destruct (pairs_spec SB q k bytes s1 p HW1 Hk) as (A1 & A2 & A3 & A4).
        cbv zeta in *. set (s2 := pairs k SB s1) in *.
        destruct A1 as (tx2 & ty2 & Ex2 & Ey2 & Wx2 & Qy2 & Mx2 & My2 & Nx2 & Ny2 & Pn2).
        cbn [other] in *.
        rewrite (half_idle c s2 SB tx2 ty2 _ _ Ex2 Wx2 Nx2 Ey2 (quiet_in_text Qy2)).
        exists s2. split; [reflexivity|]. splits; auto.
        exists tx2, ty2. splits; auto. }
    destruct Hfinal as (s3 & -> & HW3 & S3 & D3 & D4).
    pose proof (writerstate_quiescent s3 x _ _ HW3) as HQ'.
    assert (Esel1 : sel x (wadd p n) q = sel x (wadd a n) a) by (subst p q; destruct x; reflexivity).
    assert (Esel2 : sel x q (wadd p n) = sel x b (wadd b n)) by (subst p q; destruct x; reflexivity).
    rewrite Esel1, Esel2 in HQ'.
    split; [exact HQ'|].
    rewrite !S3, D3, D4. unfold delivered. subst s1. sysr. auto.
  Qed.

  Lemma rounds_for_window n : 0 < n <= 65535 -> rounds_for n = 2%nat.
  Proof.
    intros H. unfold rounds_for. replace ((n + 65534) / 65535) with 1 by lia. reflexivity.
  Qed.

End RoundN.

(* writes of arbitrary size: each is followed by one loss-free round per window, plus one *)
Fixpoint any_write_trace (ws : list (side * list Z)) : list label :=
  match ws with
  | [] => []
  | (x, bytes) :: r => LSend x bytes :: LFair (rounds_for (zlen bytes)) :: any_write_trace r
  end.

Theorem writes_delivered_any c : forall ws s a b,
  Quiescent c s a b ->
  let s' := run c s (any_write_trace ws) in
  (exists a' b', Quiescent c s' a' b') /\
  forall x, sub_of s' x = sub_of s x ++ concat (chunks x ws) /\
            delivered s' (other x) = delivered s (other x) ++ concat (chunks x ws).
Proof.
  induction ws as [|[y bytes] r IH]; intros s a b HQ; cbn [any_write_trace chunks].
  - cbn [run fold_left]. split; [eauto|]. intros x. cbn [concat]. now rewrite !app_nil_r.
  - change (run c s (LSend y bytes :: LFair (rounds_for (zlen bytes)) :: any_write_trace r))
      with (run c (run c s [LSend y bytes; LFair (rounds_for (zlen bytes))]) (any_write_trace r)).
    destruct (write_any c s a b y bytes HQ) as (HQ1 & S1 & S2 & D1 & D2).
    set (s1 := run c s [LSend y bytes; LFair (rounds_for (zlen bytes))]) in *.
    destruct (IH s1 _ _ HQ1) as [HQ2 Hrest].
    split; [exact HQ2|]. intros x. destruct (Hrest x) as [R1 R2]. rewrite R1, R2.
    assert (D2' : delivered s1 y = delivered s y) by (unfold delivered; now rewrite D2).
    destruct y, x; cbn [side_eqb other concat] in *;
      rewrite ?S1, ?S2, ?D1, ?D2', <- ?app_assoc; auto.
Qed.

(* two rounds per write are the schedule of writes of at most one window, in particular of one MSS *)
Lemma write_trace_any ws : (forall w, In w ws -> 0 < zlen (snd w) <= 65535) -> write_trace ws = any_write_trace ws.
Proof.
  induction ws as [|[x bytes] r IH]; intros Hw; cbn [write_trace any_write_trace]; [reflexivity|].
  rewrite (rounds_for_window (zlen bytes)) by (apply (Hw (x, bytes)); left; reflexivity).
  rewrite IH; [reflexivity|]. intros w Hi. apply Hw. right. exact Hi.
Qed.

Lemma write_trace_mss c ws : mtuA c <= 65535 -> mtuB c <= 65535 ->
  (forall w, In w ws -> 0 < zlen (snd w) <= mtu_of c (fst w) - 50) -> write_trace ws = any_write_trace ws.
Proof.
  intros HA HB Hw. apply write_trace_any. intros w Hi. specialize (Hw w Hi).
  destruct (fst w); cbn [mtu_of] in Hw; lia.
Qed.

Lemma quiescent_mtu c s a b : Quiescent c s a b -> mtuA c <= 65535 /\ mtuB c <= 65535.
Proof.
  intros (tA & tB & _ & _ & QA & QB & MA & MB & _). rewrite <- MA, <- MB. split; [apply QA|apply QB].
Qed.

(* open (passive or simultaneous), then the writes: quiescent states are reachable for every configuration *)
Lemma from_start_any : forall (c : config) (listenB : bool) (ws : list (side * list Z)),
  u32 (issA c) -> u32 (issB c) -> 100 <= mtuA c <= 65535 -> 100 <= mtuB c <= 65535 ->
  let s := run c (init_sys listenB) (open_trace listenB ++ any_write_trace ws) in
  (exists a b, Quiescent c s a b) /\
  forall x, sub_of s x = concat (chunks x ws) /\ delivered s (other x) = concat (chunks x ws).
Proof.
  intros c listenB ws H1 H2 H3 H4 s. subst s. rewrite run_app.
  destruct (handshake_explicit c listenB H1 H2 H3 H4) as (HQ & F1 & F2 & F3 & F4).
  set (s0 := run c (init_sys listenB) (open_trace listenB)) in *.
  destruct (writes_delivered_any c ws s0 _ _ HQ) as [HQ' Hx].
  split; [exact HQ'|]. intros x. destruct (Hx x) as [A B]. rewrite A, B.
  unfold delivered. destruct x; cbn [other sub_of del_of]; rewrite ?F1, ?F2, ?F3, ?F4; auto.
Qed.

(* the whole life of a connection: open, writes, and a closing sequence that releases both endpoints *)
Lemma lifecycle : forall (c : config) (listenB : bool) (ws : list (side * list Z)) (tr : list label),
  u32 (issA c) -> u32 (issB c) -> 100 <= mtuA c <= 65535 -> 100 <= mtuB c <= 65535 ->
  (forall s a b, Quiescent c s a b ->
     run c s tr = mkSys EDead EDead [] [] (subA s) (subB s) (delA s) (delB s) false) ->
  let s := run c (init_sys listenB) (open_trace listenB ++ any_write_trace ws ++ tr) in
  endA s = EDead /\ endB s = EDead /\ netA s = [] /\ netB s = [] /\ panicked s = false /\
  forall x, sub_of s x = concat (chunks x ws) /\ delivered s (other x) = concat (chunks x ws).
Proof.
  intros c listenB ws tr H1 H2 H3 H4 Hcl s. subst s. rewrite app_assoc, run_app.
  destruct (from_start_any c listenB ws H1 H2 H3 H4) as ((a & b & HQ) & Hx). cbv zeta in Hx.
  rewrite (Hcl _ a b HQ). cbn [endA endB netA netB panicked]. splits; try reflexivity. exact Hx.
Qed.

From Elvis Require Import Proofs.TcbSafetyEx Proofs.TcbSafetyThms.

(* about any state: said of the example run, `sub_of s SA` against `subA s` would make Qed evaluate the run *)
Lemma written_delivered s ws :
  (forall x, sub_of s x = concat (chunks x ws) /\ delivered s (other x) = concat (chunks x ws)) ->
  delivered s SB = subA s /\ delivered s SA = subB s /\
  length (subA s) = length (concat (chunks SA ws)) /\ length (subB s) = length (concat (chunks SB ws)).
Proof.
  intros Hx. destruct (Hx SA) as [A1 A2], (Hx SB) as [B1 B2]. cbn [other sub_of] in *.
  rewrite A2, B2, A1, B1. repeat split.
Qed.

(* the example: handshake, then writes in both directions (one of exactly one MSS = 50 bytes at A) *)
Lemma liveness_example_explicit :
  closed_trace (hs_trace ++ write_trace ex_writes) /\
  (forall w, In w ex_writes -> 0 < zlen (snd w) <= mtu_of ex_cfg (fst w) - 50) /\
  Quiescent ex_cfg hs_state (wadd (issA ex_cfg) 1) (wadd (issB ex_cfg) 1) /\
  let s := run ex_cfg (init_sys true) (hs_trace ++ write_trace ex_writes) in
  (exists a b, Quiescent ex_cfg s a b) /\
  delivered s SB = subA s /\ delivered s SA = subB s /\
  length (subA s) = 51%nat /\ length (subB s) = 1487%nat.
Proof.
  destruct ex_cfg_ok as (A1 & A2 & A3 & A4).
  assert (Hsmall : forall w, In w ex_writes -> 0 < zlen (snd w) <= mtu_of ex_cfg (fst w) - 50).
  { intros w [<-|[<-|[<-|[<-|[]]]]]; vm_compute; (split; [reflexivity|intros H; discriminate H]). }
  split.
  { assert (Hf : forallb no_inject (hs_trace ++ write_trace ex_writes) = true) by (vm_compute; reflexivity).
    intros l Hl. rewrite forallb_forall in Hf. specialize (Hf l Hl). destruct l; try exact I. discriminate Hf. }
  split; [exact Hsmall|].
  split; [exact (proj1 (handshake_explicit ex_cfg true A1 A2 A3 A4))|].
  destruct (from_start_any ex_cfg true ex_writes A1 A2 A3 A4) as [HQ Hx].
  rewrite <- (write_trace_mss ex_cfg ex_writes (proj2 A3) (proj2 A4) Hsmall) in HQ, Hx.
  change (open_trace true) with hs_trace in HQ, Hx.
  split; [exact HQ|].
  destruct (written_delivered _ _ Hx) as (D1 & D2 & L1 & L2).
  split; [exact D1|]. split; [exact D2|]. rewrite L1, L2. split; vm_compute; reflexivity.
Qed.
