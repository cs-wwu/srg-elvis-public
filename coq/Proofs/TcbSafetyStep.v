(* Every primitive operation of the closed system, hence every label, preserves SysInv. *)
From Elvis Require Import Model.Base Model.U32 Model.Tcb Model.TcpNet
  Proofs.U32Facts Proofs.TcbSafetyDefs Proofs.TcbSafetyBase Proofs.TcbSafetySnd
  Proofs.TcbSafetyRcv Proofs.TcbSafetyArr Proofs.TcbSafetySys Proofs.TcpNetStep.
Local Open Scope Z_scope.

Section Ops.
  Variable c : config.
  Hypothesis Hc : cfg_ok c.

  Lemma iss_u32 x : u32 (iss_of c x).
  Proof. destruct Hc as (A & B & _). destruct x; assumption. Qed.
  Lemma mtu_ok x : 100 <= mtu_of c x <= 65535.
  Proof. destruct Hc as (_ & _ & A & B). destruct x; assumption. Qed.

  Lemma live_parts s x t : SysInv c s -> end_of s x = ELive t ->
    SndInv (iss_of c x) (mtu_of c x) (sub_of s x) t /\
    RcvInv (pv_of c s (other x)) (delivered s x) t /\
    zlen (sub_of s x) < SEQ_BOUND /\ pv_of c s x = my_pv (iss_of c x) (sub_of s x) t.
  Proof.
    intros (P & W & E & N) El. specialize (E x). rewrite EndInv_eq, El in E. destruct E as [E1 E2].
    splits; auto.
    - specialize (W x). destruct W as (_ & _ & Hb & _). now rewrite pv_sub_pv_of in Hb.
    - rewrite pv_of_eq, El. reflexivity.
  Qed.

  Lemma open_tcb_inv lp rp iss m pv :
    SndInv iss m [] (tcb_open lp rp iss m) /\ RcvInv pv [] (tcb_open lp rp iss m) /\
    my_pv iss [] (tcb_open lp rp iss m) = mkPv iss [] 0 false.
  Proof.
    unfold tcb_open.
    set (t := mkTcb _ _ _ _ _ _ _ _ _ _ _ _ _ _ _ _ _ _ _ _ _ _).
    assert (E : enqueue t (hb_wnd (hb_syn (hb t iss)) DEFAULT_WND) =
                set_retx t (retx t ++ [mkTx (mkSeg (hb_wnd (hb_syn (hb t iss)) DEFAULT_WND) []) true]))
      by reflexivity.
    rewrite E. splits.
    - unfold SndInv, my_pv, data_sent, finq. subst t. tcb_simpl. cbn [closed_state andb b2z zlen length].
      change (Z.of_nat 0) with 0. cbn [Z.sub Z.to_nat skipn Z.add].
      splits; auto; try lia; try discriminate.
      + rewrite wadd_wadd. reflexivity.
      + cbn [app map]. constructor; [|constructor]. tcb_simpl.
        apply syn_seg_inv; reflexivity.
    - unfold RcvInv. subst t. tcb_simpl. cbn [state_eqb]. splits; auto. cbn. lia.
    - reflexivity.
  Qed.

  Lemma closed_parts s x : SysInv c s ->
    (end_of s x = EClosed \/ end_of s x = EListen) ->
    delivered s x = [] /\ sub_of s x = [] /\ pv_of c s x = mkPv (iss_of c x) [] 0 false.
  Proof.
    intros (P & W & E & N) Hcl. specialize (E x). rewrite EndInv_eq in E.
    rewrite pv_of_eq. destruct Hcl as [Hcl | Hcl]; rewrite Hcl in *; cbn [EndInvP pv_of_end] in *;
      destruct E as [E1 E2]; rewrite E2; auto.
  Qed.

  Lemma open_inv s x : SysInv c s -> end_of s x = EClosed ->
    SysInv c (set_end s x (ELive (tcb_open (port_of c x) (port_of c (other x)) (iss_of c x) (mtu_of c x)))).
  Proof.
    intros HI El. destruct (closed_parts s x HI (or_introl El)) as (Ed & Es & Epv).
    destruct (open_tcb_inv (port_of c x) (port_of c (other x)) (iss_of c x) (mtu_of c x) (pv_of c s (other x)))
      as (A1 & A2 & A3).
    pose proof HI as (P & W & E & N).
    eapply (sysinv_live c s _ x); try exact HI; sysr; try reflexivity; try assumption.
    - rewrite Es. cbn. unfold SEQ_BOUND. lia.
    - rewrite Es, A3, Epv. apply pv_le_refl.
    - rewrite Es. exact A1.
    - fold (delivered s x). rewrite Ed. exact A2.
    - exists []. split; [now rewrite app_nil_r|constructor].
  Qed.

  Lemma send_sys_inv s x t bytes : SysInv c s -> end_of s x = ELive t ->
    let acc := accepts_send (st t) in
    let s1 := if acc then set_sub s x (sub_of s x ++ bytes) else s in
    zlen (sub_of s1 x) < SEQ_BOUND ->
    SysInv c (set_end s1 x (ELive (tcb_send t bytes))).
  Proof.
    intros HI El acc s1 Hb. destruct (live_parts s x t HI El) as (HS & HR & Hb0 & Epv).
    subst acc s1. destruct (accepts_send (st t)) eqn:Eacc.
    - rewrite sub_set_sub in Hb.
      destruct (send_inv _ _ _ _ bytes (iss_u32 x) Hb0 HS Eacc) as (A1 & A2 & A3).
      eapply (sysinv_live c s _ x); try exact HI; sysr; try reflexivity; try assumption.
      + apply HI.
      + rewrite Epv. exact A2.
      + fold (delivered s x). eapply RcvInv_same; eassumption.
      + exists []. split; [now rewrite app_nil_r|constructor].
    - rewrite send_ignored by assumption.
      apply (sysinv_replace c s x t t HI El HS (pv_le_refl _) HR).
  Qed.

  Lemma receive_rcv pv D t : RcvInv pv D t -> RcvInv pv (D ++ in_text t) (set_in_text t []).
  Proof.
    intros (R1 & R2 & R3). unfold RcvInv, rcv_n in *. tcb_simpl.
    split; [assumption|]. split; [cbn; lia|].
    destruct (state_eqb (st t) SynSent).
    - destruct R3 as [-> ->]. auto.
    - rewrite app_nil_r. exact R3.
  Qed.

  Lemma recv_inv s x : SysInv c s -> SysInv c (fst (recv s x)).
  Proof.
    intros HI. unfold recv. destruct (end_of s x) as [| |t|] eqn:El; try exact HI.
    destruct (live_parts s x t HI El) as (HS & HR & Hb0 & Epv).
    unfold tcb_receive. cbn [fst].
    destruct (receive_snd _ _ _ _ HS) as [A1 A2].
    pose proof (receive_rcv _ _ _ HR) as A3.
    destruct (in_text t) eqn:Ein.
    - rewrite app_nil_r in A3.
      apply (sysinv_replace c s x t _ HI El A1); [rewrite A2; apply pv_le_refl|exact A3].
    - eapply (sysinv_live c s _ x); try exact HI; sysr; try reflexivity; try assumption.
      + apply HI.
      + rewrite A2, Epv. apply pv_le_refl.
      + rewrite concat_snoc. exact A3.
      + exists []. split; [now rewrite app_nil_r|constructor].
  Qed.

  Lemma close_sys_inv s x t t1 r : SysInv c s -> end_of s x = ELive t -> tcb_close t = (t1, r) ->
    SysInv c (set_end s x (ELive t1)).
  Proof.
    intros HI El Ecl. destruct (live_parts s x t HI El) as (HS & HR & Hb0 & Epv).
    destruct (close_inv _ _ _ _ _ _ (iss_u32 x) Hb0 HS Ecl) as (A1 & A2 & A3).
    apply (sysinv_replace c s x t t1 HI El A1 A2). eapply RcvInv_same; eassumption.
  Qed.

  Lemma emit_inv s x : SysInv c s ->
    SysInv c (fst (fst (emit s x))) /\ snd (emit s x) = false.
  Proof.
    intros HI. unfold emit. destruct (end_of s x) as [| |t|] eqn:El; try (split; [exact HI|reflexivity]).
    destruct (live_parts s x t HI El) as (HS & HR & Hb0 & Epv).
    destruct (segments_inv _ _ _ _ (iss_u32 x) Hb0 (mtu_ok x) HS) as (t' & segs & E & A1 & A2 & A3 & A4).
    rewrite E. cbn [fst snd]. split; [|reflexivity].
    eapply (sysinv_live c s _ x); try exact HI; sysr; try reflexivity; try assumption.
    - apply HI.
    - rewrite Epv. exact A2.
    - fold (delivered s x). eapply RcvInv_same; eassumption.
    - exists segs. split; [reflexivity|exact A4].
  Qed.

  Lemma advance_sys_inv s x t ms : SysInv c s -> end_of s x = ELive t ->
    SysInv c (match advance_time t ms with
              | (t1, TIgnore) => set_end s x (ELive t1)
              | (t1, TCloseConnection) => set_end (final_read s x t1) x EDead
              end).
  Proof.
    intros HI El. destruct (live_parts s x t HI El) as (HS & HR & Hb0 & Epv).
    destruct (advance_time t ms) as [t1 r] eqn:Ea.
    destruct (advance_time_inv _ _ _ _ _ _ _ HS Ea) as (A1 & A2 & A3).
    destruct r.
    - apply (sysinv_replace c s x t t1 HI El A1); [rewrite A2; apply pv_le_refl|].
      eapply RcvInv_same; eassumption.
    - eapply sysinv_die; try eassumption. eapply RcvInv_same; eassumption.
  Qed.

  Lemma arrives_closed_plain h l h' : arrives_closed h l = Some h' -> plain_hdr h'.
  Proof.
    unfold arrives_closed. destruct (c_rst _); [discriminate|].
    destruct (c_ack _); intros [= <-]; split; reflexivity.
  Qed.

  Lemma reply_inv s r h : SysInv c s -> plain_hdr h ->
    SysInv c (set_net s r (net_of s r ++ [mkSeg h []])).
  Proof.
    intros HI Hp. apply sysinv_set_net; [exact HI|].
    apply Forall_app. split; [apply HI|]. constructor; [|constructor]. apply plain_seg_inv, Hp.
  Qed.

  Lemma arrive_inv s r seg : SysInv c s -> seg_inv (pv_of c s (other r)) seg ->
    SysInv c (fst (arrive c s r seg)).
  Proof.
    intros HI Hseg. pose proof HI as (P & W & E & N). unfold arrive.
    destruct (end_of s r) as [| |t|] eqn:El.
    - (* closed *)
      destruct (arrives_closed _ _) as [h|] eqn:Ec; cbn [fst]; [|exact HI].
      apply reply_inv; [exact HI|eapply arrives_closed_plain; eassumption].
    - (* listen *)
      destruct (closed_parts s r HI (or_intror El)) as (Ed & Es & Epv).
      pose proof (arrives_listen_inv (iss_of c r) (mtu_of c r) _ seg (iss_u32 r) (W (other r)) Hseg) as HL.
      destruct (arrives_listen seg (iss_of c r) (mtu_of c r)) as [|h|t]; cbn [fst].
      + exact HI.
      + apply reply_inv; assumption.
      + destruct HL as (A1 & A2 & A3).
        eapply (sysinv_live c s _ r); try exact HI; sysr; try reflexivity; try assumption.
        * rewrite Es. cbn. unfold SEQ_BOUND. lia.
        * rewrite Es, A3, Epv. apply pv_le_refl.
        * rewrite Es. exact A1.
        * fold (delivered s r). rewrite Ed. exact A2.
        * exists []. split; [now rewrite app_nil_r|constructor].
    - (* live *)
      destruct (live_parts s r t HI El) as (HS & HR & Hb0 & Epv).
      destruct (segment_arrives_inv _ _ _ _ _ (W (other r)) t seg HS HR Hseg)
        as (t' & res & Ea & A1 & A2 & A3).
      rewrite Ea. destruct res; cbn [fst].
      + apply (sysinv_replace c s r t t' HI El A1); [rewrite A3; apply pv_le_refl|exact A2].
      + eapply sysinv_die; eassumption.
    - exact HI.
  Qed.

  Lemma deliver_inv s x seg l : SysInv c s -> Forall (seg_inv (pv_of c s x)) l ->
    seg_inv (pv_of c s x) seg ->
    SysInv c (fst (arrive c (set_net s x l) (other x) seg)).
  Proof.
    intros HI Hl Hseg. apply arrive_inv; [apply sysinv_set_net; assumption|].
    rewrite other_other. rewrite !pv_of_eq in *. autorewrite with sysr. exact Hseg.
  Qed.

  Lemma step_inv s l : SysInv c s -> no_inject l = true ->
    (forall x, zlen (sub_of (fst (sys_step c s l)) x) < SEQ_BOUND) ->
    SysInv c (fst (sys_step c s l)).
  Proof.
    intros HI Hl Hb.
    apply (sys_step_rule c (SysInv c)
             (fun s x b => forall t, end_of s x = ELive t ->
                zlen (sub_of (if accepts_send (st t) then set_sub s x (sub_of s x ++ b) else s) x) < SEQ_BOUND)
             (fun _ => True) (fun _ => False)); try exact HI.
    - exact I.
    - intros s0 x H0 El. apply open_inv; assumption.
    - intros s0 x t b H0 El Hok. apply send_sys_inv; [assumption|assumption|]. apply Hok, El.
    - intros s0 x. apply recv_inv.
    - intros s0 x t H0 El. eapply close_sys_inv; [exact H0|exact El|apply surjective_pairing].
    - intros s0 x H0. apply emit_inv, H0.
    - intros s0 x t ms H0 El _. apply advance_sys_inv; assumption.
    - intros s0 x l0 H0 Hi. apply sysinv_set_net; [exact H0|]. eapply incl_Forall; [exact Hi|apply H0].
    - intros s0 x seg l0 H0 Hin Hi. pose proof (proj2 (proj2 (proj2 H0)) x) as N.
      apply deliver_inv; [exact H0|eapply incl_Forall; eassumption|].
      rewrite Forall_forall in N. apply N, Hin.
    - intros s0 x seg _ [].
    - destruct l as [|x b| | | | | | | | | | |]; cbn [label_ok]; try exact I; [|discriminate Hl].
      intros t El. specialize (Hb x). revert Hb. unfold sys_step.
      rewrite (proj1 HI), El. cbn [fst]. rewrite sub_set_end. intros Hb; exact Hb.
  Qed.
End Ops.
