(* Facts about Model/Router.v: per-hop behaviour of ArpRouter::demux, trajectories through
   arbitrary topologies (TTL is a measure: every trajectory is finite, loops and black holes
   fall silent), the path is the one the tables define, and soundness of the trace validator. *)
From Elvis Require Import Model.Base Model.Subnet Model.IpTable Model.Router
     Proofs.SubnetFacts Proofs.IpTableFacts Proofs.ProtoListFacts.
Local Open Scope N_scope.

Definition same_but_ttl (p q : pkt) : Prop :=
  p_src q = p_src p /\ p_dst q = p_dst p /\ p_tos q = p_tos p /\ p_totlen q = p_totlen p /\
  p_ident q = p_ident p /\ p_flags q = p_flags p /\ p_frag q = p_frag p /\
  p_proto q = p_proto p /\ p_body q = p_body p.

Lemma same_but_ttl_refl p : same_but_ttl p p.
Proof. repeat split. Qed.

Lemma same_but_ttl_trans p q s : same_but_ttl p q -> same_but_ttl q s -> same_but_ttl p s.
Proof.
  unfold same_but_ttl. intros H1 H2.
  destruct H1 as (a1 & a2 & a3 & a4 & a5 & a6 & a7 & a8 & a9).
  destruct H2 as (b1 & b2 & b3 & b4 & b5 & b6 & b7 & b8 & b9).
  repeat split; congruence.
Qed.

Lemma same_but_ttl_set p t : same_but_ttl p (set_ttl p t).
Proof. repeat split. Qed.

(* header fields as Ipv4Header::from_bytes produces them *)
Definition wf_pkt (p : pkt) : Prop := 20 <= p_totlen p /\ p_frag p <= 8191.

Definition next_hop_of (gw : option N) (dst : N) : N :=
  match gw with Some a => a | None => dst end.

Lemma route_step_eq r p : route_step r p =
  if p_ttl p =? 0 then Panic site_ttl_sub
  else if p_ttl p =? 1 then Ok ADrop
  else if p_totlen p <? 20 then Panic site_ser_sub
  else if 8191 <? p_frag p then Err err_serialize
  else match get_recipient (r_table r) (p_dst p) with
       | None => Err err_no_route
       | Some (gw, slot) =>
           if lenN (r_local_ips r) <=? slot then Panic site_local_index
           else if lenN (r_mtus r) <=? slot then Panic site_pci_open
           else Ok (AForward slot (next_hop_of gw (p_dst p)) (set_ttl p (p_ttl p - 1)))
       end.
Proof.
  unfold route_step, reserialize. cbn [p_totlen p_frag p_dst set_ttl].
  destruct (N.eqb_spec (p_ttl p) 0) as [E0 | E0]; [reflexivity |].
  destruct (N.eqb_spec (p_ttl p - 1) 0), (N.eqb_spec (p_ttl p) 1); try lia; [reflexivity |].
  destruct (p_totlen p <? 20); [reflexivity |].
  destruct (8191 <? p_frag p); reflexivity.
Qed.

Lemma route_step_inv r p a : route_step r p = a ->
  match a with
  | Ok ADrop => p_ttl p = 1
  | Ok (AForward slot nh p') =>
      2 <= p_ttl p /\ p' = set_ttl p (p_ttl p - 1) /\
      exists gw, get_recipient (r_table r) (p_dst p) = Some (gw, slot) /\
                 nh = next_hop_of gw (p_dst p) /\
                 slot < lenN (r_local_ips r) /\ slot < lenN (r_mtus r)
  | Err _ => 2 <= p_ttl p /\ (wf_pkt p -> get_recipient (r_table r) (p_dst p) = None)
  | Panic _ => True
  | OutOfFuel => False
  end.
Proof.
  intros <-. rewrite route_step_eq. unfold wf_pkt.
  destruct (N.eqb_spec (p_ttl p) 0) as [E0 | E0]; [exact I |].
  destruct (N.eqb_spec (p_ttl p) 1) as [E1 | E1]; [lia |].
  destruct (N.ltb_spec (p_totlen p) 20) as [E2 | E2]; [exact I |].
  destruct (N.ltb_spec 8191 (p_frag p)) as [E3 | E3]; [split; lia |].
  destruct (get_recipient (r_table r) (p_dst p)) as [[gw slot] |]; [| split; [lia | reflexivity]].
  destruct (N.leb_spec (lenN (r_local_ips r)) slot) as [E4 | E4]; [exact I |].
  destruct (N.leb_spec (lenN (r_mtus r)) slot) as [E5 | E5]; [exact I |].
  split; [lia |]. split; [reflexivity |]. exists gw. repeat split; lia.
Qed.

Lemma route_step_ttl0 r p : p_ttl p = 0 -> route_step r p = Panic site_ttl_sub.
Proof. intros T. rewrite route_step_eq, T. reflexivity. Qed.

Lemma route_step_ttl1 r p : p_ttl p = 1 -> route_step r p = Ok ADrop.
Proof. intros T. rewrite route_step_eq, T. reflexivity. Qed.

Lemma route_step_missing r p : wf_pkt p -> 2 <= p_ttl p ->
  get_recipient (r_table r) (p_dst p) = None -> route_step r p = Err err_no_route.
Proof.
  intros [W1 W2] T G. rewrite route_step_eq, G.
  destruct (N.eqb_spec (p_ttl p) 0) as [E0 | E0]; [lia |]. destruct (N.eqb_spec (p_ttl p) 1) as [E1 | E1]; [lia |].
  destruct (N.ltb_spec (p_totlen p) 20) as [E2 | E2]; [lia |]. destruct (N.ltb_spec 8191 (p_frag p)) as [E3 | E3]; [lia |].
  reflexivity.
Qed.

Lemma send_step_cases r slot p :
  send_step r slot p = Ok p \/ exists s, send_step r slot p = Panic s.
Proof.
  unfold send_step. destruct (nthN (r_mtus r) slot) as [m |]; [| right; eauto].
  destruct (m <? wire_len p); [right; eauto | left; reflexivity].
Qed.

Lemma hop_out_le1 r resolves p : (length (hop_out r resolves p) <= 1)%nat.
Proof.
  unfold hop_out. destruct (route_step r p) as [[| slot nh p'] | | |]; cbn [length]; try lia.
  destruct (resolves slot nh); cbn [length]; [| lia].
  destruct (send_step r slot p'); cbn [length]; lia.
Qed.

Lemma hop_out_spec r resolves p slot nh q : In (slot, nh, q) (hop_out r resolves p) ->
  p_ttl q + 1 = p_ttl p /\ 1 <= p_ttl q /\ same_but_ttl p q /\
  exists gw, get_recipient (r_table r) (p_dst p) = Some (gw, slot) /\
             nh = next_hop_of gw (p_dst p).
Proof.
  unfold hop_out. intros Hin. pose proof (route_step_inv r p _ eq_refl) as R.
  destruct (route_step r p) as [[| s n p'] | | |]; try (destruct Hin; fail).
  destruct (resolves s n); [| destruct Hin].
  destruct (send_step_cases r s p') as [ES | [x ES]]; rewrite ES in Hin; [| destruct Hin].
  destruct Hin as [H | []]. inversion H; subst.
  destruct R as (T & -> & gw & G & -> & _).
  cbn [p_ttl set_ttl]. split; [lia |]. split; [lia |].
  split; [apply same_but_ttl_set |]. exists gw. split; [exact G | reflexivity].
Qed.

Section TrajFacts.
  Variable routers : N -> router.
  Variable accepts : N -> N -> bool.
  Variable topo : nat -> N -> N -> N -> option node.

  Notation traj := (traj routers accepts topo).
  Notation trajectory := (trajectory routers accepts topo).

  (* the table part of a hop: slot and next hop are what the lookup of the destination yields *)
  Definition hop_ok (dst : N) (h : hopobs) : Prop :=
    exists gw, get_recipient (r_table (routers (ho_router h))) dst = Some (gw, ho_slot h) /\
               ho_nh h = next_hop_of gw dst.

  (* the topology part: the k-th frame is sent by the node that received the previous one, to the
     node that answers (at that moment) for the next hop on the outgoing slot *)
  Fixpoint chain (k : nat) (at_ : node) (l : list hopobs) : Prop :=
    match l with
    | [] => True
    | h :: r => at_ = NRouter (ho_router h) /\
                topo k (ho_router h) (ho_slot h) (ho_nh h) = Some (ho_to h) /\
                chain (S k) (ho_to h) r
    end.

  Definition last_node (start : node) (l : list hopobs) : node :=
    last (map ho_to l) start.

  Lemma last_node_cons start h l : last_node start (h :: l) = last_node (ho_to h) l.
  Proof.
    unfold last_node. cbn [map]. generalize (ho_to h) (map ho_to l). clear. intros a l. revert a start.
    induction l as [| x l IH]; intros a d; [reflexivity |].
    change (last (a :: x :: l) d) with (last (x :: l) d).
    rewrite (IH x d), (IH x a). reflexivity.
  Qed.

  Definition ttl_at_end (p : pkt) (l : list hopobs) : N := p_ttl p - N.of_nat (length l).

  Definition ending_ok (k : nat) (start : node) (p : pkt) (l : list hopobs) (e : ending) : Prop :=
    match e with
    | EDelivered h => last_node start l = NHost h /\ accepts h (p_dst p) = true
    | EHostDrop h => last_node start l = NHost h /\ accepts h (p_dst p) = false
    | ETtl r => last_node start l = NRouter r /\ ttl_at_end p l = 1
    | ENoRoute r => last_node start l = NRouter r /\ 2 <= ttl_at_end p l /\
                    get_recipient (r_table (routers r)) (p_dst p) = None
    | ENoArp r => last_node start l = NRouter r /\ 2 <= ttl_at_end p l /\
                  exists gw slot, get_recipient (r_table (routers r)) (p_dst p) = Some (gw, slot) /\
                                  topo (k + length l)%nat r slot (next_hop_of gw (p_dst p)) = None
    | EPanic r _ => last_node start l = NRouter r
    | EFuel => True
    end.

  (* [traj] as a relation: the fuel left, the hop number, where the datagram is, the hops from
     there and the ending, each way of ending with its cause.  A missing route and a header that
     does not serialise both end in [ENoRoute]; they are told apart by [wf_pkt]. *)
  Inductive path : nat -> nat -> node -> pkt -> list hopobs -> ending -> Prop :=
  | path_fuel k n p : path O k n p [] EFuel
  | path_delivered f k h p : accepts h (p_dst p) = true -> path (S f) k (NHost h) p [] (EDelivered h)
  | path_host_drop f k h p : accepts h (p_dst p) = false -> path (S f) k (NHost h) p [] (EHostDrop h)
  | path_ttl f k r p : p_ttl p = 1 -> path (S f) k (NRouter r) p [] (ETtl r)
  | path_no_route f k r p : 2 <= p_ttl p ->
      (wf_pkt p -> get_recipient (r_table (routers r)) (p_dst p) = None) ->
      path (S f) k (NRouter r) p [] (ENoRoute r)
  | path_no_arp f k r p gw slot : 2 <= p_ttl p ->
      get_recipient (r_table (routers r)) (p_dst p) = Some (gw, slot) ->
      topo k r slot (next_hop_of gw (p_dst p)) = None ->
      path (S f) k (NRouter r) p [] (ENoArp r)
  | path_panic f k r p s : path (S f) k (NRouter r) p [] (EPanic r s)
  | path_hop f k r p gw slot n' l e : 2 <= p_ttl p ->
      get_recipient (r_table (routers r)) (p_dst p) = Some (gw, slot) ->
      topo k r slot (next_hop_of gw (p_dst p)) = Some n' ->
      path f (S k) n' (set_ttl p (p_ttl p - 1)) l e ->
      path (S f) k (NRouter r) p
           (mkHop r slot (next_hop_of gw (p_dst p)) n' (set_ttl p (p_ttl p - 1)) :: l) e.

  Lemma traj_path : forall f k n p l e, traj f k n p = (l, e) -> path f k n p l e.
  Proof.
    induction f as [| f IH]; intros k n p l e H; [inversion H; constructor |].
    destruct n as [r | h]; cbn [Router.traj] in H.
    - pose proof (route_step_inv (routers r) p _ eq_refl) as R.
      destruct (route_step (routers r) p) as [[| slot nh p'] | er | s |].
      + inversion H. apply path_ttl, R.
      + destruct R as (T & -> & gw & G & -> & _).
        destruct (topo k r slot (next_hop_of gw (p_dst p))) as [n' |] eqn:ET.
        * destruct (send_step_cases (routers r) slot (set_ttl p (p_ttl p - 1))) as [ES | [s ES]];
            rewrite ES in H; [| inversion H; constructor].
          destruct (traj f (S k) n' (set_ttl p (p_ttl p - 1))) as [l' e'] eqn:EJ. inversion H; subst.
          exact (path_hop _ _ _ _ _ _ _ _ _ T G ET (IH _ _ _ _ _ EJ)).
        * inversion H. exact (path_no_arp _ _ _ _ _ _ T G ET).
      + inversion H. apply path_no_route; apply R.
      + inversion H. constructor.
      + destruct R.
    - destruct (accepts h (p_dst p)) eqn:E; inversion H; constructor; exact E.
  Qed.

  Lemma path_hops f k n p l e : path f k n p l e ->
    chain k n l /\ Forall (hop_ok (p_dst p)) l /\ N.of_nat (length l) <= p_ttl p - 1 /\
    forall i h, nth_error l i = Some h ->
      p_ttl (ho_pkt h) + N.of_nat (S i) = p_ttl p /\ 1 <= p_ttl (ho_pkt h) /\ same_but_ttl p (ho_pkt h).
  Proof.
    induction 1 as [| | | | | | | f k r p gw slot n' l e T G ET _ (C & F & L & Hh)];
      try (split; [exact I |]; split; [constructor |]; split; [cbn; lia |]; intros [| ?] ? ?; discriminate).
    cbn [p_ttl p_dst set_ttl] in F, L, Hh.
    split; [cbn [chain ho_router ho_to ho_slot ho_nh]; auto |].
    split; [constructor; [exists gw; split; [exact G | reflexivity] | exact F] |]. split; [cbn [length]; lia |].
    intros [| i] h Hi; cbn [nth_error] in Hi.
    - inversion Hi. cbn [ho_pkt p_ttl set_ttl]. split; [lia |]. split; [lia | apply same_but_ttl_set].
    - destruct (Hh i h Hi) as (A & B & S). split; [lia |]. split; [exact B |].
      exact (same_but_ttl_trans _ _ _ (same_but_ttl_set _ _) S).
  Qed.

  Lemma path_ending f k n p l e : path f k n p l e ->
    wf_pkt p \/ (forall r, e <> ENoRoute r) -> ending_ok k n p l e.
  Proof.
    induction 1 as [| | | | f k r p T G | f k r p gw slot T G ET | | f k r p gw slot n' l e T G ET _ IH];
      intros W; cbn [ending_ok]; unfold ttl_at_end; cbn [length]; try (split; [reflexivity |]).
    - exact I.
    - assumption.
    - assumption.
    - lia.
    - split; [lia |]. destruct W as [W | W]; [exact (G W) | destruct (W r eq_refl)].
    - split; [lia |]. exists gw, slot. rewrite Nat.add_0_r. split; assumption.
    - reflexivity.
    - specialize (IH W). unfold ending_ok, ttl_at_end in *. cbn [p_ttl p_dst set_ttl length] in *.
      rewrite last_node_cons. cbn [ho_to].
      replace (k + S (length l))%nat with (S k + length l)%nat by lia.
      replace (p_ttl p - N.of_nat (S (length l))) with (p_ttl p - 1 - N.of_nat (length l)) by lia.
      exact IH.
  Qed.

  Lemma path_no_fuel f k n p l e : path f k n p l e -> (N.to_nat (p_ttl p) < f)%nat -> e <> EFuel.
  Proof.
    induction 1 as [| | | | | | | f k r p gw slot n' l e T G ET _ IH]; intros F; try discriminate; [lia |].
    apply IH. cbn [p_ttl set_ttl]. lia.
  Qed.

  Lemma trajectory_hops start p l e : trajectory start p = (l, e) ->
    chain O start l /\ Forall (hop_ok (p_dst p)) l /\ N.of_nat (length l) <= p_ttl p - 1 /\
    forall i h, nth_error l i = Some h ->
      p_ttl (ho_pkt h) + N.of_nat (S i) = p_ttl p /\ 1 <= p_ttl (ho_pkt h) /\ same_but_ttl p (ho_pkt h).
  Proof. intros H. exact (path_hops _ _ _ _ _ _ (traj_path _ _ _ _ _ _ H)). Qed.

  (* [wf_pkt] is needed only to tell a missing route from a header that does not serialise *)
  Lemma trajectory_ending start p l e : trajectory start p = (l, e) ->
    e <> EFuel /\ (wf_pkt p \/ (forall r, e <> ENoRoute r) -> ending_ok O start p l e).
  Proof.
    intros H. apply traj_path in H. split; [apply (path_no_fuel _ _ _ _ _ _ H); lia | exact (path_ending _ _ _ _ _ _ H)].
  Qed.

  Lemma bounded start p : forall l e, trajectory start p = (l, e) ->
    (length l <= N.to_nat (p_ttl p))%nat /\ (1 <= p_ttl p -> (S (length l) <= N.to_nat (p_ttl p))%nat).
  Proof. intros l e H. destruct (trajectory_hops _ _ _ _ H) as (_ & _ & L & _). lia. Qed.

  Lemma no_dup_ttl start p l e : trajectory start p = (l, e) ->
    NoDup (map (fun h => p_ttl (ho_pkt h)) l).
  Proof.
    intros H. destruct (trajectory_hops _ _ _ _ H) as (_ & _ & _ & Hh).
    apply (nodup_by_offset _ (p_ttl p - 1)). intros i h Hi. destruct (Hh i h Hi). lia.
  Qed.

  (* with tables built through the public interface (C09: tbl_inv), "the route" is the
     longest-prefix match *)
  Lemma follows_lpm start p l e : (forall r, tbl_inv (r_table (routers r))) ->
    trajectory start p = (l, e) ->
    forall h, In h l ->
      exists n gw, In (n, (gw, ho_slot h)) (tbl_iter (r_table (routers (ho_router h)))) /\
                   contains n (p_dst p) = true /\
                   (forall n' v', In (n', v') (tbl_iter (r_table (routers (ho_router h)))) ->
                                  contains n' (p_dst p) = true -> masklen n' <= masklen n) /\
                   ho_nh h = next_hop_of gw (p_dst p).
  Proof.
    intros Inv H h Hin. destruct (trajectory_hops _ _ _ _ H) as (_ & F & _).
    rewrite Forall_forall in F. destruct (F h Hin) as (gw & G & Hn).
    apply (proj1 (lpm_some _ _ _ (Inv (ho_router h)))) in G.
    destruct G as (n & I1 & I2 & I3). exists n, gw. repeat split; assumption.
  Qed.

  (* a ranking certifies loop-free correct routes for the datagram p0 towards host hd: every
     router on the way (P) forwards the datagram, whatever its remaining TTL >= 2 and whenever it
     comes, without failing, either to hd or to a router on the way of smaller rank *)
  Definition ranked (p0 : pkt) (hd : N) (P : N -> Prop) (rank : N -> nat) : Prop :=
    accepts hd (p_dst p0) = true /\
    forall k r p, P r -> same_but_ttl p0 p -> 2 <= p_ttl p ->
      exists slot nh n',
        route_step (routers r) p = Ok (AForward slot nh (set_ttl p (p_ttl p - 1))) /\
        topo k r slot nh = Some n' /\
        send_step (routers r) slot (set_ttl p (p_ttl p - 1)) = Ok (set_ttl p (p_ttl p - 1)) /\
        (n' = NHost hd \/ exists r', n' = NRouter r' /\ P r' /\ (rank r' < rank r)%nat).

  Lemma delivered_ranked p0 hd P rank : ranked p0 hd P rank ->
    forall f k r p, P r -> same_but_ttl p0 p -> (rank r + 2 <= N.to_nat (p_ttl p))%nat ->
      (rank r + 2 <= f)%nat ->
      exists l, traj f k (NRouter r) p = (l, EDelivered hd) /\ (length l <= S (rank r))%nat.
  Proof.
    intros (Hip & RR).
    induction f as [| f IH]; intros k r p Pr Hs Ht Hf; [lia |].
    assert (T : 2 <= p_ttl p) by lia.
    destruct (RR k r p Pr Hs T) as (slot & nh & n' & ER & ET & ES & Hn).
    assert (Hs' : same_but_ttl p0 (set_ttl p (p_ttl p - 1))).
    { eapply same_but_ttl_trans; [exact Hs | apply same_but_ttl_set]. }
    destruct Hn as [-> | (r' & -> & Pr' & Hr)].
    - exists [mkHop r slot nh (NHost hd) (set_ttl p (p_ttl p - 1))].
      cbn [Router.traj]. rewrite ER, ET, ES.
      destruct f as [| f']; [lia |]. cbn [Router.traj].
      destruct Hs' as (_ & D & _). rewrite D, Hip.
      split; [reflexivity | cbn; lia].
    - destruct (IH (S k) r' (set_ttl p (p_ttl p - 1)) Pr' Hs') as (l & HJ & HL).
      + cbn [p_ttl set_ttl]. lia.
      + lia.
      + exists (mkHop r slot nh (NRouter r') (set_ttl p (p_ttl p - 1)) :: l).
        cbn [Router.traj]. rewrite ER, ET, ES, HJ. split; [reflexivity | cbn [length]; lia].
  Qed.

  Lemma delivered r p hd P rank : ranked p hd P rank -> P r ->
    (rank r + 2 <= N.to_nat (p_ttl p))%nat ->
    exists l, trajectory (NRouter r) p = (l, EDelivered hd) /\ (length l <= S (rank r))%nat.
  Proof.
    intros R Pr T. unfold Router.trajectory.
    apply (delivered_ranked _ _ _ _ R); [exact Pr | apply same_but_ttl_refl | exact T | lia].
  Qed.
End TrajFacts.

Lemma list_eqb_eq : forall a b, list_eqb a b = true -> a = b.
Proof.
  unfold list_eqb. induction a as [| x a IH]; intros [| y b] H; cbn in H; try discriminate;
    [reflexivity |].
  apply andb_prop in H. destruct H as [L H]. apply andb_prop in H. destruct H as [E H].
  apply N.eqb_eq in E. subst y. f_equal. apply IH.
  apply andb_true_intro. split; [exact L | exact H].
Qed.

Lemma pkt_eqb_eq a b : pkt_eqb a b = true -> a = b.
Proof.
  unfold pkt_eqb. intros H. rewrite !andb_true_iff in H.
  destruct H as [[[[[[[[[H1 H2] H3] H4] H5] H6] H7] H8] H9] H10].
  apply N.eqb_eq in H1, H2, H3, H4, H5, H6, H7, H8, H9. apply list_eqb_eq in H10.
  destruct a, b. cbn in *. subst. reflexivity.
Qed.

Lemma node_eqb_eq a b : node_eqb a b = true -> a = b.
Proof.
  destruct a, b; cbn; intros H; try discriminate; apply N.eqb_eq in H; congruence.
Qed.

Lemma onode_eqb_eq a b : onode_eqb a b = true -> a = b.
Proof.
  destruct a, b; cbn; intros H; try discriminate; [apply node_eqb_eq in H; congruence | reflexivity].
Qed.

Lemma frame_eqb_eq a b : frame_eqb a b = true -> a = b.
Proof.
  unfold frame_eqb. intros H. rewrite !andb_true_iff in H.
  destruct H as [[[H1 H2] H3] H4].
  apply N.eqb_eq in H1. apply node_eqb_eq in H2. apply onode_eqb_eq in H3. apply pkt_eqb_eq in H4.
  destruct a, b. cbn in *. congruence.
Qed.

Lemma frames_eqb_eq : forall a b, frames_eqb a b = true -> a = b.
Proof.
  induction a as [| x a IH]; intros [| y b] H; cbn in H; try discriminate; [reflexivity |].
  apply andb_prop in H. destruct H as [E H]. apply frame_eqb_eq in E. f_equal; [exact E | exact (IH _ H)].
Qed.

Lemma rx_eqb_eq a b : rx_eqb a b = true -> a = b.
Proof.
  unfold rx_eqb. intros H. rewrite !andb_true_iff in H.
  destruct H as [[[H1 H2] H3] H4].
  apply N.eqb_eq in H1, H2, H3. apply list_eqb_eq in H4.
  destruct a, b. cbn in *. congruence.
Qed.

Lemma chain_ideal c topo : forall hs k n, chain topo k n hs -> ideal_hops c hs = true ->
  chain (fun _ => cfg_topo c) k n hs.
Proof.
  induction hs as [| h hs IH]; intros k n C Hi; [exact I |].
  cbn [chain] in *. destruct C as (C1 & _ & C3).
  cbn [ideal_hops forallb] in Hi. apply andb_prop in Hi. destruct Hi as [I1 I2].
  apply onode_eqb_eq in I1.
  split; [exact C1 |]. split; [exact I1 |]. exact (IH _ _ C3 I2).
Qed.

(* what the property says about the frames and deliveries of ONE datagram *)
Definition dgram_property (c : cfg) (d : dgram) (fs : list frame) (xs : list rx) : Prop :=
  match fs with
  | [] => xs = []
  | f0 :: rest =>
      let p0 := f_pkt f0 in
      (* the first frame is the sender's own *)
      f_from f0 = NHost (d_src d) /\ f_net f0 = hc_net (cfg_hc c (d_src d)) /\
      p_ttl p0 = d_ttl d /\ p_src p0 = hc_ip (cfg_hc c (d_src d)) /\ p_dst p0 = d_dst d /\
      udp_data p0 = d_data d /\
      (* TTL bounds the life: at most [initial TTL] frames on all networks together *)
      (1 <= d_ttl d -> N.of_nat (length fs) <= d_ttl d) /\
      (* each hop decrements by one *)
      (forall k f, nth_error fs k = Some f -> p_ttl (f_pkt f) + N.of_nat k = d_ttl d) /\
      (* header and payload otherwise unchanged *)
      (forall f, In f fs -> same_but_ttl p0 (f_pkt f)) /\
      (* never multiplied *)
      NoDup (map (fun f => p_ttl (f_pkt f)) fs) /\
      (* hop by hop along the configured routes *)
      (* (the receivers are the observed ones; if ARP behaved on every hop - [ideal_hops] - they
         are the owners of the next-hop addresses: the path the configuration defines) *)
      exists n0 hs e,
        f_to f0 = Some n0 /\ rest = map (hop_frame c) hs /\
        chain (obs_topo c rest) O n0 hs /\
        Forall (hop_ok (cfg_router c) (d_dst d)) hs /\
        ending_ok (cfg_router c) (cfg_accepts c) (obs_topo c rest) O n0 p0 hs e /\
        (ideal_hops c hs = true -> chain (fun _ => cfg_topo c) O n0 hs) /\
        (* delivered to the destination host's application and to nobody else *)
        match xs with
        | [] => forall h, e <> EDelivered h
        | [x] => e = EDelivered (x_host x) /\ cfg_accepts c (x_host x) (d_dst d) = true /\
                 x_src x = p_src p0 /\ x_dst x = d_dst d /\ x_data x = d_data d
        | _ => False
        end
  end.

Lemma check_dgram_sound c d fs xs : check_dgram c d fs xs = true -> dgram_property c d fs xs.
Proof.
  unfold check_dgram. intros H.
  destruct (owner c (hc_net (cfg_hc c (d_src d))) (host_next_hop (cfg_hc c (d_src d)) (d_dst d)))
    as [n0' |] eqn:EO.
  2:{ destruct fs; [| discriminate]. destruct xs; [| discriminate]. reflexivity. }
  destruct (net_mtu c (hc_net (cfg_hc c (d_src d))) <? 28 + lenN (d_data d)).
  { destruct fs; [| discriminate]. destruct xs; [| discriminate]. reflexivity. }
  destruct fs as [| f0 rest]; [discriminate |].
  apply andb_prop in H. destruct H as [HF H].
  unfold check_first in HF. rewrite !andb_true_iff in HF.
  destruct HF as [[[[[[[[HF X6] X5] X4] X3] X2] X1] X0] X].
  apply N.eqb_eq in HF. apply node_eqb_eq in X6. apply onode_eqb_eq in X5.
  apply N.eqb_eq in X4. apply N.eqb_eq in X3. apply N.eqb_eq in X2.
  apply N.leb_le in X1. apply N.leb_le in X0. apply list_eqb_eq in X.
  rewrite EO in X5.
  unfold expect_rest in H. rewrite X5 in H.
  destruct (trajectory (cfg_router c) (cfg_accepts c) (obs_topo c rest) n0' (f_pkt f0))
    as [hs e] eqn:ET.
  apply andb_prop in H. destruct H as [HR HE]. apply frames_eqb_eq in HR.
  assert (W : wf_pkt (f_pkt f0)) by (split; assumption).
  destruct (trajectory_hops _ _ _ _ _ _ _ ET) as (C & F & B & Hh).
  pose proof (proj2 (trajectory_ending _ _ _ _ _ _ _ ET) (or_introl W)) as EOK.
  assert (TT : forall k f, nth_error (f0 :: rest) k = Some f ->
                           p_ttl (f_pkt f) + N.of_nat k = d_ttl d).
  { intros k f Hk. destruct k as [| k].
    - cbn in Hk. inversion Hk; subst. lia.
    - cbn [nth_error] in Hk. rewrite HR, nth_error_map in Hk.
      destruct (nth_error hs k) as [h |] eqn:Eh; [| discriminate].
      cbn in Hk. inversion Hk; subst. cbn [f_pkt hop_frame].
      destruct (Hh k h Eh) as [A _]. lia. }
  cbn [dgram_property].
  split; [exact X6 |]. split; [exact HF |]. split; [exact X4 |]. split; [exact X3 |].
  split; [exact X2 |]. split; [exact X |].
  split.
  { intros T. rewrite HR. cbn [length]. rewrite map_length. lia. }
  split; [exact TT |].
  split.
  { intros f [<- | Hin]; [apply same_but_ttl_refl |].
    rewrite HR in Hin. apply in_map_iff in Hin. destruct Hin as (h & <- & Hin).
    cbn [f_pkt hop_frame]. destruct (In_nth_error _ _ Hin) as [i Hi]. apply (Hh i h Hi). }
  split; [exact (nodup_by_offset _ _ _ TT) |].
  exists n0', hs, e. split; [exact X5 |]. split; [exact HR |]. split; [exact C |].
  rewrite X2 in F. split; [exact F |]. split; [exact EOK |].
  split; [exact (chain_ideal _ _ _ _ _ C) |].
  destruct e as [j | j | r | r | r | r s |]; [| destruct xs; [intros h; discriminate | discriminate] ..].
  destruct xs as [| x [| x' xs']]; try discriminate.
  apply rx_eqb_eq in HE. subst x. cbn [x_host x_src x_dst x_data].
  destruct EOK as [_ A].
  split; [reflexivity |]. split; [rewrite <- X2; exact A |].
  split; [reflexivity |]. split; [exact X2 | exact X].
Qed.

(* the whole trace: nothing on the networks but the datagrams of the scenario (after the last
   of these frames the networks are silent), and each datagram satisfies the property *)
Definition trace_property (c : cfg) (ds : list dgram)
           (fr : list (N * frame)) (xs : list (N * rx)) : Prop :=
  (forall t f, In (t, f) fr -> t < lenN ds) /\
  (forall t x, In (t, x) xs -> t < lenN ds) /\
  forall k d, nth_error ds k = Some d ->
    dgram_property c d (select (N.of_nat k) fr) (select (N.of_nat k) xs).

Lemma check_all_sound c : forall ds k0 fr xs, check_all c k0 ds fr xs = true ->
  forall k d, nth_error ds k = Some d ->
    dgram_property c d (select (k0 + N.of_nat k) fr) (select (k0 + N.of_nat k) xs).
Proof.
  induction ds as [| d0 ds IH]; intros k0 fr xs H k d Hk; [destruct k; discriminate |].
  cbn [check_all] in H. apply andb_prop in H. destruct H as [H0 H].
  destruct k as [| k].
  - cbn in Hk. inversion Hk; subst. replace (k0 + N.of_nat 0) with k0 by lia.
    apply check_dgram_sound. exact H0.
  - cbn [nth_error] in Hk. replace (k0 + N.of_nat (S k)) with (k0 + 1 + N.of_nat k) by lia.
    exact (IH _ _ _ H k d Hk).
Qed.

Lemma validate_sound c ds fr xs : validate c ds fr xs = true -> trace_property c ds fr xs.
Proof.
  unfold validate. intros H. apply andb_prop in H. destruct H as [H H3].
  apply andb_prop in H. destruct H as [H1 H2].
  rewrite forallb_forall in H1, H2.
  split; [| split].
  - intros t f Hin. specialize (H1 _ Hin). cbn in H1. lia.
  - intros t x Hin. specialize (H2 _ Hin). cbn in H2. lia.
  - intros k d Hk. exact (check_all_sound c ds 0 fr xs H3 k d Hk).
Qed.

Definition m24 : N := 4294967040.
Definition ex_pkt (ttl : N) (len : nat) : pkt :=
  mkPkt ttl 167772170 167772682 0 (20 + N.of_nat len) 0 0 0 17 (repeat 0 len).

(* line  H0 -(net0)- R0 -(net1)- R1 -(net2)- H1  with correct routes *)
Definition ex_line (mtu1 : N) : cfg :=
  mkCfg [65535; mtu1; 65535]
    [ mkRcfg [ (mkNet 167772160 m24, (None, 0)); (mkNet 167772416 m24, (None, 1));
               (mkNet 167772672 m24, (Some 167772418, 1)) ]
             [167772161; 167772417] [0; 1];
      mkRcfg [ (mkNet 167772160 m24, (Some 167772417, 0)); (mkNet 167772416 m24, (None, 0));
               (mkNet 167772672 m24, (None, 1)) ]
             [167772418; 167772673] [1; 2] ]
    [ mkHcfg 0 167772170 m24 167772161 false; mkHcfg 2 167772682 m24 167772673 false ].

(* the same with R1 sending 10.0.2.0/24 back to R0: a routing loop *)
Definition ex_loop : cfg :=
  mkCfg [65535; 65535; 65535]
    [ mkRcfg [ (mkNet 167772160 m24, (None, 0)); (mkNet 167772416 m24, (None, 1));
               (mkNet 167772672 m24, (Some 167772418, 1)) ]
             [167772161; 167772417] [0; 1];
      mkRcfg [ (mkNet 167772160 m24, (Some 167772417, 0)); (mkNet 167772416 m24, (None, 0));
               (mkNet 167772672 m24, (Some 167772417, 0)) ]
             [167772418; 167772673] [1; 2] ]
    [ mkHcfg 0 167772170 m24 167772161 false; mkHcfg 2 167772682 m24 167772673 false ].

(* the hypotheses of [delivered] are satisfiable: the line above, towards H1 *)
Lemma ex_ranked :
  ranked (cfg_router (ex_line 65535)) (cfg_accepts (ex_line 65535)) (fun _ => cfg_topo (ex_line 65535))
         (ex_pkt 30 18) 1 (fun r => r = 0 \/ r = 1) (fun r => if r =? 0 then 1%nat else 0%nat).
Proof.
  split; [reflexivity |].
  intros k r p Pr (S1 & S2 & S3 & S4 & S5 & S6 & S7 & S8 & S9) T.
  assert (L : wire_len (set_ttl p (p_ttl p - 1)) = 38).
  { unfold wire_len. cbn [p_body set_ttl]. rewrite S9. reflexivity. }
  assert (R : forall rr, route_step rr p =
                match get_recipient (r_table rr) 167772682 with
                | None => Err err_no_route
                | Some (gw, slot) =>
                    if lenN (r_local_ips rr) <=? slot then Panic site_local_index
                    else if lenN (r_mtus rr) <=? slot then Panic site_pci_open
                    else Ok (AForward slot (next_hop_of gw 167772682) (set_ttl p (p_ttl p - 1)))
                end).
  { intros rr. rewrite route_step_eq, S2, S4, S7.
    destruct (N.eqb_spec (p_ttl p) 0) as [E0 | E0]; [lia |]. destruct (N.eqb_spec (p_ttl p) 1) as [E1 | E1]; [lia |]. reflexivity. }
  destruct Pr as [-> | ->].
  - exists 1, 167772418, (NRouter 1). rewrite R.
    split; [reflexivity |]. split; [reflexivity |].
    split.
    + unfold send_step. change (nthN (r_mtus (cfg_router (ex_line 65535) 0)) 1) with (Some 65535).
      rewrite L. reflexivity.
    + right. exists 1. split; [reflexivity |]. split; [right; reflexivity | cbn; lia].
  - exists 1, 167772682, (NHost 1). rewrite R.
    split; [reflexivity |]. split; [reflexivity |].
    split.
    + unfold send_step. change (nthN (r_mtus (cfg_router (ex_line 65535) 1)) 1) with (Some 65535).
      rewrite L. reflexivity.
    + left. reflexivity.
Qed.

(* a datagram on the line and the trace the model predicts for it *)
Definition ex_dgram : dgram := mkDgram 0 167772682 30 (repeat 0 10).
Definition ex_trace : list (N * frame) :=
  [ (0, mkFrame 0 (NHost 0) (Some (NRouter 0)) (ex_pkt 30 18));
    (0, mkFrame 1 (NRouter 0) (Some (NRouter 1)) (ex_pkt 29 18));
    (0, mkFrame 2 (NRouter 1) (Some (NHost 1)) (ex_pkt 28 18)) ].
(* where the code leaves the property: ARP handing a frame to a station that does not own the
   next hop *)
(* star  H0,H1 -(net0)- R0 -(net1)- H2 ; R0's route for 10.0.1.0/24 names slot 0 (net0) instead
   of slot 1; H1's application listens on 0.0.0.0 *)
Definition ex_bad : cfg :=
  mkCfg [65535; 65535]
    [ mkRcfg [ (mkNet 167772160 m24, (None, 0)); (mkNet 167772416 m24, (None, 0)) ]
             [167772161; 167772417] [0; 1] ]
    [ mkHcfg 0 167772170 m24 167772161 false; mkHcfg 0 167772171 m24 167772161 true;
      mkHcfg 1 167772428 m24 167772417 false ].
Definition ex_bad_pkt (ttl : N) : pkt :=
  mkPkt ttl 167772170 167772428 0 38 0 0 0 17 (repeat 0 18).

(* the trace of that misdelivery: the validator follows the OBSERVED receivers and accepts it as
   what the code does; [all_ideal] reports that ARP misbehaved in it *)
Definition ex_bad_dgram : dgram := mkDgram 0 167772428 30 (repeat 0 10).
Definition ex_bad_trace : list (N * frame) :=
  [ (0, mkFrame 0 (NHost 0) (Some (NRouter 0)) (ex_bad_pkt 30));
    (0, mkFrame 0 (NRouter 0) (Some (NHost 1)) (ex_bad_pkt 29)) ].
