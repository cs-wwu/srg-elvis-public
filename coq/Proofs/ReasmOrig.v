(* Concrete histories: the code BEFORE the repairs violates the property
   (model functions suffixed _orig), the repaired code handles the same
   histories, and the hypotheses of the positive theorems are satisfiable. *)
From Elvis Require Import Model.Base Model.Reasm Proofs.ReasmFacts Proofs.ReasmTrace.
Local Open Scope Z_scope.

(* a 16-octet datagram in two fragments of one 8-octet block each *)
Definition w_body : list Z := [0; 1; 2; 3; 4; 5; 6; 7; 8; 9; 10; 11; 12; 13; 14; 15].
Definition w_oh : hdr := mkHdr 5 0 36 7 0 0 64 17 0 1 2.
Definition w_p1 : hdr * list Z := (mkHdr 5 0 28 7 0 1 64 17 0 1 2, [0; 1; 2; 3; 4; 5; 6; 7]).
Definition w_p2 : hdr * list Z := (mkHdr 5 0 28 7 1 0 64 17 0 1 2, [8; 9; 10; 11; 12; 13; 14; 15]).
Definition w_D : bufid -> hdr * list Z := fun _ => (w_oh, w_body).
Definition w_key : bufid := (1, 2, 17, 7).
(* the second fragment arrives twice, then the first *)
Definition w_dup : list (event Z) :=
  [EvRecv (fst w_p2) (snd w_p2); EvRecv (fst w_p2) (snd w_p2); EvRecv (fst w_p1) (snd w_p1)].

Lemma w_wf : WfDgram w_oh w_body.
Proof. unfold WfDgram. cbn. lia. Qed.
Lemma w_piece1 : Piece w_oh w_body w_p1.
Proof. unfold Piece, pend. cbn. repeat split; try lia; try reflexivity. Qed.
Lemma w_piece2 : Piece w_oh w_body w_p2.
Proof. unfold Piece, pend. cbn. repeat split; try lia; try reflexivity. Qed.

Lemma w_dup_good : Forall (GoodEvent w_D) w_dup.
Proof.
  repeat constructor; try apply w_wf; try apply w_piece1; try apply w_piece2.
Qed.

(* original code: 24 octets come back for the 16-octet datagram *)
Lemma returns_original_orig_refuted :
  exists (D : bufid -> hdr * list Z) (evs : list (event Z)) r outs h m,
    Forall (GoodEvent D) evs /\ run_orig reasm_new evs = Ok (r, outs) /\
    In (ObsRecv (Complete h m)) outs /\ (h, m) <> D (buf_id h).
Proof.
  exists w_D, w_dup. eexists. eexists. eexists. eexists.
  split; [exact w_dup_good|]. split; [vm_compute; reflexivity|].
  split; [right; right; left; reflexivity|]. vm_compute. discriminate.
Qed.

(* repaired code, same history: the original datagram comes back *)
Lemma returns_original_witness :
  exists r t1 e1 t2 e2,
    run reasm_new w_dup =
      Ok (r, [ObsRecv (Incomplete t1 w_key e1); ObsRecv (Incomplete t2 w_key e2);
              ObsRecv (Complete w_oh w_body)]).
Proof. eexists. eexists. eexists. eexists. eexists. vm_compute. reflexivity. Qed.

(* original code: the first fragment arms the callback (k, 1); the datagram
   completes; its first fragment arrives again (the sender of elvis uses
   identification 0 for every datagram) and the stale callback discards the
   new buffer although a packet for k arrived after the callback was armed *)
Lemma expiry_orig_refuted :
  exists (h : hdr) (b : list Z) r1 t k e evs r2 outs,
    receive_orig reasm_new h b = Ok (r1, Incomplete t k e) /\
    run_orig r1 evs = Ok (r2, outs) /\
    recv_for k evs = true /\
    find k (r_segs r2) <> None /\ find k (r_segs (maybe_cull_orig r2 k e)) = None.
Proof.
  exists (fst w_p1), (snd w_p1). eexists. eexists. eexists. eexists.
  exists [EvRecv (fst w_p2) (snd w_p2); EvRecv (fst w_p1) (snd w_p1)]. eexists. eexists.
  split; [vm_compute; reflexivity|]. split; [vm_compute; reflexivity|].
  split; [vm_compute; reflexivity|]. split; [vm_compute; discriminate|vm_compute; reflexivity].
Qed.

(* repaired code, same history: the stale callback leaves the new buffer alone *)
Lemma expiry_witness :
  exists r1 t e r2 outs,
    receive reasm_new (fst w_p1) (snd w_p1) = Ok (r1, Incomplete t w_key e) /\
    run r1 [EvRecv (fst w_p2) (snd w_p2); EvRecv (fst w_p1) (snd w_p1)] = Ok (r2, outs) /\
    find w_key (r_segs r2) <> None /\ maybe_cull r2 w_key e = r2.
Proof.
  eexists. eexists. eexists. eexists. eexists.
  split; [vm_compute; reflexivity|]. split; [vm_compute; reflexivity|].
  split; [vm_compute; discriminate|vm_compute; reflexivity].
Qed.

Lemma good_history_example :
  Forall (GoodEvent w_D) w_dup /\ Z.of_nat (length w_dup) < U64MAX.
Proof. split; [exact w_dup_good|]. cbn. unfold U64MAX. lia. Qed.
