(* Facts about the operator semantics Model/RsSem.v used by the equality proofs of the generated files. *)
From Elvis Require Import Model.Base Model.RsSem.
Ltac Zify.zify_post_hook ::= Z.div_mod_to_equations.
Local Open Scope Z_scope.

(* renaming of panic sites and embedding of values between a hand model and a generated definition *)
Definition rmap {A B : Type} (f : A -> B) (sigma : Z -> Z) (r : result A) : result B :=
  match r with
  | Ok a => Ok (f a)
  | Err e => Err e
  | Panic s => Panic (sigma s)
  | OutOfFuel => OutOfFuel
  end.

Lemma to_be_4 : forall v, to_be 4 v = [v / 16777216 mod 256; v / 65536 mod 256; v / 256 mod 256; v mod 256].
Proof.
  intros v. unfold to_be.
  change (256 ^ Z.of_nat 3) with 16777216. change (256 ^ Z.of_nat 2) with 65536.
  change (256 ^ Z.of_nat 1) with 256. change (256 ^ Z.of_nat 0) with 1.
  rewrite Z.div_1_r. reflexivity.
Qed.

Lemma from_be_4 : forall a b c d, from_be [a; b; c; d] = ((a * 256 + b) * 256 + c) * 256 + d.
Proof. intros. unfold from_be. cbn [fold_left]. lia. Qed.

Lemma from_be_2 : forall a b, from_be [a; b] = a * 256 + b.
Proof. intros. unfold from_be. cbn [fold_left]. lia. Qed.

Lemma from_to_be_4 : forall v, 0 <= v < 4294967296 -> from_be (to_be 4 v) = v.
Proof. intros v Hv. rewrite to_be_4, from_be_4. lia. Qed.

Lemma to_from_be_4 : forall a b c d, 0 <= a < 256 -> 0 <= b < 256 -> 0 <= c < 256 -> 0 <= d < 256 ->
  to_be 4 (from_be [a; b; c; d]) = [a; b; c; d].
Proof.
  intros a b c d Ha Hb Hc Hd. rewrite to_be_4, from_be_4.
  f_equal; [lia|]. f_equal; [lia|]. f_equal; [lia|]. f_equal. lia.
Qed.

Lemma to_be_4_bytes : forall v, Forall (fun b => 0 <= b < 256) (to_be 4 v).
Proof. intros v. rewrite to_be_4. repeat constructor; lia. Qed.

(* the derived lexicographic order on the big-endian bytes is the numeric order *)
Lemma lex_cmp_be_4 : forall x y, 0 <= x < 4294967296 -> 0 <= y < 4294967296 ->
  lex_cmp (to_be 4 x) (to_be 4 y) = (x ?= y).
Proof.
  intros x y Hx Hy. rewrite !to_be_4. cbn [lex_cmp].
  destruct (Z.compare_spec (x / 16777216 mod 256) (y / 16777216 mod 256)) as [E1|E1|E1].
  2: { symmetry. apply Z.compare_lt_iff. lia. }
  2: { symmetry. apply Z.compare_gt_iff. lia. }
  destruct (Z.compare_spec (x / 65536 mod 256) (y / 65536 mod 256)) as [E2|E2|E2].
  2: { symmetry. apply Z.compare_lt_iff. lia. }
  2: { symmetry. apply Z.compare_gt_iff. lia. }
  destruct (Z.compare_spec (x / 256 mod 256) (y / 256 mod 256)) as [E3|E3|E3].
  2: { symmetry. apply Z.compare_lt_iff. lia. }
  2: { symmetry. apply Z.compare_gt_iff. lia. }
  destruct (Z.compare_spec (x mod 256) (y mod 256)) as [E4|E4|E4].
  - symmetry. apply Z.compare_eq_iff. lia.
  - symmetry. apply Z.compare_lt_iff. lia.
  - symmetry. apply Z.compare_gt_iff. lia.
Qed.

Lemma lex_leb_be_4 : forall x y, 0 <= x < 4294967296 -> 0 <= y < 4294967296 ->
  lex_leb (to_be 4 x) (to_be 4 y) = (x <=? y).
Proof.
  intros x y Hx Hy. unfold lex_leb. rewrite lex_cmp_be_4 by assumption.
  unfold Z.leb. destruct (x ?= y); reflexivity.
Qed.

Lemma lex_ltb_be_4 : forall x y, 0 <= x < 4294967296 -> 0 <= y < 4294967296 ->
  lex_ltb (to_be 4 x) (to_be 4 y) = (x <? y).
Proof.
  intros x y Hx Hy. unfold lex_ltb. rewrite lex_cmp_be_4 by assumption.
  unfold Z.ltb. destruct (x ?= y); reflexivity.
Qed.

Lemma list_eqb_be_4 : forall x y, 0 <= x < 4294967296 -> 0 <= y < 4294967296 ->
  list_eqb (to_be 4 x) (to_be 4 y) = (x =? y).
Proof.
  intros x y Hx Hy. rewrite !to_be_4. cbn [list_eqb].
  destruct (x =? y) eqn:E.
  - assert (x = y) by lia. subst y. rewrite !Z.eqb_refl. reflexivity.
  - destruct (x / 16777216 mod 256 =? y / 16777216 mod 256) eqn:E1; [|reflexivity].
    destruct (x / 65536 mod 256 =? y / 65536 mod 256) eqn:E2; [|reflexivity].
    destruct (x / 256 mod 256 =? y / 256 mod 256) eqn:E3; [|reflexivity].
    destruct (x mod 256 =? y mod 256) eqn:E4; [|reflexivity].
    exfalso. lia.
Qed.

Lemma land_of_N : forall a b, Z.land (Z.of_N a) (Z.of_N b) = Z.of_N (N.land a b).
Proof. intros a b. destruct a, b; reflexivity. Qed.

Lemma pos_ones_nonneg : forall p, 0 < pos_ones p.
Proof. induction p; cbn [pos_ones]; lia. Qed.

(* a boolean equality test on results, for statements proved by evaluating finite tables *)
Definition result_eqb {A} (eqb : A -> A -> bool) (x y : result A) : bool :=
  match x, y with
  | Ok a, Ok b => eqb a b
  | Err a, Err b | Panic a, Panic b => a =? b
  | OutOfFuel, OutOfFuel => true
  | _, _ => false
  end.
Lemma result_eqb_eq {A} (eqb : A -> A -> bool) : (forall a b, eqb a b = true -> a = b) ->
  forall x y, result_eqb eqb x y = true -> x = y.
Proof.
  intros E x y. destruct x, y; cbn [result_eqb]; intros H; try discriminate; try reflexivity; f_equal;
    (apply E, H) || (apply Z.eqb_eq, H).
Qed.
