(* Lemmas about the TCP header codec model (Model/TcpHdr.v). *)
From Elvis Require Import Model.Base Model.Bytes Model.Checksum Model.TcpHdr
  Proofs.BytesFacts Proofs.ChecksumFacts.
Local Open Scope Z_scope.

Definition ctl_arith (u a p r s f : bool) : Z :=
  b2zt u * 32 + b2zt a * 16 + b2zt p * 8 + b2zt r * 4 + b2zt s * 2 + b2zt f.
Lemma ctl_new_spec : forall u a p r s f,
  let c := ctl_new u a p r s f in
  c = ctl_arith u a p r s f /\ 0 <= c < 64 /\
  ctl_urg c = u /\ ctl_ack c = a /\ ctl_psh c = p /\ ctl_rst c = r /\ ctl_syn c = s /\ ctl_fin c = f.
Proof. intros [|] [|] [|] [|] [|] [|]; vm_compute; repeat split; intros; discriminate. Qed.
Lemma ctl_all_64_sweep :
  forallb (fun c => ctl_new (ctl_urg c) (ctl_ack c) (ctl_psh c) (ctl_rst c) (ctl_syn c) (ctl_fin c) =? c)
          (zrange 64) = true.
Proof. vm_compute. reflexivity. Qed.
Lemma ctl_all_64 : forall c, 0 <= c < 64 ->
  ctl_new (ctl_urg c) (ctl_ack c) (ctl_psh c) (ctl_rst c) (ctl_syn c) (ctl_fin c) = c.
Proof. intros c Hc. pose proof (zrange_forallb 64 _ ctl_all_64_sweep c Hc) as H. cbv beta in H. lia. Qed.
(* set_bit on every u8 value, every bit index of a u8, both states: sets that bit, keeps the others *)
Definition set_bit_ok (c bit : Z) (st : bool) : bool :=
  let c' := ctl_set_bit c bit st in
  Bool.eqb (ctl_bit c' bit) st && (0 <=? c') && (c' <? 256) &&
  forallb (fun k => (k =? bit) || Bool.eqb (Z.testbit c' k) (Z.testbit c k)) (zrange 8).
Lemma ctl_set_bit_sweep :
  forallb (fun c => forallb (fun bit => set_bit_ok c bit true && set_bit_ok c bit false) (zrange 8))
          (zrange 256) = true.
Proof. vm_compute. reflexivity. Qed.
Lemma ctl_set_bit_spec : forall c bit st, 0 <= c < 256 -> 0 <= bit < 8 ->
  ctl_bit (ctl_set_bit c bit st) bit = st /\ 0 <= ctl_set_bit c bit st < 256 /\
  forall k, 0 <= k < 8 -> k <> bit -> Z.testbit (ctl_set_bit c bit st) k = Z.testbit c k.
Proof.
  intros c bit st Hc Hb.
  pose proof (zrange_forallb2 _ 256 8 ctl_set_bit_sweep c bit Hc Hb) as H1. cbv beta in H1.
  apply andb_prop in H1. destruct H1 as [Ht Hf].
  assert (K : set_bit_ok c bit st = true) by (destruct st; assumption).
  unfold set_bit_ok in K. cbv zeta in K.
  apply andb_prop in K. destruct K as [K K4]. apply andb_prop in K. destruct K as [K K3].
  apply andb_prop in K. destruct K as [K1 K2]. apply Bool.eqb_prop in K1.
  split; [exact K1|]. split; [lia|].
  intros k Hk Hne. pose proof (zrange_forallb 8 _ K4 k Hk) as Q. cbv beta in Q.
  apply orb_prop in Q. destruct Q as [Q|Q]; [lia | apply Bool.eqb_prop; exact Q].
Qed.

Lemma byte_masks_sweep :
  forallb (fun b => (band b 240 =? b / 16 * 16) && (band b 192 =? b / 64 * 64)) (zrange 256) = true.
Proof. vm_compute. reflexivity. Qed.
Lemma band_240 : forall b, byte b -> band b 240 = b / 16 * 16.
Proof. intros b Hb. pose proof (zrange_forallb 256 _ byte_masks_sweep b Hb) as H. cbv beta in H. lia. Qed.
Lemma band_192 : forall b, byte b -> band b 192 = b / 64 * 64.
Proof. intros b Hb. pose proof (zrange_forallb 256 _ byte_masks_sweep b Hb) as H. cbv beta in H. lia. Qed.

(* what the decoder (l.58-94) and the builder (l.242-260) feed to the accumulator *)
Definition tcp_items (sp dp seq ack w1213 wnd urg : Z) (rest : list Z) (sa da plen : Z) : list ckitem :=
  [I16 sp; I16 dp; I32 seq; I32 ack; I16 w1213; I16 wnd; I16 urg; IRem rest; I32 sa; I32 da; I8 0 6; I16 plen].
Definition tcp_bitems (sp dp seq ack hi ctl wnd urg : Z) (text : list Z) (sa da len : Z) : list ckitem :=
  [IRem text; I32 sa; I32 da; I8 0 6; I16 len; I16 sp; I16 dp; I32 seq; I32 ack; I8 hi ctl; I16 wnd; I16 urg].
Definition tcp_bs_items (bs : list Z) (sa da plen : Z) : list ckitem :=
  tcp_items (w16 bs 0) (w16 bs 2) (w32 bs 4) (w32 bs 8) (w16 bs 12) (w16 bs 14) (w16 bs 18) (skipn 20 bs) sa da plen.
Definition tcp_sum (ck : bool) (bs : list Z) (plen sa da : Z) : Z := as_u16 ck (ck_run ck (tcp_bs_items bs sa da plen)).
Definition tcp_view (fck ck : bool) (bs : list Z) (plen sa da : Z) : tcp_hdr :=
  mk_tcp (w16 bs 0) (w16 bs 2) (w32 bs 4) (w32 bs 8) (shr (nth 12 bs 0) 4) (band (nth 13 bs 0) 63)
         (w16 bs 14) (w16 bs 18) (if fck then w16 bs 16 else tcp_sum ck bs plen sa da).

Lemma tcp_decode_ge20 : forall fck ck bs plen sa da, (20 <= length bs)%nat ->
  tcp_decode fck ck bs plen sa da =
  if negb (shr (nth 12 bs 0) 4 =? 5) then Err ET_OPTS else
  if 65535 <? plen then Err ET_LONG else
  if ck_match fck (tcp_sum ck bs plen sa da) (w16 bs 16) then Ok (tcp_view fck ck bs plen sa da)
  else Err (ET_CK (w16 bs 16) (tcp_sum ck bs plen sa da)).
Proof. intros fck ck bs plen sa da H. do 20 (destruct bs as [|? bs]; [cbn in H; lia|]). reflexivity. Qed.

Lemma tcp_decode_short : forall fck ck bs plen sa da, (length bs < 20)%nat ->
  exists e, tcp_decode fck ck bs plen sa da = Err e.
Proof.
  intros fck ck bs plen sa da Hl. unfold tcp_decode.
  do 20 (destruct bs as [|? bs];
         [ cbn [bind ok_or next_u16_be next_u32_be next_2 fst snd]; cbv zeta; kill_ifs_err | ]).
  cbn in Hl. lia.
Qed.

Lemma tcp_decode_ok_iff : forall fck ck bs plen sa da h, tcp_decode fck ck bs plen sa da = Ok h <->
  (20 <= length bs)%nat /\ shr (nth 12 bs 0) 4 = 5 /\ plen <= 65535 /\
  ck_match fck (tcp_sum ck bs plen sa da) (w16 bs 16) = true /\ h = tcp_view fck ck bs plen sa da.
Proof.
  intros fck ck bs plen sa da h. destruct (Nat.ltb_spec (length bs) 20) as [Hs|Hl].
  - destruct (tcp_decode_short fck ck bs plen sa da Hs) as [e ->]. split; [discriminate | lia].
  - rewrite tcp_decode_ge20 by assumption.
    destruct (shr (nth 12 bs 0) 4 =? 5) eqn:E1; cbn [negb]; [|split; [discriminate | lia]].
    destruct (65535 <? plen) eqn:E2; [split; [discriminate | lia]|].
    destruct (ck_match fck _ _); [|split; [discriminate | intros (_ & _ & _ & [=] & _)]].
    split; [intros [= <-] | intros (_ & _ & _ & _ & ->)]; repeat split; lia.
Qed.

(* an accepted header carries the received field, also before the repair *)
Lemma tcp_view_ck : forall fck ck bs plen sa da, ck_match fck (tcp_sum ck bs plen sa da) (w16 bs 16) = true ->
  t_ck (tcp_view fck ck bs plen sa da) = w16 bs 16.
Proof. intros [|] ck bs plen sa da H; [reflexivity | apply match_orig_iff, H]. Qed.

Lemma tcp_items_ok : forall bs sa da plen, bytes bs -> u32 sa -> u32 da -> u16 plen ->
  Forall item_ok (tcp_bs_items bs sa da plen).
Proof. intros. unfold tcp_bs_items. items_ok. Qed.
Lemma tcp_sum_on : forall bs plen sa da, bytes bs -> u32 sa -> u32 da -> u16 plen ->
  tcp_sum true bs plen sa da = as_u16 true (oc_norm (items_sum (tcp_bs_items bs sa da plen))).
Proof. intros. unfold tcp_sum. rewrite ck_run_norm by (apply tcp_items_ok; assumption). reflexivity. Qed.

Lemma tcp_build_ok : forall ck h sa da text tlen, 0 <= tlen -> tlen + 20 <= 65535 ->
  tcp_build ck h sa da text tlen =
  Ok (mk_tcp (t_sport h) (t_dport h) (t_seq h) (t_ack h) 5 (t_ctl h) (t_wnd h) (t_urg h)
             (as_u16 ck (ck_run ck (tcp_bitems (t_sport h) (t_dport h) (t_seq h) (t_ack h) 80 (t_ctl h)
                                               (t_wnd h) (t_urg h) text sa da (tlen + 20))))).
Proof.
  intros. unfold tcp_build. cbv zeta.
  replace (usize_max_t <? tlen + 20) with false by (unfold usize_max_t; lia).
  replace (65535 <? tlen + 20) with false by lia. reflexivity.
Qed.
Lemma tcp_build_panics_iff : forall ck h sa da text tlen,
  (exists s, tcp_build ck h sa da text tlen = Panic s) <-> usize_max_t < tlen + 20.
Proof.
  intros. unfold tcp_build. cbv zeta.
  destruct (usize_max_t <? tlen + 20) eqn:E1.
  - split; [lia | eauto].
  - destruct (65535 <? tlen + 20); (split; [intros [s Hs]; discriminate | lia]).
Qed.

(* decoder and builder feed the same words, in another order *)
Lemma tcp_runs_agree : forall ck sp dp seq ack hi ctl wnd urg text sa da len,
  u16 sp -> u16 dp -> u32 seq -> u32 ack -> byte hi -> byte ctl -> u16 wnd -> u16 urg -> bytes text ->
  u32 sa -> u32 da -> u16 len ->
  ck_run ck (tcp_items sp dp seq ack (of_be16 hi ctl) wnd urg text sa da len) =
  ck_run ck (tcp_bitems sp dp seq ack hi ctl wnd urg text sa da len).
Proof.
  intros. apply ck_run_sum; [items_ok | items_ok |].
  unfold items_sum, tcp_items, tcp_bitems, of_be16. cbn [map item_sum zsum fold_right]. lia.
Qed.

Lemma tcp_encode_5 : forall sp dp seq ack ctl wnd urg c,
  tcp_encode (mk_tcp sp dp seq ack 5 ctl wnd urg c) =
  be16 sp ++ be16 dp ++ be32 seq ++ be32 ack ++ [80; ctl] ++ be16 wnd ++ be16 c ++ be16 urg.
Proof. reflexivity. Qed.

Lemma tcp_decode_built : forall fck ck sp dp seq ack ctl wnd urg sa da text len,
  u16 sp -> u16 dp -> u32 seq -> u32 ack -> 0 <= ctl < 64 -> u16 wnd -> u16 urg -> u32 sa -> u32 da ->
  bytes text -> u16 len ->
  let c := as_u16 ck (ck_run ck (tcp_bitems sp dp seq ack 80 ctl wnd urg text sa da len)) in
  u16 c /\
  tcp_decode fck ck (tcp_encode (mk_tcp sp dp seq ack 5 ctl wnd urg c) ++ text) len sa da
    = Ok (mk_tcp sp dp seq ack 5 ctl wnd urg c).
Proof.
  intros fck ck sp dp seq ack ctl wnd urg sa da text len Hsp Hdp Hseq Hack Hctl Hwnd Hurg Hsa Hda Ht Hn c.
  assert (Bctl : byte ctl) by (unfold byte; lia).
  assert (Hc : u16 c) by (apply cksum_u16; items_ok).
  split; [exact Hc|].
  rewrite tcp_encode_5. unfold be16, be32. cbn [app]. rewrite tcp_decode_ge20 by (cbn [length]; lia).
  unfold tcp_view, tcp_sum, tcp_bs_items, w16, w32. cbn [nth skipn].
  rewrite !of_be16_be16, !of_be32_be32 by assumption.
  rewrite tcp_runs_agree by (assumption || auto with ck). fold c.
  replace (shr 80 4 =? 5) with true by reflexivity. cbn [negb].
  replace (65535 <? len) with false by (unfold u16 in Hn; lia).
  unfold ck_match. rewrite Z.eqb_refl. cbn [orb].
  rewrite band_63, (Z.mod_small ctl) by lia. destruct fck; reflexivity.
Qed.

Lemma tcp_decode_encode : forall fck ck h0 sa da text,
  tcp_fields_ok h0 -> u32 sa -> u32 da -> bytes text -> Z.of_nat (length text) + 20 <= 65535 ->
  exists h, tcp_build ck h0 sa da text (Z.of_nat (length text)) = Ok h /\
            length (tcp_encode h) = 20%nat /\
            t_sport h = t_sport h0 /\ t_dport h = t_dport h0 /\ t_seq h = t_seq h0 /\ t_ack h = t_ack h0 /\
            t_doff h = 5 /\ t_ctl h = t_ctl h0 /\ t_wnd h = t_wnd h0 /\ t_urg h = t_urg h0 /\
            tcp_decode fck ck (tcp_encode h ++ text) (Z.of_nat (length text) + 20) sa da = Ok h.
Proof.
  intros fck ck [sp dp seq ack doff ctl wnd urg cks] sa da text W Hsa Hda Ht Hlen.
  destruct W as (Wsp & Wdp & Wseq & Wack & Wctl & Wwnd & Wurg).
  cbn [t_sport t_dport t_seq t_ack t_ctl t_wnd t_urg] in *.
  assert (Hn : u16 (Z.of_nat (length text) + 20)) by (unfold u16; lia).
  rewrite tcp_build_ok by lia. cbn [t_sport t_dport t_seq t_ack t_ctl t_wnd t_urg].
  eexists. split; [reflexivity|]. split; [reflexivity|].
  cbn [t_sport t_dport t_seq t_ack t_doff t_ctl t_wnd t_urg]. do 8 (split; [reflexivity|]).
  apply tcp_decode_built; assumption.
Qed.

Lemma firstn20_split : forall bs : list Z, (20 <= length bs)%nat ->
  firstn 20 bs = firstn 12 bs ++ [nth 12 bs 0; nth 13 bs 0] ++ firstn 6 (skipn 14 bs).
Proof. intros bs H. do 20 (destruct bs as [|? bs]; [cbn in H; lia|]). reflexivity. Qed.

Lemma tcp_encode_decode_masked : forall fck ck bs plen sa da h, bytes bs ->
  tcp_decode fck ck bs plen sa da = Ok h ->
  tcp_encode h = firstn 12 bs ++ [band (nth 12 bs 0) 240; band (nth 13 bs 0) 63] ++ firstn 6 (skipn 14 bs).
Proof.
  intros fck ck bs plen sa da h Hb H.
  apply tcp_decode_ok_iff in H as (L & Hd & Hp & Hm & ->).
  pose proof (tcp_view_ck _ _ _ _ _ _ Hm) as Eck. pose proof (bytes_nth bs 12 Hb) as B12.
  unfold tcp_encode. rewrite Eck. cbn [tcp_view t_sport t_dport t_seq t_ack t_doff t_ctl t_wnd t_urg].
  rewrite !be16_w16, !be32_w32 by assumption.
  rewrite band_240, shr_4, shl_4 by assumption.
  replace (nth 12 bs 0 / 16 * 16 mod 256) with (nth 12 bs 0 / 16 * 16) by (unfold byte in B12; lia).
  clear -L. do 20 (destruct bs as [|? bs]; [cbn in L; lia|]). reflexivity.
Qed.
Lemma tcp_encode_decode_iff : forall fck ck bs plen sa da h, bytes bs ->
  tcp_decode fck ck bs plen sa da = Ok h ->
  (tcp_encode h = firstn 20 bs <-> tcp_reserved_bits bs = false).
Proof.
  intros fck ck bs plen sa da h Hb H.
  rewrite (tcp_encode_decode_masked fck ck bs plen sa da h Hb H).
  apply tcp_decode_ok_iff in H as (L & _). rewrite (firstn20_split bs L).
  pose proof (bytes_nth bs 12 Hb) as B12. pose proof (bytes_nth bs 13 Hb) as B13.
  unfold tcp_reserved_bits. rewrite band_15, band_63, band_192, band_240 by assumption.
  unfold byte in *. clear -B12 B13. revert B12 B13. generalize (nth 12 bs 0) (nth 13 bs 0). intros x y B12 B13. split.
  - intro E. apply app_inv_head in E. injection E as E12 E13. lia.
  - intro E. replace (x / 16 * 16) with x by lia. replace (y mod 64) with y by lia. reflexivity.
Qed.
(* reserved bits set in bytes 12 and 13: accepted, and re-encoded without them *)
Definition tcp_reserved_witness : list Z :=
  [0; 1; 0; 2; 0; 0; 0; 3; 0; 0; 0; 4; 95; 194; 0; 5; 0; 0; 0; 6].
Lemma tcp_matches_rfc : forall sp dp seq ack doff u a p r s f wnd cks urgp,
  u16 sp -> u16 dp -> u32 seq -> u32 ack -> 0 <= doff < 16 -> u16 wnd -> u16 cks -> u16 urgp ->
  tcp_encode (mk_tcp sp dp seq ack doff (ctl_new u a p r s f) wnd urgp cks) =
  rfc9293_bytes sp dp seq ack doff 0 0 0 (b2zt u) (b2zt a) (b2zt p) (b2zt r) (b2zt s) (b2zt f) wnd cks urgp.
Proof.
  intros sp dp seq ack doff u a p r s f wnd cks urgp Hsp Hdp Hseq Hack Hdoff Hwnd Hcks Hurg.
  destruct (ctl_new_spec u a p r s f) as (E & Rc & _). cbv zeta in E, Rc.
  unfold tcp_encode. cbn [t_sport t_dport t_seq t_ack t_doff t_ctl t_wnd t_urg t_ck].
  rewrite E in *. unfold ctl_arith in *. rewrite shl_4.
  generalize dependent (b2zt u). intros xu. generalize dependent (b2zt a). intros xa.
  generalize dependent (b2zt p). intros xp. generalize dependent (b2zt r). intros xr.
  generalize dependent (b2zt s). intros xs. generalize dependent (b2zt f). intros xf. intros.
  assert (Hb : forall x, 0 <= b2zt x < 2) by (intros [|]; cbn; lia).
  unfold rfc9293_bytes, octets32t, be16, be32, u16, u32 in *. norm_pow. cbn [app].
  list_eq.
Qed.
Lemma tcp_decode_fields_rfc : forall fck ck bs plen sa da h, bytes bs ->
  tcp_decode fck ck bs plen sa da = Ok h ->
  t_sport h = t_sport (rfc9293_fields bs) /\ t_dport h = t_dport (rfc9293_fields bs) /\
  t_seq h = t_seq (rfc9293_fields bs) /\ t_ack h = t_ack (rfc9293_fields bs) /\
  t_doff h = t_doff (rfc9293_fields bs) /\ t_ctl h = t_ctl (rfc9293_fields bs) /\
  t_wnd h = t_wnd (rfc9293_fields bs) /\ t_urg h = t_urg (rfc9293_fields bs) /\
  t_ck h = t_ck (rfc9293_fields bs).
Proof.
  intros fck ck bs plen sa da h Hb H.
  apply tcp_decode_ok_iff in H as (L & _ & _ & Hm & ->). rewrite (tcp_view_ck _ _ _ _ _ _ Hm).
  cbn [tcp_view t_sport t_dport t_seq t_ack t_doff t_ctl t_wnd t_urg]. clear Hm.
  do 20 (destruct bs as [|? bs]; [cbn in L; lia|]).
  repeat (apply bytes_cons in Hb; let B := fresh "B" in destruct Hb as [B Hb]).
  unfold rfc9293_fields, trow, tfld, w16, w32.
  cbn [Nat.mul Nat.add nth t_sport t_dport t_seq t_ack t_doff t_ctl t_wnd t_urg t_ck].
  rewrite shr_4, band_63. unfold of_be16, of_be32, byte in *. norm_pow.
  repeat split; lia.
Qed.

Lemma tcp_total_sum : forall sa da plen bs, bytes bs -> (20 <= length bs)%nat -> u32 sa -> u32 da -> u16 plen ->
  wsum (pseudo sa da 6 plen ++ bs) = items_sum (tcp_bs_items bs sa da plen) + w16 bs 16.
Proof.
  intros sa da plen bs Hb L Hsa Hda Hp. rewrite wsum_app_even by reflexivity.
  rewrite wsum_pseudo by auto with ck.
  unfold items_sum, tcp_bs_items, tcp_items. cbn [map item_sum zsum fold_right].
  rewrite !halves_w32 by assumption. clear Hb.
  do 20 (destruct bs as [|? bs]; [cbn in L; lia|]).
  rewrite !wsum_two. unfold w16, of_be16. cbn [nth skipn]. lia.
Qed.

Lemma tcp_items_pos : forall sp dp seq ack w wnd urg rest sa da plen,
  Forall item_ok (tcp_items sp dp seq ack w wnd urg rest sa da plen) ->
  0 < items_sum (tcp_items sp dp seq ack w wnd urg rest sa da plen).
Proof.
  intros. apply (items_sum_pos _ 0 6); [assumption | unfold tcp_items; do 10 right; left; reflexivity | lia].
Qed.
Lemma tcp_sum_pos : forall bs sa da plen, bytes bs -> u32 sa -> u32 da -> u16 plen ->
  0 < items_sum (tcp_bs_items bs sa da plen).
Proof. intros. apply tcp_items_pos, tcp_items_ok; assumption. Qed.

Lemma tcp_accepted_verifies : forall fck plen sa da, u32 sa -> u32 da -> 0 <= plen -> forall bs h, bytes bs ->
  tcp_decode fck true bs plen sa da = Ok h ->
  rfc1071_verifies (pseudo sa da 6 plen ++ bs) = true.
Proof.
  intros fck plen sa da Hsa Hda Hpl bs h Hb H.
  apply tcp_decode_ok_iff in H as (L & _ & Hp & Hm & _).
  assert (Hplen : u16 plen) by (unfold u16; lia).
  rewrite verifies_wsum by (apply bytes_app; split; [apply pseudo_bytes; auto with ck | assumption]).
  rewrite tcp_total_sum by assumption. apply Z.eqb_eq.
  rewrite tcp_sum_on in Hm by assumption.
  apply (cksum_accept_verifies fck); auto using tcp_sum_pos with ck.
Qed.

Lemma tcp_accept_iff : forall bs plen sa da, bytes bs -> (20 <= length bs)%nat -> u32 sa -> u32 da -> 0 <= plen ->
  ((exists h, tcp_decode true true bs plen sa da = Ok h) <->
   shr (nth 12 bs 0) 4 = 5 /\ plen <= 65535 /\ rfc1071_verifies (pseudo sa da 6 plen ++ bs) = true).
Proof.
  intros bs plen sa da Hb Hl Hsa Hda Hpl. split.
  - intros [h H]. pose proof H as H'. apply tcp_decode_ok_iff in H' as (_ & Hd & Hp & _).
    split; [exact Hd|]. split; [exact Hp|]. eapply tcp_accepted_verifies; eassumption.
  - intros (Hd & Hp & Hv). assert (Hplen : u16 plen) by (unfold u16; lia).
    eexists. apply tcp_decode_ok_iff. repeat split; try assumption.
    rewrite verifies_wsum in Hv by (apply bytes_app; split; [apply pseudo_bytes; auto with ck | assumption]).
    rewrite tcp_total_sum in Hv by assumption. apply Z.eqb_eq in Hv.
    rewrite tcp_sum_on by assumption.
    apply verify_iff_match_fixed; auto using tcp_sum_pos with ck.
Qed.

Lemma tcp_emitted_verifies : forall h0 sa da text h,
  tcp_fields_ok h0 -> u32 sa -> u32 da -> bytes text -> Z.of_nat (length text) + 20 <= 65535 ->
  tcp_build true h0 sa da text (Z.of_nat (length text)) = Ok h ->
  rfc1071_verifies (pseudo sa da 6 (Z.of_nat (length text) + 20) ++ tcp_encode h ++ text) = true.
Proof.
  intros [sp dp seq ack doff ctl wnd urg cks] sa da text h W Hsa Hda Ht Hlen H.
  destruct W as (Wsp & Wdp & Wseq & Wack & Wctl & Wwnd & Wurg).
  cbn [t_sport t_dport t_seq t_ack t_ctl t_wnd t_urg] in *.
  assert (Hn : u16 (Z.of_nat (length text) + 20)) by (unfold u16; lia).
  rewrite tcp_build_ok in H by lia. apply Ok_inj in H. subst h.
  cbn [t_sport t_dport t_seq t_ack t_ctl t_wnd t_urg].
  destruct (tcp_decode_built true true sp dp seq ack ctl wnd urg sa da text _
              Wsp Wdp Wseq Wack Wctl Wwnd Wurg Hsa Hda Ht Hn) as [Hc Hd].
  eapply (tcp_accepted_verifies true); [exact Hsa | exact Hda | | | exact Hd]; [lia|].
  rewrite tcp_encode_5.
  repeat (apply bytes_app; split); try apply be16_bytes; try apply be32_bytes; try assumption.
  repeat (apply bytes_cons; split; [unfold byte; lia|]). constructor.
Qed.

Lemma tcp_accepts_reference : forall sp dp seq ack ctl wnd urg sa da text,
  u16 sp -> u16 dp -> u32 seq -> u32 ack -> 0 <= ctl < 64 -> u16 wnd -> u16 urg -> u32 sa -> u32 da ->
  bytes text -> Z.of_nat (length text) + 20 <= 65535 ->
  let len := Z.of_nat (length text) + 20 in
  let c := rfc1071_checksum (pseudo sa da 6 len ++ tcp_encode (mk_tcp sp dp seq ack 5 ctl wnd urg 0) ++ text) in
  tcp_decode true true (tcp_encode (mk_tcp sp dp seq ack 5 ctl wnd urg c) ++ text) len sa da
    = Ok (mk_tcp sp dp seq ack 5 ctl wnd urg c).
Proof.
  intros sp dp seq ack ctl wnd urg sa da text Hsp Hdp Hseq Hack Hctl Hwnd Hurg Hsa Hda Ht Hlen len c.
  assert (Hn : u16 len) by (subst len; unfold u16; lia).
  assert (Bctl : byte ctl) by (unfold byte; lia).
  assert (Hok : Forall item_ok (tcp_items sp dp seq ack (of_be16 80 ctl) wnd urg text sa da len)) by items_ok.
  pose proof (tcp_items_pos _ _ _ _ _ _ _ _ _ _ _ Hok) as Hpos.
  remember (items_sum (tcp_items sp dp seq ack (of_be16 80 ctl) wnd urg text sa da len)) as S eqn:ES.
  assert (Hc : c = 65535 - oc_norm S).
  { subst c. rewrite tcp_encode_5, checksum_wsum.
    2:{ apply bytes_app. split; [apply pseudo_bytes; auto with ck|].
        repeat (apply bytes_app; split); try apply be16_bytes; try apply be32_bytes; try assumption.
        repeat (apply bytes_cons; split; auto with ck). constructor. }
    do 2 f_equal. rewrite wsum_app_even, wsum_pseudo by (reflexivity || auto with ck).
    unfold be16, be32. cbn [app]. rewrite !wsum_two, ES.
    unfold items_sum, tcp_items. cbn [map item_sum zsum fold_right].
    unfold halves, of_be16, u16, u32 in *. lia. }
  pose proof (oc_norm_range S (Z.lt_le_incl _ _ Hpos)) as Rn.
  assert (Rc : u16 c) by (unfold u16; lia).
  rewrite tcp_encode_5. unfold be16, be32. cbn [app]. rewrite tcp_decode_ge20 by (cbn [length]; lia).
  unfold tcp_view, tcp_sum, tcp_bs_items, w16, w32. cbn [nth skipn].
  rewrite !of_be16_be16, !of_be32_be32 by assumption.
  replace (shr 80 4 =? 5) with true by reflexivity. cbn [negb].
  replace (65535 <? len) with false by (unfold u16 in Hn; lia).
  rewrite ck_run_norm, <- ES by exact Hok.
  rewrite Hc at 1. rewrite cksum_reference by exact Hpos.
  rewrite band_63, (Z.mod_small ctl) by lia. reflexivity.
Qed.

(* before the repair: a conforming segment whose other words sum to 0xffff (field 0x0000) was
   rejected *)
Definition tcp_ffff_witness : list Z :=
  [0; 0; 0; 0; 0; 0; 0; 0; 0; 0; 0; 0; 80; 0; 175; 229; 0; 0; 0; 0].
Lemma tcp_decode_rfc : forall fck ck sp dp seq ack u a p r s f wnd urg sa da text,
  u16 sp -> u16 dp -> u32 seq -> u32 ack -> u16 wnd -> u16 urg -> u32 sa -> u32 da ->
  bytes text -> Z.of_nat (length text) + 20 <= 65535 ->
  let n := Z.of_nat (length text) in
  let ctl := ctl_new u a p r s f in
  exists c, u16 c /\
    tcp_build ck (mk_tcp sp dp seq ack 0 ctl wnd urg 0) sa da text n = Ok (mk_tcp sp dp seq ack 5 ctl wnd urg c) /\
    tcp_decode fck ck
      (rfc9293_bytes sp dp seq ack 5 0 0 0 (b2zt u) (b2zt a) (b2zt p) (b2zt r) (b2zt s) (b2zt f) wnd c urg ++ text)
      (n + 20) sa da = Ok (mk_tcp sp dp seq ack 5 ctl wnd urg c).
Proof.
  intros fck ck sp dp seq ack u a p r s f wnd urg sa da text Hsp Hdp Hseq Hack Hwnd Hurg Hsa Hda Ht Hlen n ctl.
  destruct (ctl_new_spec u a p r s f) as (_ & Rc & _). cbv zeta in Rc. fold ctl in Rc.
  assert (Hn : u16 (n + 20)) by (subst n; unfold u16; lia).
  destruct (tcp_decode_built fck ck sp dp seq ack ctl wnd urg sa da text _
              Hsp Hdp Hseq Hack Rc Hwnd Hurg Hsa Hda Ht Hn) as [Hc Hd].
  eexists. split; [exact Hc|]. split.
  - rewrite tcp_build_ok by (subst n; lia). reflexivity.
  - subst ctl. rewrite <- tcp_matches_rfc by (assumption || lia). exact Hd.
Qed.
