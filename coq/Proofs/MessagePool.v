(* C07: every range form against Vec slicing; pool steps, histories, frame. *)
From Elvis Require Import Model.Base Model.Message Proofs.BaseFacts Proofs.ListFacts Proofs.MessageFacts.
Local Open Scope N_scope.

(* outcome relation: same kind of outcome, related values *)
Definition rel {A B} (P : A -> B -> Prop) (r : result A) (v : result B) : Prop :=
  match r, v with
  | Ok a, Ok b => P a b
  | Panic _, Panic _ => True
  | Err _, Err _ => True
  | _, _ => False
  end.

Lemma rel_bind : forall {A B C D} (P : A -> B -> Prop) (Q : C -> D -> Prop) r v f g,
  rel P r v -> (forall a b, P a b -> rel Q (f a) (g b)) -> rel Q (bind r f) (bind v g).
Proof.
  intros A B C D P Q r v f g H K. destruct r, v; cbn in *; try contradiction; auto.
Qed.

Definition Pm (m : msg) (v : list N) : Prop := WF m /\ bytes_of m = v.
Definition Ppool (p : list msg) (vs : list (list N)) : Prop := Forall WF p /\ map bytes_of p = vs.
Definition Pm2 (a : msg * msg) (b : list N * list N) : Prop := Pm (fst a) (fst b) /\ Pm (snd a) (snd b).

Lemma rel_slice_inner : forall m s len, WF m ->
  rel Pm (msg_slice_inner m s len)
         (vsub (bytes_of m) s (match len with Some l => s + l | None => blen (bytes_of m) end)).
Proof.
  intros m s len W. pose proof W as (_ & Hl & Hm). unfold vsub.
  destruct (N.le_gt_cases (s + opt_len len) (mlen m)) as [Hin|Hout].
  - destruct (slice_inner_ok m s len W Hin) as (m' & E & W' & B). rewrite E.
    destruct len as [l|]; cbn [opt_len new_len] in *.
    + destruct (N.ltb_spec (s + l) s); [lia|]. destruct (N.ltb_spec (blen (bytes_of m)) (s + l)); [lia|].
      cbn [rel]. split; [assumption|]. rewrite B. do 2 f_equal. lia.
    + destruct (N.ltb_spec (blen (bytes_of m)) s); [lia|].
      destruct (N.ltb_spec (blen (bytes_of m)) (blen (bytes_of m))); [lia|].
      cbn [rel]. split; [assumption|]. rewrite B. do 2 f_equal. lia.
  - destruct (slice_inner_panic m s len Hout) as (x & E). rewrite E.
    destruct len as [l|]; cbn [opt_len] in *.
    + destruct (N.ltb_spec (s + l) s); [exact I|]. destruct (N.ltb_spec (blen (bytes_of m)) (s + l)); [exact I|lia].
    + destruct (N.ltb_spec (blen (bytes_of m)) s); [exact I|lia].
Qed.

Lemma rel_slice_some : forall m s l, WF m ->
  rel Pm (msg_slice_inner m s (Some l)) (vsub (bytes_of m) s (s + l)).
Proof. intros m s l W. exact (rel_slice_inner m s (Some l) W). Qed.

Lemma rel_slice : forall m v r, Pm m v -> range_ok r -> rel Pm (msg_slice m r) (vslice v r).
Proof.
  intros m v r (W & <-) Hr. pose proof W as (_ & Hl & Hm).
  destruct r as [s e|s| |s e|e|e]; unfold msg_slice; cbn [range_into vslice bind range_ok] in *.
  - (* s..e *)
    replace (if s <? e then e - s else 0) with (e - s) by (destruct (N.ltb_spec s e); lia).
    replace e with (s + (e - s)) at 2 by lia. now apply rel_slice_some.
  - (* s.. *) exact (rel_slice_inner m s None W).
  - (* .. *)
    destruct (slice_inner_ok m 0 None W) as (m' & E & W' & B); [cbn [opt_len]; lia|].
    rewrite E. cbn [rel new_len] in *. split; [assumption|]. rewrite B. cbn [N.to_nat skipn].
    rewrite N.sub_0_r, Hl, to_nat_blen. apply firstn_all.
  - (* s..=e *)
    destruct (N.leb_spec USIZE_MAX e) as [He|He].
    + rewrite uadd_panic by lia. exact I.
    + rewrite uadd_ok by lia. cbn [bind].
      destruct (N.lt_ge_cases (e + 1) s) as [Hs|Hs].
      * rewrite usub_panic by assumption. cbn [bind]. unfold vsub.
        destruct (N.ltb_spec (e + 1) s); [exact I|lia].
      * rewrite usub_ok by assumption. cbn [bind].
        replace (e + 1) with (s + (e + 1 - s)) at 2 by lia. now apply rel_slice_some.
  - (* ..e *) replace e with (0 + e) at 2 by lia. now apply rel_slice_some.
  - (* ..=e *)
    destruct (N.leb_spec USIZE_MAX e) as [He|He].
    + rewrite uadd_panic by lia. exact I.
    + rewrite uadd_ok by lia. cbn [bind].
      replace (e + 1) with (0 + (e + 1)) at 2 by lia. now apply rel_slice_some.
Qed.

(* the remark: `s..e` with e < s.  The code builds SliceRange{start: s, len: 0}: an empty
   message when s <= len, where Vec indexing panics for every such range. *)
Lemma inverted_range : forall m s e, WF m -> e < s ->
  (exists x, vslice (bytes_of m) (RRange s e) = Panic x) /\
  (s <= mlen m -> exists m', msg_slice m (RRange s e) = Ok m' /\ WF m' /\ bytes_of m' = []) /\
  (mlen m < s -> exists x, msg_slice m (RRange s e) = Panic x).
Proof.
  intros m s e W H. unfold msg_slice; cbn [range_into vslice bind]. unfold vsub.
  destruct (N.ltb_spec e s); [|lia]. destruct (N.ltb_spec s e); [lia|]. repeat split.
  - now eexists.
  - intros Hs. destruct (slice_inner_ok m s (Some 0) W) as (m' & E & W' & B); [cbn [opt_len]; lia|].
    exists m'. split; [assumption|split; [assumption|exact B]].
  - intros Hs. apply slice_inner_panic. cbn [opt_len]. lia.
Qed.

Lemma rel_new : forall b, is_vec b -> rel Pm (msg_new b) (Ok b).
Proof. intros b H. destruct (new_ok b H) as (m & E & W & B). rewrite E. now split. Qed.

Lemma rel_header : forall m v b, Pm m v -> is_vec b -> rel Pm (msg_header m b) (vappend b v).
Proof.
  intros m v b (W & <-) Hb. pose proof W as (_ & Hl & Hm). unfold vappend.
  destruct (N.leb_spec (blen b + blen (bytes_of m)) USIZE_MAX) as [H|H].
  - destruct (header_ok m b W Hb) as (m' & E & W' & B); [lia|]. rewrite E. now split.
  - rewrite header_panic by (assumption || lia). exact I.
Qed.

Lemma rel_concat : forall m v o w, Pm m v -> Pm o w -> rel Pm (msg_concat m o) (vappend v w).
Proof.
  intros m v o w (W & <-) (Wo & <-). pose proof W as (_ & Hl & Hm). pose proof Wo as (_ & Hl' & Hm').
  unfold vappend.
  destruct (N.leb_spec (blen (bytes_of m) + blen (bytes_of o)) USIZE_MAX) as [H|H].
  - destruct (concat_ok m o W Wo) as (m' & E & W' & B); [lia|]. rewrite E. now split.
  - rewrite concat_panic by lia. exact I.
Qed.

Lemma rel_cut : forall m v n, Pm m v -> rel Pm2 (msg_cut m n) (vcut v n).
Proof.
  intros m v n (W & <-). pose proof W as (_ & Hl & Hm). unfold vcut.
  destruct (N.ltb_spec (blen (bytes_of m)) n) as [H|H].
  - rewrite cut_panic by lia. exact I.
  - destruct (cut_ok m n W) as (rest & front & E & Wr & Wf & Bf & Br); [lia|]. rewrite E.
    cbn [rel]. unfold Pm2, Pm; cbn [fst snd]. split; split; assumption.
Qed.

Lemma rel_remove_front : forall m v n, Pm m v ->
  rel Pm (msg_remove_front m n) (do (rest, _) <- vcut v n; Ok rest).
Proof.
  intros m v n (W & <-). pose proof W as (_ & Hl & Hm). unfold vcut.
  destruct (N.ltb_spec (blen (bytes_of m)) n) as [H|H].
  - rewrite remove_front_panic by lia. exact I.
  - destruct (remove_front_ok m n W) as (m' & E & W' & B); [lia|]. rewrite E. cbn [bind rel]. now split.
Qed.

Section PoolFacts.
  Context {A : Type}.
  Lemma upd_nil : forall d (x : A), upd d x [] = [].
  Proof. intros [|d] x; reflexivity. Qed.
  Lemma upd_length : forall d (x : A) l, length (upd d x l) = length l.
  Proof. apply (ListFacts.upd_length upd upd_nil); reflexivity. Qed.
  Lemma nth_error_upd : forall d k (x : A) l,
    nth_error (upd d x l) k = if ((k =? d) && (d <? length l))%nat then Some x else nth_error l k.
  Proof. intros. apply (ListFacts.upd_nth_error upd upd_nil); reflexivity. Qed.
  Lemma nth_error_upd_other : forall d k (x : A) l, k <> d -> nth_error (upd d x l) k = nth_error l k.
  Proof. intros d k x l H. rewrite nth_error_upd. apply Nat.eqb_neq in H. rewrite H. reflexivity. Qed.
  Lemma nth_error_upd_same : forall d (x : A) l, (d < length l)%nat -> nth_error (upd d x l) d = Some x.
  Proof.
    intros d x l H. rewrite nth_error_upd, Nat.eqb_refl. apply Nat.ltb_lt in H. rewrite H. reflexivity.
  Qed.
  Lemma Forall_upd : forall (P : A -> Prop) d x l, P x -> Forall P l -> Forall P (upd d x l).
  Proof. intros P d x l. apply (ListFacts.upd_Forall upd upd_nil); reflexivity. Qed.
End PoolFacts.

Lemma map_upd : forall {A B} (f : A -> B) d x l, map f (upd d x l) = upd d (f x) (map f l).
Proof.
  intros A B f d x l; revert d; induction l as [|h t IH]; intros [|d]; cbn [upd map]; auto.
  now rewrite IH.
Qed.

Lemma rel_pget : forall p vs i, Ppool p vs -> rel Pm (pget p i) (pget vs i).
Proof.
  intros p vs i (W & <-). unfold pget. rewrite nth_error_map.
  destruct (nth_error p i) as [m|] eqn:E; cbn [option_map rel]; [|exact I].
  split; [|reflexivity]. exact (Forall_nth_error WF p i m W E).
Qed.

Lemma rel_pset : forall p vs d m v, Ppool p vs -> Pm m v -> rel Ppool (pset p d m) (pset vs d v).
Proof.
  intros p vs d m v (W & <-) (Wm & <-). unfold pset. rewrite map_length.
  destruct (Nat.ltb_spec d (length p)); cbn [rel]; [|exact I].
  split; [now apply Forall_upd|apply map_upd].
Qed.

Lemma vcut_rf_eq : forall v n (vs : list (list N)) i,
  (do (rest, _) <- vcut v n; pset vs i rest) =
  bind (do (rest, _) <- vcut v n; Ok rest) (fun rest => pset vs i rest).
Proof. intros. destruct (vcut v n) as [[a b]| | |]; reflexivity. Qed.

Lemma step_refines : forall o p vs, Ppool p vs -> op_ok o -> rel Ppool (step o p) (vstep o vs).
Proof.
  intros o p vs HP Hok. destruct o as [d b|d i|i b|i j|i r|d i n|i n]; cbn [step vstep op_ok] in *.
  - change (pset vs d b) with (bind (Ok b) (fun v => pset vs d v)).
    eapply rel_bind; [apply rel_new; assumption|]. intros m v Hm. now apply rel_pset.
  - eapply rel_bind; [apply rel_pget; assumption|]. intros m v Hm. now apply rel_pset.
  - eapply rel_bind; [apply rel_pget; assumption|]. intros m v Hm.
    eapply rel_bind; [apply rel_header; assumption|]. intros m' v' Hm'. now apply rel_pset.
  - eapply rel_bind; [apply rel_pget; assumption|]. intros m v Hm.
    eapply rel_bind; [apply rel_pget; assumption|]. intros o w Ho.
    eapply rel_bind; [apply rel_concat; assumption|]. intros m' v' Hm'. now apply rel_pset.
  - eapply rel_bind; [apply rel_pget; assumption|]. intros m v Hm.
    eapply rel_bind; [apply rel_slice; assumption|]. intros m' v' Hm'. now apply rel_pset.
  - eapply rel_bind; [apply rel_pget; assumption|]. intros m v Hm.
    eapply rel_bind; [apply rel_cut; eassumption|]. intros [rest front] [vr vf] (Hr & Hf); cbn [fst snd] in *.
    eapply rel_bind; [apply rel_pset; eassumption|]. intros p1 v1 H1. now apply rel_pset.
  - eapply rel_bind; [apply rel_pget; assumption|]. intros m v Hm.
    rewrite vcut_rf_eq.
    eapply rel_bind; [apply rel_remove_front; assumption|]. intros m' v' Hm'. now apply rel_pset.
Qed.

Lemma history : forall ops p vs, Ppool p vs -> Forall op_ok ops ->
  rel Ppool (run_pool ops p) (run_vecs ops vs).
Proof.
  induction ops as [|o ops IH]; intros p vs HP Hok; cbn [run_pool run_vecs].
  - exact HP.
  - inversion Hok; subst. eapply rel_bind; [apply step_refines; assumption|].
    intros p' vs' HP'. now apply IH.
Qed.

Lemma pset_ok_inv : forall {A} (l : list A) d x l', pset l d x = Ok l' -> l' = upd d x l.
Proof. intros A l d x l' H. unfold pset in H. destruct (d <? length l)%nat; congruence. Qed.

Ltac inv_binds :=
  repeat match goal with
  | H : bind _ _ = Ok _ |- _ =>
      let a := fresh "a" in let E := fresh "E" in
      apply bind_ok_inv in H; destruct H as (a & E & H)
  | H : (let (_, _) := ?x in _) = Ok _ |- _ => destruct x
  | H : pset _ _ _ = Ok _ |- _ => apply pset_ok_inv in H
  end.

Lemma frame : forall o p p' k, step o p = Ok p' -> ~ In k (targets o) ->
  nth_error p' k = nth_error p k.
Proof.
  intros o p p' k H Hk.
  destruct o; cbn [step targets In] in *; inv_binds; subst;
    rewrite ?nth_error_upd_other by (intuition congruence); reflexivity.
Qed.

Lemma step_length : forall o p p', step o p = Ok p' -> length p' = length p.
Proof.
  intros o p p' H. destruct o; cbn [step] in *; inv_binds; subst; now rewrite ?upd_length.
Qed.

Lemma frame_history : forall ops p p' k, run_pool ops p = Ok p' ->
  (forall o, In o ops -> ~ In k (targets o)) -> nth_error p' k = nth_error p k.
Proof.
  induction ops as [|o ops IH]; intros p p' k H Hk; cbn [run_pool] in H.
  - now inversion H.
  - apply bind_ok_inv in H as (p1 & E & H).
    rewrite (IH p1 p' k H) by (intros o' Ho'; apply Hk; now right).
    apply (frame o); [assumption|]. apply Hk. now left.
Qed.
