(* The list utilities that Model/Link.v, Demux.v, SocketRecv.v and Startup.v each declare for themselves
   (equality test, removal of one occurrence, update at an index): one proof each. *)
From Coq Require Import Permutation.
From Elvis Require Import Model.Base Model.Link Model.Demux Model.Startup.
From Elvis Require Export Proofs.ListFacts.

(* Link.list_eqb and Demux.list_eqb are the same fixpoint, and so are Demux.remove1 and
   SocketRecv.remove_one (up to the order of the test's arguments): a lemma stated for one applies to
   the other as it stands.  Startup.upd takes its arguments in another order than Link.set_nth and is
   bridged by [upd_set_nth]. *)
Section Eqb.
  Variable A : Type.
  Variable eqb : A -> A -> bool.
  Variable eqb_ok : forall a b, eqb a b = true -> a = b.

  Lemma list_eqb_eq : forall l1 l2 : list A, Link.list_eqb eqb l1 l2 = true -> l1 = l2.
  Proof.
    induction l1 as [|a l1 IH]; intros [|b l2] H; cbn [Link.list_eqb] in H; try discriminate; [reflexivity|].
    apply andb_true_iff in H. destruct H as [H1 H2]. f_equal; [apply eqb_ok; exact H1 | apply IH; exact H2].
  Qed.

  Lemma remove1_perm : forall x l l', remove1 eqb x l = Some l' -> Permutation l (x :: l').
  Proof.
    intros x l. induction l as [|y r IH]; intros l' H; cbn [remove1] in H; [discriminate|].
    destruct (eqb x y) eqn:E.
    - apply eqb_ok in E. inversion H. subst. apply Permutation_refl.
    - destruct (remove1 eqb x r) as [r'|]; [|discriminate]. inversion H. subst.
      exact (Permutation_trans (perm_skip y (IH r' eq_refl)) (perm_swap x y r')).
  Qed.
End Eqb.

Lemma set_nth_length {A} (x : A) : forall l i, length (set_nth i x l) = length l.
Proof. induction l as [|a l IH]; intros [|i]; cbn [set_nth length]; congruence. Qed.

Lemma nth_error_set_nth {A} (x : A) : forall l i j,
  nth_error (set_nth i x l) j =
  if Nat.eqb i j then option_map (fun _ => x) (nth_error l j) else nth_error l j.
Proof.
  induction l as [|a l IH]; intros i j.
  - destruct i, j; cbn [set_nth nth_error option_map]; destruct (Nat.eqb _ _); reflexivity.
  - destruct i as [|i], j as [|j]; cbn [set_nth nth_error Nat.eqb option_map]; try reflexivity. apply IH.
Qed.

Lemma Forall_set_nth {A} (P : A -> Prop) (x : A) : forall l i, Forall P l -> P x -> Forall P (set_nth i x l).
Proof.
  induction l as [|a l IH]; intros [|i] Hl Hx; cbn [set_nth]; try constructor; inversion Hl; subst; auto.
Qed.

Lemma upd_set_nth {A} (x : A) : forall l i, upd l i x = set_nth i x l.
Proof. induction l as [|a l IH]; intros [|i]; cbn [upd set_nth]; congruence. Qed.
