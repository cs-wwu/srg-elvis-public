(* C01 liveness, TCB level: equations for one iteration of the arrival loop, for process_segment on
   a segment without SYN and RST, for ack_established_processing and for segments(); what
   segment_arrives does with an ACK that acknowledges nothing new; and flush2, what an endpoint emits
   in one half of a loss-free round. *)
From Elvis Require Import Model.Base Model.U32 Model.Tcb Model.TcpNet Proofs.U32Facts Proofs.TcbSafetySnd
  Proofs.TcbSafetyRcv.
Local Open Scope Z_scope.

(* a header that carries ACK and no other control bit that matters *)
Definition ack_only (h : header) : Prop :=
  c_ack (h_ctl h) = true /\ c_rst (h_ctl h) = false /\ c_syn (h_ctl h) = false /\ c_fin (h_ctl h) = false.

Lemma ack_hdr_ack_only t : ack_only (ack_hdr t).
Proof. unfold ack_only. auto. Qed.

Lemma mod_gt_refl_false x : mod_gt x x = false.
Proof. apply mod_lt_irrefl. Qed.
Lemma mod_leq_refl x : mod_leq x x = true.
Proof. unfold mod_leq. now rewrite Z.eqb_refl. Qed.

Lemma in_window_at_nxt t : u32 (rcv_nxt t) -> rcv_wnd t = 65535 -> is_in_rcv_window t (rcv_nxt t) = true.
Proof.
  intros Hu Hw. rewrite in_window_spec by assumption.
  rewrite wsub_spec, wadd_spec. unfold u32, M32 in *. lia.
Qed.

Lemma is_seq_ok_at_nxt t syn fin : u32 (rcv_nxt t) -> rcv_wnd t = 65535 ->
  is_seq_ok t 0 (rcv_nxt t) syn fin = true.
Proof.
  intros Hu Hw. unfold is_seq_ok. rewrite Hw, (in_window_at_nxt t Hu Hw).
  destruct (0 + b2z fin + b2z syn =? 0); reflexivity.
Qed.

Lemma in_window_before t x : u32 x -> rcv_nxt t = wadd x 1 -> rcv_wnd t = 65535 ->
  is_in_rcv_window t x = true.
Proof.
  intros Hx Hr Hw. rewrite in_window_spec; try assumption; [|rewrite Hr; apply wadd_u32].
  rewrite Hr, wsub_spec, !wadd_spec. unfold u32, M32 in *. lia.
Qed.

(* a retransmitted SYN or FIN: one sequence number before RCV.NXT *)
Lemma is_seq_ok_before t sq syn fin : u32 sq -> rcv_nxt t = wadd sq 1 -> rcv_wnd t = 65535 ->
  0 < b2z fin + b2z syn -> is_seq_ok t 0 sq syn fin = true.
Proof.
  intros Hu Hr Hw Hc. unfold is_seq_ok. rewrite Hw, (in_window_before t sq Hu Hr Hw).
  replace (0 + b2z fin + b2z syn =? 0) with false by lia. reflexivity.
Qed.

Lemma heap_single seg : heap_push [] seg = [seg] /\ heap_pop [seg] = Some (seg, []) .
Proof. split; reflexivity. Qed.

Lemma arrives_loop_stop f t :
  match heap_peek (in_segs t) with
  | None => True
  | Some top => state_eqb (st t) SynSent = false /\ mod_gt (h_seq (s_hdr top)) (rcv_nxt t) = true
  end -> arrives_loop (Datatypes.S f) t = Ok (t, AOk).
Proof.
  cbn [arrives_loop]. destruct (heap_peek (in_segs t)); [|reflexivity].
  intros [-> ->]. reflexivity.
Qed.

Lemma heap_peek_pop v m rest : heap_pop v = Some (m, rest) -> heap_peek v = Some m.
Proof.
  unfold heap_peek, heap_pop. destruct v as [|y r]; [discriminate|].
  destruct (rev (y :: r)) as [|last rinit] eqn:Er; [discriminate|].
  apply (f_equal (@rev _)) in Er. rewrite rev_involutive in Er. cbn [rev] in Er.
  destruct (rev rinit) as [|top' r'] eqn:Er2.
  - intros [= <- _]. cbn [app] in Er. congruence.
  - destruct (sift_down _ _ _ _). intros [= <- _]. cbn [app] in Er. congruence.
Qed.

Lemma arrives_loop_step f t top rest t1 r :
  heap_pop (in_segs t) = Some (top, rest) ->
  negb (state_eqb (st t) SynSent) && mod_gt (h_seq (s_hdr top)) (rcv_nxt t) = false ->
  process_segment (set_in_segs t rest) top = Ok (t1, r) ->
  arrives_loop (Datatypes.S f) t = if should_delete r then Ok (t1, AClose) else arrives_loop f t1.
Proof.
  intros Hpop Hgo Hp. cbn [arrives_loop]. rewrite (heap_peek_pop _ _ _ Hpop), Hgo, Hpop. cbn iota beta.
  rewrite Hp. reflexivity.
Qed.

(* a segment that meets an empty heap is processed at once, and the loop stops after it *)
Lemma arrives_loop_one f t seg t1 r :
  in_segs t = [seg] ->
  negb (state_eqb (st t) SynSent) && mod_gt (h_seq (s_hdr seg)) (rcv_nxt t) = false ->
  process_segment (set_in_segs t []) seg = Ok (t1, r) -> should_delete r = false -> in_segs t1 = [] ->
  arrives_loop (Datatypes.S (Datatypes.S f)) t = Ok (t1, AOk).
Proof.
  intros Hs Hgo Hp Hd Hs1.
  rewrite (arrives_loop_step _ t seg [] t1 r), Hd; [|now rewrite Hs|exact Hgo|exact Hp].
  apply arrives_loop_stop. now rewrite Hs1.
Qed.

Lemma arrives_one t seg t1 r :
  in_segs t = [] ->
  negb (state_eqb (st t) SynSent) && mod_gt (h_seq (s_hdr seg)) (rcv_nxt t) = false ->
  process_segment (set_in_segs t []) seg = Ok (t1, r) -> should_delete r = false -> in_segs t1 = [] ->
  segment_arrives t seg = Ok (t1, AOk).
Proof.
  intros Hs Hgo Hp Hd Hs1. unfold segment_arrives. rewrite Hs.
  change (heap_push [] seg) with [seg]. cbn [length].
  eapply (arrives_loop_one 0 (set_in_segs t [seg]) seg); try eassumption; reflexivity.
Qed.

Lemma arrives_single t seg t1 r :
  in_segs t = [] -> state_eqb (st t) SynSent = false ->
  mod_gt (h_seq (s_hdr seg)) (rcv_nxt t) = false ->
  process_segment (set_in_segs t []) seg = Ok (t1, r) -> should_delete r = false -> in_segs t1 = [] ->
  segment_arrives t seg = Ok (t1, AOk).
Proof. intros Hs Hss Hgt. apply arrives_one; [exact Hs|now rewrite Hss, Hgt]. Qed.

Lemma process_nosyn t h text :
  c_rst (h_ctl h) = false -> c_syn (h_ctl h) = false -> state_eqb (st t) SynSent = false ->
  is_seq_ok t (zlen text) (h_seq h) false (c_fin (h_ctl h)) = true ->
  process_segment t (mkSeg h text) =
  match ps_ack t h with
  | (t2, Some r) => Ok (t2, r)
  | (t2, None) =>
    if state_eqb (st t2) SynSent then Ok (t2, PDiscard) else
    match ps_text t2 h text with
    | Ok t6 => Ok (ps_fin t6 h (zlen text), PSuccess)
    | Err e => Err e | Panic p => Panic p | OutOfFuel => OutOfFuel
    end
  end.
Proof.
  intros Hr Hsy Hss Hok. unfold process_segment. cbn [s_hdr s_text]. rewrite Hsy, Hok. cbn [negb].
  replace (match st t with SynSent => false | _ => false end) with false by (destruct (st t); reflexivity).
  destruct (ps_ack t h) as [t2 [r|]]; [reflexivity|].
  unfold ps_rst, ps_syn. rewrite Hr, Hsy. reflexivity.
Qed.

Lemma ack_est_old t h : mod_leq (h_ack h) (snd_una t) = true -> ack_est t h = (t, PSuccess).
Proof. intros H. unfold ack_est. now rewrite H. Qed.

(* an acceptable new ACK: SND.UNA moves, the acknowledged segments leave the queue, and the send
   window is either taken from the segment or left alone *)
Lemma ack_est_advance t h :
  mod_leq (h_ack h) (snd_una t) = false -> mod_gt (h_ack h) (snd_nxt t) = false ->
  exists w wl1 wl2, (w = snd_wnd t \/ w = h_wnd h) /\
  ack_est t h =
  (set_snd_window (remove_acked (set_snd_una t (h_ack h)) (h_ack h)) w wl1 wl2, PSuccess).
Proof.
  intros Hl Hg. unfold ack_est. rewrite Hl, Hg.
  destruct (_ || _).
  - exists (h_wnd h), (h_seq h), (h_ack h). auto.
  - exists (snd_wnd t), (snd_wl1 t), (snd_wl2 t). auto.
Qed.

Lemma ps_est_noadvance t h text :
  st t = Established -> ack_only h ->
  is_seq_ok t (zlen text) (h_seq h) false false = true ->
  mod_leq (h_ack h) (snd_una t) = true ->
  process_segment t (mkSeg h text) =
  match ps_text t h text with
  | Ok t6 => Ok (t6, PSuccess) | Err e => Err e | Panic p => Panic p | OutOfFuel => OutOfFuel
  end.
Proof.
  intros Est (Ha & Hr & Hsy & Hf) Hok Hleq.
  rewrite process_nosyn; try assumption; [|now rewrite Est|now rewrite Hf].
  unfold ps_ack. rewrite Ha, Est. cbn [negb]. rewrite (ack_est_old t h Hleq), Est. cbn [state_eqb].
  destruct (ps_text t h text); try reflexivity. now rewrite ps_fin_nofin.
Qed.

(* records have no eta: compare field by field *)
Lemma tcb_ext (a b : tcb) :
  lport a = lport b -> rport a = rport b -> mtu a = mtu b -> listen_init a = listen_init b ->
  st a = st b -> snd_una a = snd_una b -> snd_nxt a = snd_nxt b -> snd_wnd a = snd_wnd b ->
  snd_wl1 a = snd_wl1 b -> snd_wl2 a = snd_wl2 b -> snd_iss a = snd_iss b ->
  rcv_irs a = rcv_irs b -> rcv_nxt a = rcv_nxt b -> rcv_wnd a = rcv_wnd b ->
  out_text a = out_text b -> retx a = retx b -> oneshot a = oneshot b ->
  fin_pending a = fin_pending b -> in_segs a = in_segs b -> in_text a = in_text b ->
  rto a = rto b -> time_wait a = time_wait b -> a = b.
Proof. destruct a, b; cbn; intros; subst; reflexivity. Qed.

Ltac tcb_eq := apply tcb_ext; tcb_simpl; try reflexivity; try assumption.

(* states whose ACK processing is plain ack_established_processing *)
Definition plain_ack_state (s : state) : bool :=
  match s with Established | FinWait2 | CloseWait => true | _ => false end.

Lemma ps_ack_plain t h : plain_ack_state (st t) = true -> c_ack (h_ctl h) = true ->
  mod_leq (h_ack h) (snd_una t) = true -> ps_ack t h = (t, None).
Proof.
  intros Hs Ha Hl. unfold ps_ack. rewrite Ha, (ack_est_old t h Hl). cbn [negb].
  destruct (st t); try discriminate Hs; reflexivity.
Qed.

(* a text-free segment without RST/SYN whose ACK changes nothing: only the FIN stage acts *)
Lemma process_fin_only t h :
  plain_ack_state (st t) = true -> c_ack (h_ctl h) = true -> c_rst (h_ctl h) = false -> c_syn (h_ctl h) = false ->
  mod_leq (h_ack h) (snd_una t) = true ->
  is_seq_ok t 0 (h_seq h) false (c_fin (h_ctl h)) = true ->
  process_segment t (mkSeg h []) = Ok (ps_fin t h 0, PSuccess).
Proof.
  intros Hs Ha Hr Hsy Hl Hok.
  assert (Hss : state_eqb (st t) SynSent = false) by (destruct (st t); try discriminate Hs; reflexivity).
  rewrite process_nosyn by assumption. rewrite (ps_ack_plain t h Hs Ha Hl). cbn iota.
  rewrite Hss, ps_text_nil. reflexivity.
Qed.

(* an ACK-only segment that acknowledges nothing new, in a state with plain ACK processing *)
Lemma ack_noop_arrives t h :
  plain_ack_state (st t) = true -> in_segs t = [] -> rcv_wnd t = 65535 -> u32 (rcv_nxt t) ->
  ack_only h -> h_seq h = rcv_nxt t -> mod_leq (h_ack h) (snd_una t) = true ->
  segment_arrives t (mkSeg h []) = Ok (set_in_segs t [], AOk).
Proof.
  intros Hs Hi Hw Hu (Ha & Hr & Hsy & Hf) Hseq Hl.
  eapply arrives_single; try assumption; try reflexivity.
  - destruct (st t); try discriminate Hs; reflexivity.
  - tcb_simpl. rewrite Hseq. apply mod_gt_refl_false.
  - rewrite (process_fin_only (set_in_segs t []) h); try assumption; try reflexivity.
    + rewrite ps_fin_nofin by exact Hf. reflexivity.
    + rewrite Hf, Hseq. apply (is_seq_ok_at_nxt (set_in_segs t [])); assumption.
  - reflexivity.
Qed.

Lemma segments_nothing_new t :
  out_text t = [] -> fin_pending t = false -> segmentizes (st t) = true -> 50 <= mtu t ->
  tcb_segments t =
  Ok (let t2 := set_retx (set_oneshot t []) (map (fun tx => mkTx (t_seg tx) false) (retx t)) in
      let out := map (fun h => mkSeg h []) (oneshot t) ++ map t_seg (filter t_needs (retx t)) in
      (match map t_seg (filter t_needs (retx t)) with [] => t2 | _ => set_rto t2 RTO end, out)).
Proof.
  intros Ho Hf Hs Hm. unfold tcb_segments. tcb_simpl. rewrite Hs. unfold SPACE_FOR_HEADERS.
  replace (mtu t <? 50) with false by lia. rewrite Ho. cbn [length seg_loop].
  change (zlen (@nil Z)) with 0.
  match goal with |- context [Z.min ?a 0] => replace (Z.min a 0) with 0 by lia end.
  cbn [Z.eqb]. unfold queue_pending_fin. tcb_simpl. rewrite Hf. cbn [andb]. reflexivity.
Qed.

Lemma advance_101 t : rto t = RTO -> time_wait t = None ->
  advance_time t 101 = (set_retx (set_rto t RTO) (map (fun tx => mkTx (t_seg tx) true) (retx t)), TIgnore).
Proof.
  intros Hr Ht. unfold advance_time. rewrite Hr. change (RTO <? 101) with true. cbn iota.
  tcb_simpl. rewrite Ht. reflexivity.
Qed.

Lemma segments_idle t :
  out_text t = [] -> fin_pending t = false -> 50 <= mtu t ->
  tcb_segments t =
  Ok (let t2 := set_retx (set_oneshot t []) (map (fun tx => mkTx (t_seg tx) false) (retx t)) in
      let out := map (fun h => mkSeg h []) (oneshot t) ++ map t_seg (filter t_needs (retx t)) in
      (match map t_seg (filter t_needs (retx t)) with [] => t2 | _ => set_rto t2 RTO end, out)).
Proof.
  intros Ho Hf Hm. destruct (segmentizes (st t)) eqn:Es.
  - apply segments_nothing_new; assumption.
  - unfold tcb_segments. tcb_simpl. rewrite Es. reflexivity.
Qed.

Lemma advance_expire t tw dt : time_wait t = Some tw -> tw < dt -> snd (advance_time t dt) = TCloseConnection.
Proof.
  intros Ht Htw. unfold advance_time.
  destruct (rto t <? dt); tcb_simpl; rewrite Ht; replace (tw <? dt) with true by lia; reflexivity.
Qed.

Lemma advance_in_text t dt : in_text (fst (advance_time t dt)) = in_text t.
Proof.
  unfold advance_time. destruct (rto t <? dt); tcb_simpl;
    match goal with |- context [time_wait ?x] => destruct (time_wait x) as [tw|] end;
    try destruct (tw <? dt); reflexivity.
Qed.

(* what segments() does once the text has been cut: clear the flags, restart the timer *)
Definition emit_queue (t : tcb) : tcb * list segment :=
  let out1 := map t_seg (filter t_needs (retx t)) in
  let t2 := set_retx t (map (fun tx => mkTx (t_seg tx) false) (retx t)) in
  (match out1 with [] => t2 | _ => set_rto t2 RTO end, out1).

Lemma tcb_segments_eq t t1 : segmentizes (st t) = true -> 50 <= mtu t ->
  seg_loop (Datatypes.S (length (out_text t))) (set_oneshot t []) (mtu t - 50) (zlen (out_text t)) = Ok t1 ->
  tcb_segments t =
  Ok (fst (emit_queue (queue_pending_fin t1)),
      map (fun h => mkSeg h []) (oneshot t) ++ snd (emit_queue (queue_pending_fin t1))).
Proof.
  intros Hs Hm Hl. unfold tcb_segments. tcb_simpl. rewrite Hs. unfold SPACE_FOR_HEADERS.
  replace (mtu t <? 50) with false by lia. rewrite Hl. reflexivity.
Qed.

Lemma seg_loop_stop f t mss r :
  Z.min (Z.max 0 (snd_wnd t - wsub (snd_nxt t) (snd_una t))) r = 0 -> 0 <= mss ->
  seg_loop (Datatypes.S f) t mss r = Ok t.
Proof.
  intros H Hm. cbn [seg_loop].
  replace (Z.min (Z.min mss _) r) with 0 by lia. reflexivity.
Qed.

Lemma queue_pending_fin_no t : fin_pending t = false -> queue_pending_fin t = t.
Proof. intros H. unfold queue_pending_fin. now rewrite H. Qed.

(* the deferred FIN leaves once the text has been cut into segments *)
Lemma queue_pending_fin_fire t : fin_pending t = true -> out_text t = [] ->
  queue_pending_fin t =
  set_snd_nxt (set_retx (set_fin_pending t false)
    (retx t ++ [mkTx (mkSeg (hb_wnd (hb_ack (hb_fin (hb t (snd_nxt t))) (rcv_nxt t)) (rcv_wnd t)) []) true]))
    (wadd (snd_nxt t) 1).
Proof. intros Hf Ho. unfold queue_pending_fin. rewrite Hf, Ho. reflexivity. Qed.

(* the sender's side: segments(), the 101 ms tick, segments() again *)
Definition flush2 (t : tcb) : option (tcb * list segment) :=
  match tcb_segments t with
  | Ok (t1, o1) =>
    match advance_time t1 101 with
    | (t2, TIgnore) =>
      match tcb_segments t2 with Ok (t3, o2) => Some (t3, o1 ++ o2) | _ => None end
    | _ => None
    end
  | _ => None
  end.

Lemma set_in_text_same t : in_text t = [] -> set_in_text t [] = t.
Proof. intros H. tcb_eq. now rewrite H. Qed.

Lemma advance_fire t ms : rto t < ms -> (forall tw, time_wait t = Some tw -> ms <= tw) ->
  advance_time t ms =
  (set_time_wait (set_retx (set_rto t RTO) (map (fun tx => mkTx (t_seg tx) true) (retx t)))
                 (option_map (fun tw => tw - ms) (time_wait t)), TIgnore).
Proof.
  intros Hr Htw. unfold advance_time. replace (rto t <? ms) with true by lia. tcb_simpl.
  destruct (time_wait t) as [tw|] eqn:Et; cbn [option_map].
  - specialize (Htw tw eq_refl). replace (tw <? ms) with false by lia. reflexivity.
  - f_equal. tcb_eq.
Qed.

Lemma filter_needs_all (l : list transmit) :
  map t_seg (filter t_needs (map (fun tx => mkTx (t_seg tx) true) l)) = map t_seg l.
Proof. induction l as [|a l IH]; cbn [map filter t_needs t_seg]; [reflexivity|now rewrite IH]. Qed.

(* the timer fires between the two emissions, so the whole retransmission queue goes out (again) *)
Definition flushed (t : tcb) : tcb :=
  set_time_wait (set_retx (set_oneshot t []) (map (fun tx => mkTx (t_seg tx) false) (retx t)))
                (option_map (fun tw => tw - 101) (time_wait t)).
Definition flush_out (t : tcb) : list segment :=
  map (fun h => mkSeg h []) (oneshot t) ++ map t_seg (filter t_needs (retx t)) ++ map t_seg (retx t).

Lemma flush2_idle t :
  out_text t = [] -> fin_pending t = false -> 50 <= mtu t -> rto t = RTO ->
  (forall tw, time_wait t = Some tw -> 101 <= tw) ->
  flush2 t = Some (flushed t, flush_out t).
Proof.
  intros Ho Hf Hm Hr Htw. unfold flush2, flushed, flush_out. rewrite (segments_idle t Ho Hf Hm). cbv zeta.
  set (ta := set_retx (set_oneshot t []) _).
  set (t1 := match map t_seg (filter t_needs (retx t)) with [] => ta | _ => set_rto ta RTO end).
  assert (E1 : t1 = ta).
  { subst t1. destruct (map t_seg (filter t_needs (retx t))); [reflexivity|]. subst ta. tcb_eq. now rewrite Hr. }
  rewrite E1. clear t1 E1.
  rewrite (advance_fire ta 101); [|subst ta; tcb_simpl; rewrite Hr; unfold RTO; lia|exact Htw].
  set (t2 := set_time_wait _ _).
  rewrite (segments_idle t2) by (subst t2 ta; tcb_simpl; assumption). cbv zeta.
  subst t2 ta. tcb_simpl. rewrite filter_needs_all, map_map. cbn [t_seg map app]. rewrite <- app_assoc.
  f_equal. f_equal.
  destruct (map (fun x => t_seg x) (retx t)); tcb_eq; rewrite ?map_map; cbn [t_seg]; try reflexivity; now rewrite ?Hr.
Qed.
