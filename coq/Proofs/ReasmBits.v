(* Basic facts for the reassembly model: the bit vector, and the cursor step of
   the assembly of sorted pieces (repaired segment.rs step 15). *)
From Elvis Require Import Model.Base Model.Reasm Proofs.ListFacts.

Lemma bv_get_nil : forall j, bv_get [] j = false.
Proof. intros [|j]; reflexivity. Qed.

Lemma bv_get_tl : forall b j, bv_get (tl b) j = bv_get b (S j).
Proof. intros [|x t] j; cbn [tl]; [now rewrite !bv_get_nil|reflexivity]. Qed.

Lemma bv_get_set : forall i b j, bv_get (bv_set b i) j = (j =? i)%nat || bv_get b j.
Proof.
  induction i as [|i IH]; intros b j.
  - destruct b as [|x t]; destruct j as [|j]; cbn [bv_set bv_get nth Nat.eqb orb]; try reflexivity.
    now destruct j.
  - destruct b as [|x t]; destruct j as [|j]; cbn [bv_set].
    + reflexivity.
    + change (bv_get (false :: bv_set [] i) (S j)) with (bv_get (bv_set [] i) j).
      rewrite IH. rewrite !bv_get_nil. reflexivity.
    + reflexivity.
    + change (bv_get (x :: bv_set t i) (S j)) with (bv_get (bv_set t i) j).
      rewrite IH. reflexivity.
Qed.

Lemma bv_get_fill : forall n b j, bv_get (bv_fill b n) j = (j <? n)%nat || bv_get b j.
Proof.
  induction n as [|n IH]; intros b j.
  - cbn [bv_fill]. reflexivity.
  - cbn [bv_fill]. destruct j as [|j].
    + reflexivity.
    + change (bv_get (true :: bv_fill (tl b) n) (S j)) with (bv_get (bv_fill (tl b) n) j).
      rewrite IH, bv_get_tl. reflexivity.
Qed.

Lemma bv_get_set_range_nat : forall s b n j,
  bv_get (bv_set_range_nat b s n) j = ((s <=? j)%nat && (j <? s + n)%nat) || bv_get b j.
Proof.
  induction s as [|s IH]; intros b n j.
  - cbn [bv_set_range_nat]. rewrite bv_get_fill. reflexivity.
  - cbn [bv_set_range_nat]. destruct b as [|x t].
    + destruct n as [|n].
      * rewrite bv_get_nil. destruct (Nat.leb_spec (S s) j); destruct (Nat.ltb_spec j (S s + 0)); try reflexivity; lia.
      * destruct j as [|j]; [reflexivity|].
        change (bv_get (false :: bv_set_range_nat [] s (S n)) (S j)) with (bv_get (bv_set_range_nat [] s (S n)) j).
        rewrite IH, !bv_get_nil. reflexivity.
    + destruct j as [|j]; [reflexivity|].
      change (bv_get (x :: bv_set_range_nat t s n) (S j)) with (bv_get (bv_set_range_nat t s n) j).
      rewrite IH. reflexivity.
Qed.

Lemma bv_set_range_nat_0 : forall s b, bv_set_range_nat b s 0 = b.
Proof.
  induction s as [|s IH]; intros b; cbn [bv_set_range_nat bv_fill]; [reflexivity|].
  destruct b as [|x t]; [reflexivity|]. now rewrite IH.
Qed.

Lemma bsrn_S_cons : forall x t s n,
  bv_set_range_nat (x :: t) (S s) n = x :: bv_set_range_nat t s n.
Proof. reflexivity. Qed.
Lemma bsrn_S_nil_S : forall s n,
  bv_set_range_nat [] (S s) (S n) = false :: bv_set_range_nat [] s (S n).
Proof. reflexivity. Qed.

Lemma bv_set_range_nat_step : forall s b n,
  bv_set_range_nat (bv_set b s) (S s) n = bv_set_range_nat b s (S n).
Proof.
  induction s as [|s IH]; intros b n.
  - destruct b as [|x t]; reflexivity.
  - destruct b as [|x t].
    + change (bv_set [] (S s)) with (false :: bv_set [] s).
      rewrite bsrn_S_cons, IH, bsrn_S_nil_S. reflexivity.
    + change (bv_set (x :: t) (S s)) with (x :: bv_set t s).
      rewrite !bsrn_S_cons, IH. reflexivity.
Qed.

(* the single-pass functions of the model are the loops of bitvec.rs *)
Lemma bv_set_range_nat_loop : forall n s b,
  fold_left bv_set (seq s n) b = bv_set_range_nat b s n.
Proof.
  induction n as [|n IH]; intros s b.
  - cbn [seq fold_left]. now rewrite bv_set_range_nat_0.
  - cbn [seq fold_left]. rewrite IH. apply bv_set_range_nat_step.
Qed.

Lemma bv_set_range_is_loop : forall b s e, bv_set_range b s e = bv_set_range_loop b s e.
Proof. intros. unfold bv_set_range, bv_set_range_loop. symmetry. apply bv_set_range_nat_loop. Qed.

Lemma bv_complete_nat_spec : forall n b,
  bv_complete_nat b n = true <-> (forall j, (j < n)%nat -> bv_get b j = true).
Proof.
  induction n as [|n IH]; intros b.
  - cbn [bv_complete_nat]. split; [intros _ j Hj; lia|reflexivity].
  - cbn [bv_complete_nat]. destruct b as [|x t].
    + split; [discriminate|]. intros H. specialize (H 0%nat ltac:(lia)). now rewrite bv_get_nil in H.
    + rewrite andb_true_iff, IH. split.
      * intros [Hx Ht] [|j] Hj; [exact Hx|]. apply Ht. lia.
      * intros H. split; [apply (H 0%nat); lia|]. intros j Hj. apply (H (S j)). lia.
Qed.

Lemma forallb_seq_shift : forall (f : nat -> bool) n s,
  forallb f (seq (S s) n) = forallb (fun j => f (S j)) (seq s n).
Proof. intros f n. induction n as [|n IH]; intros s; cbn [seq forallb]; [reflexivity|]. now rewrite IH. Qed.

Lemma bv_complete_nat_loop : forall n b, bv_complete_nat b n = forallb (bv_get b) (seq 0 n).
Proof.
  induction n as [|n IH]; intros b; [reflexivity|].
  cbn [bv_complete_nat seq forallb]. rewrite forallb_seq_shift. destruct b as [|x t].
  - reflexivity.
  - rewrite IH. reflexivity.
Qed.

Lemma bv_complete_is_loop : forall b len, bv_complete b len = bv_complete_loop b len.
Proof. intros. unfold bv_complete, bv_complete_loop. apply bv_complete_nat_loop. Qed.

Section Cursor.
  Context {A : Type}.

  (* the cursor step of the repaired assembly, on nat positions *)
  Definition place_nat (msg : list A) (s : nat) (pb : list A) : list A :=
    msg ++ skipn (Nat.min (length msg - s) (length pb)) pb.

  Lemma place_is_place_nat : forall (msg : list A) (p : frag A), (0 <= fst p)%Z ->
    place msg p = place_nat msg (Z.to_nat (fst p * 8)) (snd p).
  Proof.
    intros msg [off pb] H. unfold place, place_nat. cbn [fst snd] in *. f_equal. f_equal. lia.
  Qed.

  Lemma place_nat_prefix : forall (body : list A) c s k,
    (c <= length body)%nat -> (s + k <= length body)%nat -> (s <= c)%nat ->
    place_nat (firstn c body) s (firstn k (skipn s body)) = firstn (Nat.max c (s + k)) body.
  Proof.
    intros body c s k Hc Hk Hs. unfold place_nat.
    assert (L1 : length (firstn c body) = c) by (rewrite firstn_length; lia).
    assert (L2 : length (firstn k (skipn s body)) = k) by (rewrite firstn_length, skipn_length; lia).
    rewrite L1, L2.
    destruct (Nat.le_gt_cases k (c - s)) as [Hge|Hlt].
    - rewrite Nat.min_r by lia. rewrite skipn_all2 by lia. rewrite app_nil_r. f_equal. lia.
    - rewrite Nat.min_l by lia. rewrite skipn_firstn_comm, skipn_add.
      replace (s + (c - s))%nat with c by lia.
      replace (Nat.max c (s + k)) with (c + (k - (c - s)))%nat by lia.
      now rewrite firstn_add.
  Qed.
End Cursor.
