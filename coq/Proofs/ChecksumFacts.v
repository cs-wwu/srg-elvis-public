(* Lemmas about the Internet checksum model (Model/Checksum.v).  Here and in the header codec files [ck] is the cargo
   feature compute_checksum; [fck] and [ftl] switch on the checksum-comparison and total-length repairs of the decoders
   (head of Model/Ipv4Hdr.v), and "_fixed" / "_orig" in a lemma name stand for [fck = true] / [false]. *)
From Elvis Require Import Model.Base Model.Bytes Model.Checksum Proofs.BytesFacts.
Local Open Scope Z_scope.

Ltac split_ifs :=
  repeat match goal with
         | |- context [if ?c then _ else _] =>
             lazymatch c with
             | context [if _ then _ else _] => fail
             | _ => let E := fresh "E" in destruct c eqn:E
             end
         end.

(* the checked `sum + carry` of utility.rs l.24 never overflows and the code
   computes the end-around-carry sum *)
Lemma add_u16_checked_ok : forall acc v, u16 acc -> u16 v ->
  add_u16_checked acc v = Ok (add16 acc v).
Proof.
  unfold u16, add_u16_checked, add16. intros acc v Ha Hv. cbv zeta.
  destruct (65536 <=? acc + v) eqn:E0; split_ifs; try (f_equal; lia); exfalso; lia.
Qed.
Lemma add16_range : forall acc v, u16 acc -> u16 v -> u16 (add16 acc v).
Proof. unfold u16, add16. intros. cbv zeta. split_ifs; lia. Qed.

Lemma add_all_checked_ok : forall vs acc, u16 acc -> Forall u16 vs ->
  add_all_checked acc vs = Ok (fold_left add16 vs acc) /\ u16 (fold_left add16 vs acc).
Proof.
  induction vs as [|v r IH]; intros acc Ha Hv.
  - cbn. auto.
  - inversion Hv as [|? ? Hv1 Hr]; subst. cbn [add_all_checked fold_left].
    rewrite add_u16_checked_ok by assumption. cbn [bind].
    apply IH; [apply add16_range; assumption | assumption].
Qed.

Lemma oc_norm_range : forall s, 0 <= s -> 0 <= oc_norm s < 65536.
Proof. unfold oc_norm. intros. split_ifs; lia. Qed.
Lemma oc_norm_mod : forall s, 0 <= s -> oc_norm s mod 65535 = s mod 65535.
Proof. unfold oc_norm. intros. split_ifs; lia. Qed.
Lemma oc_norm_zero : forall s, 0 <= s -> (oc_norm s = 0 <-> s = 0).
Proof. unfold oc_norm. intros. split_ifs; lia. Qed.
Lemma oc_norm_ones : forall s, 0 <= s -> (oc_norm s = 65535 <-> 0 < s /\ s mod 65535 = 0).
Proof. unfold oc_norm. intros. split_ifs; lia. Qed.
Lemma oc_norm_small : forall s, 0 <= s < 65536 -> oc_norm s = s.
Proof. unfold oc_norm. intros. split_ifs; lia. Qed.

Lemma add16_norm : forall s v, 0 <= s -> u16 v -> add16 (oc_norm s) v = oc_norm (s + v).
Proof.
  unfold add16, oc_norm, u16. intros s v Hs Hv. cbv zeta. split_ifs; lia.
Qed.

Lemma zsum_cons : forall a l, zsum (a :: l) = a + zsum l.
Proof. reflexivity. Qed.
Lemma zsum_app : forall a b, zsum (a ++ b) = zsum a + zsum b.
Proof. induction a; intros; [reflexivity|]. cbn [app]. rewrite !zsum_cons, IHa. lia. Qed.
Lemma zsum_nonneg : forall ws, Forall u16 ws -> 0 <= zsum ws.
Proof.
  induction 1 as [|w ws Hw _ IH]; [cbn; lia|]. rewrite zsum_cons. unfold u16 in Hw. lia.
Qed.

Lemma fold_add16_norm : forall ws s, 0 <= s -> Forall u16 ws ->
  fold_left add16 ws (oc_norm s) = oc_norm (s + zsum ws).
Proof.
  induction ws as [|w ws IH]; intros s Hs Hws.
  - cbn. f_equal. lia.
  - inversion Hws as [|? ? Hw Hrest]; subst. cbn [fold_left]. rewrite zsum_cons.
    rewrite add16_norm by assumption. rewrite IH; [f_equal; lia | unfold u16 in Hw; lia | assumption].
Qed.

Lemma oc_sum_norm : forall ws, Forall u16 ws -> oc_sum ws = oc_norm (zsum ws).
Proof.
  intros ws H. unfold oc_sum. change 0 with (oc_norm 0) at 1.
  rewrite fold_add16_norm by (assumption || lia). f_equal.
Qed.

Lemma acc_congr : forall ws, Forall u16 ws -> oc_sum ws mod 65535 = zsum ws mod 65535.
Proof. intros. rewrite oc_sum_norm by assumption. apply oc_norm_mod. apply zsum_nonneg. assumption. Qed.
Lemma zsum_zero_iff : forall ws, Forall u16 ws -> (zsum ws = 0 <-> Forall (fun w => w = 0) ws).
Proof.
  induction 1 as [|w ws Hw Hws IH]; [cbn; split; auto|].
  rewrite zsum_cons. pose proof (zsum_nonneg ws Hws). unfold u16 in Hw. split.
  - intro E. constructor; [lia|]. apply IH. lia.
  - intro F. inversion F; subst. apply IH in H3. lia.
Qed.
Lemma oc_sum_zero_iff : forall ws, Forall u16 ws -> (oc_sum ws = 0 <-> Forall (fun w => w = 0) ws).
Proof.
  intros ws H. rewrite oc_sum_norm by assumption.
  rewrite oc_norm_zero by (apply zsum_nonneg; assumption). apply zsum_zero_iff. assumption.
Qed.

(* RFC 1071 4.1: 32-bit accumulation and two carry folds compute the same value *)
Lemma fold32_norm : forall s, 0 <= s < 4294967296 -> fold32 s = oc_norm s.
Proof. unfold fold32, oc_norm. intros s Hs. cbv zeta. split_ifs; lia. Qed.

Lemma list_ind2 : forall (A : Type) (P : list A -> Prop),
  P [] -> (forall a, P [a]) -> (forall a b r, P r -> P (a :: b :: r)) -> forall l, P l.
Proof.
  intros A P H0 H1 H2. fix IH 1. intros [|a [|b r]]; [exact H0 | apply H1 | apply H2, IH].
Qed.

Lemma words_u16 : forall bs, bytes bs -> Forall u16 (words bs).
Proof.
  induction bs as [| a | a b r IH] using list_ind2; intro H; cbn [words].
  - constructor.
  - apply bytes_cons in H. destruct H as [Ha _]. constructor; [|constructor]. unfold byte, u16 in *. lia.
  - apply bytes_cons in H. destruct H as [Ha H]. apply bytes_cons in H. destruct H as [Hb H].
    constructor; [unfold byte, u16 in *; lia | auto].
Qed.
Lemma wsum_nil : wsum [] = 0.
Proof. reflexivity. Qed.
Lemma wsum_one : forall a, wsum [a] = a * 256.
Proof. intros. unfold wsum. cbn. lia. Qed.
Lemma wsum_two : forall a b r, wsum (a :: b :: r) = a * 256 + b + wsum r.
Proof. intros. unfold wsum. cbn [words]. rewrite zsum_cons. reflexivity. Qed.
Lemma wsum_nonneg : forall bs, bytes bs -> 0 <= wsum bs.
Proof. intros. apply zsum_nonneg. apply words_u16. assumption. Qed.
Lemma wsum_bsum : forall l, wsum l = bsum true l.
Proof.
  induction l as [| a | a b r IH] using list_ind2.
  - reflexivity.
  - rewrite wsum_one. cbn [bsum]. lia.
  - rewrite wsum_two, IH. cbn [bsum negb]. lia.
Qed.
Lemma wsum_app_even : forall a b, Nat.even (length a) = true -> wsum (a ++ b) = wsum a + wsum b.
Proof.
  induction a as [| x | x y r IH] using list_ind2; intros b He.
  - rewrite wsum_nil. reflexivity.
  - discriminate.
  - cbn [app]. rewrite !wsum_two. rewrite IH; [lia|]. exact He.
Qed.
Lemma wsum_4 : forall a b c d, wsum [a; b; c; d] = a * 256 + b + (c * 256 + d).
Proof. intros. rewrite !wsum_two, wsum_nil. lia. Qed.

Lemma checksum_wsum : forall bs, bytes bs -> rfc1071_checksum bs = 65535 - oc_norm (wsum bs).
Proof. intros bs H. unfold rfc1071_checksum. rewrite oc_sum_norm by (apply words_u16, H). reflexivity. Qed.
Lemma verifies_wsum : forall bs, bytes bs ->
  rfc1071_verifies bs = (oc_norm (wsum bs) =? 65535).
Proof. intros bs Hb. unfold rfc1071_verifies. rewrite oc_sum_norm by (apply words_u16; assumption). reflexivity. Qed.

Lemma rem_fold_norm : forall l s, bytes l -> 0 <= s ->
  rem_fold (oc_norm s) l = oc_norm (s + wsum l).
Proof.
  induction l as [| a | a b r IH] using list_ind2; intros s Hl Hs.
  - cbn [rem_fold]. rewrite wsum_nil. f_equal. lia.
  - apply bytes_cons in Hl. destruct Hl as [Ha _]. cbn [rem_fold]. rewrite wsum_one.
    rewrite add16_norm; [f_equal; unfold of_be16; lia | assumption | unfold byte, u16, of_be16 in *; lia].
  - apply bytes_cons in Hl. destruct Hl as [Ha Hl]. apply bytes_cons in Hl. destruct Hl as [Hb Hl].
    cbn [rem_fold]. rewrite wsum_two.
    rewrite add16_norm; [| assumption | unfold byte, u16, of_be16 in *; lia].
    rewrite IH; [f_equal; unfold of_be16; lia | assumption | unfold byte, of_be16 in *; lia].
Qed.

Lemma rem_fold_range : forall l s, bytes l -> u16 s -> u16 (rem_fold s l).
Proof.
  intros l. induction l as [|a|a b r IH] using list_ind2; intros s Hl Hs.
  - exact Hs.
  - cbn [rem_fold]. apply bytes_cons in Hl. destruct Hl as [Ha _].
    apply add16_range; [assumption|apply of_be16_range; [assumption|unfold byte; lia]].
  - cbn [rem_fold]. apply bytes_cons in Hl. destruct Hl as [Ha Hl]. apply bytes_cons in Hl. destruct Hl as [Hb Hl].
    apply IH; [assumption|]. apply add16_range; [assumption|apply of_be16_range; assumption].
Qed.

Lemma ck_u16_norm : forall s v, 0 <= s -> u16 v -> ck_u16 true (oc_norm s) v = oc_norm (s + v).
Proof. intros. unfold ck_u16. apply add16_norm; assumption. Qed.
Lemma ck_u8_norm : forall s a b, 0 <= s -> byte a -> byte b ->
  ck_u8 true (oc_norm s) a b = oc_norm (s + (a * 256 + b)).
Proof.
  intros. unfold ck_u8. rewrite ck_u16_norm; [reflexivity | assumption | apply of_be16_range; assumption].
Qed.
Lemma ck_u8_range : forall s a b, u16 s -> byte a -> byte b -> u16 (ck_u8 true s a b).
Proof.
  intros. unfold ck_u8, ck_u16. apply add16_range; [assumption|apply of_be16_range; assumption].
Qed.
Definition halves (v : Z) : Z := v / 65536 + v mod 65536.
Lemma ck_u32_norm : forall s v, 0 <= s -> u32 v -> ck_u32 true (oc_norm s) v = oc_norm (s + halves v).
Proof.
  intros s v Hs Hv. unfold ck_u32, halves. unfold u32 in Hv.
  rewrite ck_u8_norm by (assumption || unfold byte; lia).
  rewrite ck_u8_norm by (unfold byte; lia). f_equal. lia.
Qed.
Lemma ck_rem_norm : forall s l, 0 <= s -> bytes l -> ck_rem true (oc_norm s) l = oc_norm (s + wsum l).
Proof. intros. unfold ck_rem. apply rem_fold_norm; assumption. Qed.
Lemma halves_wsum : forall v, u32 v -> halves v = wsum (be32 v).
Proof. intros v Hv. unfold halves, be32, u32 in *. rewrite wsum_4. lia. Qed.
Lemma halves_range : forall v, u32 v -> 0 <= halves v < 131072.
Proof. unfold u32, halves. intros. lia. Qed.

Lemma ck_off_u16 : forall c v, ck_u16 false c v = c. Proof. reflexivity. Qed.
Lemma ck_off_u8 : forall c a b, ck_u8 false c a b = c. Proof. reflexivity. Qed.
Lemma ck_off_u32 : forall c v, ck_u32 false c v = c. Proof. reflexivity. Qed.
Lemma ck_off_rem : forall c l, ck_rem false c l = c. Proof. reflexivity. Qed.
Lemma as_u16_off : forall c, as_u16 false c = 0. Proof. reflexivity. Qed.

Lemma as_u16_on : forall x, u16 x -> as_u16 true x = if x =? 65535 then 65535 else 65535 - x.
Proof. intros x Hx. unfold as_u16. rewrite bnot16_sub by exact Hx. reflexivity. Qed.
Lemma as_u16_range : forall on x, u16 x -> u16 (as_u16 on x).
Proof.
  intros [|] x Hx; [rewrite as_u16_on by assumption | cbn]; unfold u16 in *; split_ifs; lia.
Qed.
(* as_u16 never yields 0x0000 when checksums are computed (0 = "no checksum" in UDP) *)
Lemma as_u16_nonzero : forall x, u16 x -> as_u16 true x <> 0.
Proof. intros x Hx. rewrite as_u16_on by assumption. unfold u16 in *. split_ifs; lia. Qed.

(* "emitted_verifies", arithmetic core: the words summed so far (integer sum s)
   together with the emitted checksum have the one's-complement sum 0xffff *)
Lemma emitted_sum_verifies : forall s, 0 <= s -> oc_norm (s + as_u16 true (oc_norm s)) = 65535.
Proof.
  intros s Hs. rewrite as_u16_on by (apply oc_norm_range; assumption).
  unfold oc_norm. split_ifs; lia.
Qed.

Lemma verify_iff_match_fixed : forall s f, 0 < s -> u16 f ->
  (oc_norm (s + f) = 65535 <-> ck_match true (as_u16 true (oc_norm s)) f = true).
Proof.
  intros s f Hs Hf. rewrite as_u16_on by (apply oc_norm_range; lia).
  unfold ck_match, oc_norm, u16 in *. split_ifs; lia.
Qed.
Lemma match_orig_iff : forall a f, ck_match false a f = true <-> a = f.
Proof. intros. unfold ck_match. lia. Qed.
(* so the code as it is accepts a verifying field unless the sum of the other
   words is 0xffff and the field is the conforming 0x0000 *)
Lemma verify_iff_match_orig : forall s f, 0 < s -> u16 f ->
  (oc_norm (s + f) = 65535 <->
   ck_match false (as_u16 true (oc_norm s)) f = true \/ (oc_norm s = 65535 /\ f = 0)).
Proof.
  intros s f Hs Hf. rewrite as_u16_on by (apply oc_norm_range; lia).
  unfold ck_match, oc_norm, u16 in *. split_ifs; lia.
Qed.
Lemma as_u16_conforming : forall s, 0 < s ->
  (oc_norm s <> 65535 -> as_u16 true (oc_norm s) = 65535 - oc_norm s) /\
  (oc_norm s = 65535 -> as_u16 true (oc_norm s) = 65535 /\ 65535 - oc_norm s = 0).
Proof.
  intros s Hs. rewrite as_u16_on by (apply oc_norm_range; lia). unfold oc_norm. split_ifs; lia.
Qed.

Definition flip_bit_ok (b j : Z) : bool :=
  (flip_bit b j =? (if Z.testbit b j then b - 2 ^ j else b + 2 ^ j)) &&
  (0 <=? flip_bit b j) && (flip_bit b j <? 256).
Lemma flip_bit_sweep :
  forallb (fun b => forallb (fun j => flip_bit_ok b j) (zrange 8)) (zrange 256) = true.
Proof. vm_compute. reflexivity. Qed.
Lemma flip_bit_spec : forall b j, byte b -> 0 <= j < 8 ->
  flip_bit b j = (if Z.testbit b j then b - 2 ^ j else b + 2 ^ j) /\ byte (flip_bit b j).
Proof.
  intros b j Hb Hj.
  pose proof (zrange_forallb2 flip_bit_ok 256 8 flip_bit_sweep b j Hb Hj) as H.
  unfold flip_bit_ok in H. unfold byte. lia.
Qed.

Lemma flip_at_length : forall bs i j, length (flip_at bs i j) = length bs.
Proof. induction bs as [|b r IH]; intros [|i] j; cbn; auto. Qed.
Lemma flip_at_bytes : forall bs i j, bytes bs -> 0 <= j < 8 -> bytes (flip_at bs i j).
Proof.
  induction bs as [|b r IH]; intros [|i] j Hb Hj; cbn [flip_at]; auto;
    apply bytes_cons in Hb; destruct Hb as [Hb Hr]; apply bytes_cons; split; auto.
  apply flip_bit_spec; assumption.
Qed.
Lemma flip_at_nth_same : forall bs i j, (i < length bs)%nat ->
  nth i (flip_at bs i j) 0 = flip_bit (nth i bs 0) j.
Proof.
  induction bs as [|b r IH]; intros [|i] j Hi; cbn in *; try lia; auto. apply IH. lia.
Qed.
Lemma flip_at_nth_other : forall bs i k j, i <> k -> nth k (flip_at bs i j) 0 = nth k bs 0.
Proof.
  induction bs as [|b r IH]; intros [|i] [|k] j Hik; cbn; try reflexivity; try congruence.
  apply IH. congruence.
Qed.

Lemma firstn_flip_at : forall n bs i j, (i < n)%nat -> firstn n (flip_at bs i j) = flip_at (firstn n bs) i j.
Proof.
  induction n as [|n IH]; intros bs i j Hi; [lia|].
  destruct bs as [|b r]; [destruct i; reflexivity|].
  destruct i as [|i]; cbn [flip_at firstn]; [reflexivity|]. f_equal. apply IH. lia.
Qed.

(* weight of byte i when the byte at index 0 has weight (hi ? 256 : 1) *)
Definition bweight (hi : bool) (i : nat) : Z := if Bool.eqb hi (Nat.even i) then 256 else 1.
Lemma bweight_succ : forall hi i, bweight (negb hi) i = bweight hi (S i).
Proof.
  intros hi i. unfold bweight. rewrite Nat.even_succ, <- Nat.negb_even.
  destruct hi, (Nat.even i); reflexivity.
Qed.
Lemma bsum_flip : forall bs i j hi, (i < length bs)%nat -> bytes bs -> 0 <= j < 8 ->
  bsum hi (flip_at bs i j) =
  bsum hi bs + (if Z.testbit (nth i bs 0) j then - 2 ^ j else 2 ^ j) * bweight hi i.
Proof.
  induction bs as [|b r IH]; intros i j hi Hi Hb Hj; [cbn in Hi; lia|].
  apply bytes_cons in Hb. destruct Hb as [Hb Hr]. destruct i as [|i].
  - cbn [flip_at bsum nth]. destruct (flip_bit_spec b j Hb Hj) as [E _]. rewrite E.
    unfold bweight. cbn [Nat.even]. destruct hi, (Z.testbit b j); cbn [Bool.eqb]; lia.
  - cbn [flip_at bsum nth]. rewrite IH by (cbn in Hi; lia || assumption).
    rewrite bweight_succ. lia.
Qed.
Lemma bit_weight_bweight : forall i j, 0 <= j -> bit_weight i j = 2 ^ j * bweight true i.
Proof.
  intros i j Hj. unfold bit_weight, bit_exp, bweight. destruct (Nat.even i); cbn [Bool.eqb].
  - rewrite Z.pow_add_r by lia. reflexivity.
  - lia.
Qed.
Lemma wsum_flip : forall bs i j, (i < length bs)%nat -> bytes bs -> 0 <= j < 8 ->
  wsum (flip_at bs i j) = wsum bs + flip_delta bs i j.
Proof.
  intros bs i j Hi Hb Hj. rewrite !wsum_bsum, bsum_flip by assumption.
  unfold flip_delta. rewrite bit_weight_bweight by lia. destruct (Z.testbit (nth i bs 0) j); lia.
Qed.

Lemma bit_exp_range : forall i j, 0 <= j < 8 -> 0 <= bit_exp i j < 16.
Proof. intros. unfold bit_exp. destruct (Nat.even i); lia. Qed.

(* 2^k is not a multiple of 65535 (k < 16), in either direction *)
Lemma pow2_mod_sweep :
  forallb (fun k => negb (2 ^ k mod 65535 =? 0) && negb ((- 2 ^ k) mod 65535 =? 0)) (zrange 16) = true.
Proof. vm_compute. reflexivity. Qed.
Lemma pow2_mod : forall k, 0 <= k < 16 -> 2 ^ k mod 65535 <> 0 /\ (- 2 ^ k) mod 65535 <> 0.
Proof. intros k Hk. pose proof (zrange_forallb 16 _ pow2_mod_sweep k Hk) as H. cbv beta in H. lia. Qed.

Lemma flip_delta_mod : forall bs i j, 0 <= j < 8 -> flip_delta bs i j mod 65535 <> 0.
Proof.
  intros bs i j Hj. unfold flip_delta, bit_weight.
  pose proof (pow2_mod (bit_exp i j) (bit_exp_range i j Hj)) as [H1 H2].
  destruct (Z.testbit (nth i bs 0) j); assumption.
Qed.

Lemma single_flip_changes_sum : forall bs i j extra, (i < length bs)%nat -> bytes bs -> 0 <= j < 8 ->
  (extra + wsum (flip_at bs i j)) mod 65535 <> (extra + wsum bs) mod 65535.
Proof.
  intros bs i j extra Hi Hb Hj. rewrite wsum_flip by assumption.
  pose proof (flip_delta_mod bs i j Hj) as Hd. intro E. apply Hd. clear Hd.
  generalize dependent (flip_delta bs i j). intros d E. lia.
Qed.

Definition sgn (up : bool) : Z := if up then 1 else -1.
Definition pair_cancels (k1 k2 : Z) (u1 u2 : bool) : bool :=
  (sgn u1 * 2 ^ k1 + sgn u2 * 2 ^ k2) mod 65535 =? 0.
Lemma pair_sweep :
  forallb (fun k1 => forallb (fun k2 =>
     Bool.eqb (pair_cancels k1 k2 true true) false &&
     Bool.eqb (pair_cancels k1 k2 false false) false &&
     Bool.eqb (pair_cancels k1 k2 true false) (k1 =? k2) &&
     Bool.eqb (pair_cancels k1 k2 false true) (k1 =? k2)) (zrange 16)) (zrange 16) = true.
Proof. vm_compute. reflexivity. Qed.
Lemma pair_cancels_iff : forall k1 k2 u1 u2, 0 <= k1 < 16 -> 0 <= k2 < 16 ->
  pair_cancels k1 k2 u1 u2 = (k1 =? k2) && xorb u1 u2.
Proof.
  intros k1 k2 u1 u2 H1 H2.
  pose proof (zrange_forallb2 _ 16 16 pair_sweep k1 k2 H1 H2) as B. cbv beta in B.
  apply andb_prop in B. destruct B as [B B4]. apply andb_prop in B. destruct B as [B B3].
  apply andb_prop in B. destruct B as [B1 B2].
  apply Bool.eqb_prop in B1, B2, B3, B4.
  destruct u1, u2; cbn [xorb]; rewrite ?andb_false_r, ?andb_true_r; assumption.
Qed.

Lemma flip_bit_other : forall b j1 j2, 0 <= j1 -> 0 <= j2 -> j1 <> j2 ->
  Z.testbit (flip_bit b j1) j2 = Z.testbit b j2.
Proof.
  intros b j1 j2 H1 H2 Hne. unfold flip_bit. rewrite Z.lxor_spec, Z.pow2_bits_eqb by assumption.
  destruct (Z.eqb_spec j1 j2); [contradiction|]. apply xorb_false_r.
Qed.
Lemma flip_delta_after : forall bs i1 j1 i2 j2, (i1 < length bs)%nat ->
  0 <= j1 -> 0 <= j2 -> (i1 <> i2 \/ j1 <> j2) ->
  flip_delta (flip_at bs i1 j1) i2 j2 = flip_delta bs i2 j2.
Proof.
  intros bs i1 j1 i2 j2 Hi H1 H2 Hne. unfold flip_delta.
  destruct (Nat.eq_dec i1 i2) as [->|Hi12].
  - rewrite flip_at_nth_same by assumption. rewrite flip_bit_other by (assumption || tauto). reflexivity.
  - rewrite flip_at_nth_other by assumption. reflexivity.
Qed.

Lemma flip_delta_sgn : forall bs i j,
  flip_delta bs i j = sgn (negb (Z.testbit (nth i bs 0) j)) * 2 ^ bit_exp i j.
Proof. intros. unfold flip_delta, bit_weight, sgn. destruct (Z.testbit (nth i bs 0) j); cbn [negb]; lia. Qed.

Lemma double_flip_unchanged_iff : forall bs i1 j1 i2 j2 extra,
  (i1 < length bs)%nat -> (i2 < length bs)%nat -> bytes bs -> 0 <= j1 < 8 -> 0 <= j2 < 8 ->
  (i1 <> i2 \/ j1 <> j2) ->
  ((extra + wsum (flip_at (flip_at bs i1 j1) i2 j2)) mod 65535 = (extra + wsum bs) mod 65535
   <-> bit_exp i1 j1 = bit_exp i2 j2 /\
       Z.testbit (nth i1 bs 0) j1 <> Z.testbit (nth i2 bs 0) j2).
Proof.
  intros bs i1 j1 i2 j2 extra Hi1 Hi2 Hb Hj1 Hj2 Hne.
  rewrite wsum_flip; [| rewrite flip_at_length; assumption | apply flip_at_bytes; assumption | assumption].
  rewrite wsum_flip by assumption.
  rewrite flip_delta_after by (assumption || lia).
  rewrite !flip_delta_sgn.
  pose proof (pair_cancels_iff (bit_exp i1 j1) (bit_exp i2 j2)
                (negb (Z.testbit (nth i1 bs 0) j1)) (negb (Z.testbit (nth i2 bs 0) j2))
                (bit_exp_range i1 j1 Hj1) (bit_exp_range i2 j2 Hj2)) as P.
  unfold pair_cancels in P.
  set (d := sgn (negb (Z.testbit (nth i1 bs 0) j1)) * 2 ^ bit_exp i1 j1 +
            sgn (negb (Z.testbit (nth i2 bs 0) j2)) * 2 ^ bit_exp i2 j2) in *.
  assert (Hd : (extra + (wsum bs + sgn (negb (Z.testbit (nth i1 bs 0) j1)) * 2 ^ bit_exp i1 j1 +
                 sgn (negb (Z.testbit (nth i2 bs 0) j2)) * 2 ^ bit_exp i2 j2)) = extra + wsum bs + d)
    by (unfold d; lia).
  rewrite Hd. clear Hd.
  assert (Hmod : ((extra + wsum bs + d) mod 65535 = (extra + wsum bs) mod 65535) <-> d mod 65535 = 0).
  { generalize (extra + wsum bs). intro t. clearbody d. clear. split; intro; lia. }
  rewrite Hmod. clear Hmod.
  destruct (Z.testbit (nth i1 bs 0) j1), (Z.testbit (nth i2 bs 0) j2); cbn [negb xorb] in P;
    rewrite ?andb_false_r, ?andb_true_r in P; split; intro H; try lia;
    try (destruct H as [_ H]; congruence).
Qed.

(* what a codec feeds to the accumulator: utility.rs add_u16, add_u8, add_u32, accumulate_remainder *)
Inductive ckitem := I16 (v : Z) | I8 (a b : Z) | I32 (v : Z) | IRem (l : list Z).
Definition ck_step (ck : bool) (acc : Z) (it : ckitem) : Z :=
  match it with
  | I16 v => ck_u16 ck acc v | I8 a b => ck_u8 ck acc a b
  | I32 v => ck_u32 ck acc v | IRem l => ck_rem ck acc l
  end.
Definition ck_run (ck : bool) (its : list ckitem) : Z := fold_left (ck_step ck) its 0.
Definition item_ok (it : ckitem) : Prop :=
  match it with I16 v => u16 v | I8 a b => byte a /\ byte b | I32 v => u32 v | IRem l => bytes l end.
Definition item_sum (it : ckitem) : Z :=
  match it with I16 v => v | I8 a b => a * 256 + b | I32 v => halves v | IRem l => wsum l end.
Definition items_sum (its : list ckitem) : Z := zsum (map item_sum its).

Lemma item_sum_nonneg : forall it, item_ok it -> 0 <= item_sum it.
Proof.
  intros [v|a b|v|l] H; cbn [item_ok item_sum] in *.
  - apply H.
  - unfold byte in H. lia.
  - apply halves_range, H.
  - apply wsum_nonneg, H.
Qed.
Lemma items_sum_nonneg : forall its, Forall item_ok its -> 0 <= items_sum its.
Proof.
  unfold items_sum. induction 1 as [|it its Hi _ IH]; [cbn; lia|].
  cbn [map]. rewrite zsum_cons. apply item_sum_nonneg in Hi. lia.
Qed.
Lemma ck_step_norm : forall s it, 0 <= s -> item_ok it ->
  ck_step true (oc_norm s) it = oc_norm (s + item_sum it).
Proof.
  intros s [v|a b|v|l] Hs H; cbn [ck_step item_sum item_ok] in *.
  - apply ck_u16_norm; assumption.
  - apply ck_u8_norm; tauto.
  - apply ck_u32_norm; assumption.
  - apply ck_rem_norm; assumption.
Qed.
Lemma ck_fold_norm : forall its s, 0 <= s -> Forall item_ok its ->
  fold_left (ck_step true) its (oc_norm s) = oc_norm (s + items_sum its).
Proof.
  unfold items_sum. induction its as [|it its IH]; intros s Hs H; cbn [fold_left map].
  - cbn. rewrite Z.add_0_r. reflexivity.
  - inversion H as [|? ? Hi Hr]; subst. pose proof (item_sum_nonneg it Hi).
    rewrite ck_step_norm, IH, zsum_cons, Z.add_assoc by (assumption || lia). reflexivity.
Qed.
(* with checksums computed the accumulator is the normal form of the integer sum of what was fed *)
Lemma ck_run_norm : forall its, Forall item_ok its -> ck_run true its = oc_norm (items_sum its).
Proof. intros its H. exact (ck_fold_norm its 0 (Z.le_refl 0) H). Qed.
Lemma ck_run_off : forall its, ck_run false its = 0.
Proof. unfold ck_run. induction its as [|[] its IH]; cbn [fold_left ck_step]; auto. Qed.
(* the order in which the fields are fed does not matter *)
Lemma ck_run_sum : forall ck its its', Forall item_ok its -> Forall item_ok its' ->
  items_sum its = items_sum its' -> ck_run ck its = ck_run ck its'.
Proof.
  intros [|] its its' H H' E; [|rewrite !ck_run_off; reflexivity].
  rewrite !ck_run_norm, E by assumption. reflexivity.
Qed.
Lemma cksum_u16 : forall ck its, Forall item_ok its -> u16 (as_u16 ck (ck_run ck its)).
Proof.
  intros [|] its H; [|cbn [as_u16]; unfold u16; lia].
  apply as_u16_range. rewrite ck_run_norm by assumption. apply oc_norm_range, items_sum_nonneg, H.
Qed.

Lemma cksum_accept_verifies : forall fck S f, 0 < S -> u16 f ->
  ck_match fck (as_u16 true (oc_norm S)) f = true -> oc_norm (S + f) = 65535.
Proof.
  intros [|] S f HS Hf H.
  - apply verify_iff_match_fixed; assumption.
  - apply verify_iff_match_orig; auto.
Qed.
Lemma cksum_reference : forall S, 0 < S -> ck_match true (as_u16 true (oc_norm S)) (65535 - oc_norm S) = true.
Proof.
  intros S HS. pose proof (oc_norm_range S ltac:(lia)) as R.
  apply verify_iff_match_fixed; [assumption | unfold u16; lia |].
  unfold oc_norm in *. split_ifs; lia.
Qed.
Lemma verifies_residue : forall pre bs, bytes pre -> Nat.even (length pre) = true -> bytes bs ->
  rfc1071_verifies (pre ++ bs) = true -> (wsum pre + wsum bs) mod 65535 = 0.
Proof.
  intros pre bs Hp He Hb H. rewrite verifies_wsum in H by (apply bytes_app; split; assumption).
  rewrite wsum_app_even in H by assumption. apply Z.eqb_eq in H.
  pose proof (wsum_nonneg _ Hp). pose proof (wsum_nonneg _ Hb).
  apply oc_norm_ones in H; [tauto | lia].
Qed.
Lemma verifies_same_residue : forall pre bs bs', bytes pre -> Nat.even (length pre) = true ->
  bytes bs -> bytes bs' ->
  rfc1071_verifies (pre ++ bs) = true -> rfc1071_verifies (pre ++ bs') = true ->
  wsum bs' mod 65535 = wsum bs mod 65535.
Proof.
  intros pre bs bs' Hp He Hb Hb' H H'.
  apply verifies_residue in H; try assumption. apply verifies_residue in H'; try assumption.
  generalize dependent (wsum pre). generalize (wsum bs) (wsum bs'). intros. lia.
Qed.

Lemma items_sum_pos : forall its a b, Forall item_ok its -> In (I8 a b) its -> 0 < a * 256 + b ->
  0 < items_sum its.
Proof.
  unfold items_sum. induction 1 as [|it its Hi Hr IH]; intros I P; [destruct I|].
  cbn [map]. rewrite zsum_cons. destruct I as [E|I].
  - subst it. pose proof (items_sum_nonneg its Hr). unfold items_sum in *. cbn [item_sum]. lia.
  - apply item_sum_nonneg in Hi. specialize (IH I P). lia.
Qed.

Lemma byte_lit : forall b, (0 <=? b) && (b <? 256) = true -> byte b.
Proof. unfold byte. intros. lia. Qed.
#[export] Hint Resolve of_be16_range of_be32_range bytes_nth w16_range w32_range bytes_skipn bytes_firstn : ck.
#[export] Hint Extern 1 (byte _) => apply byte_lit; reflexivity : ck.
Ltac items_ok :=
  repeat (apply Forall_cons; [cbn [item_ok]; auto with ck|]); apply Forall_nil.

Lemma halves_w32 : forall bs i, bytes bs -> halves (w32 bs i) = w16 bs i + w16 bs (S (S i)).
Proof.
  intros bs i Hb. pose proof (bytes_nth bs i Hb). pose proof (bytes_nth bs (S i) Hb).
  pose proof (bytes_nth bs (S (S i)) Hb). pose proof (bytes_nth bs (S (S (S i))) Hb).
  unfold halves, w32, w16, of_be32, of_be16, byte in *. lia.
Qed.

Lemma wsum_pseudo : forall sa da proto len, u32 sa -> u32 da -> byte proto -> u16 len ->
  wsum (pseudo sa da proto len) = halves sa + halves da + proto + len.
Proof.
  intros sa da proto len Hsa Hda Hp Hl. unfold pseudo, be32, be16. cbn [app].
  rewrite !wsum_two, wsum_nil. unfold halves, u32, u16, byte in *. lia.
Qed.
Lemma pseudo_bytes : forall sa da proto len, byte proto -> bytes (pseudo sa da proto len).
Proof.
  intros. unfold pseudo. repeat (apply bytes_app; split); try apply be32_bytes; try apply be16_bytes.
  repeat (apply bytes_cons; split; auto with ck). constructor.
Qed.

(* corruption against any decoder whose accepted inputs verify: [cover] is the part of
   the input the checksum covers, [pre] the pseudo header ([] for IPv4) *)
Section Detect.
  Context {R : Type} (dec : list Z -> result R) (cover : list Z -> list Z) (pre : list Z).
  Hypothesis pre_bytes : bytes pre.
  Hypothesis pre_even : Nat.even (length pre) = true.
  Hypothesis cov_bytes : forall bs, bytes bs -> bytes (cover bs).
  Hypothesis cov_flip : forall bs i j, (i < length (cover bs))%nat ->
    cover (flip_at bs i j) = flip_at (cover bs) i j.
  Hypothesis cov_nth : forall bs i, (i < length (cover bs))%nat -> nth i (cover bs) 0 = nth i bs 0.
  Hypothesis accepted_verifies : forall bs h, bytes bs -> dec bs = Ok h ->
    rfc1071_verifies (pre ++ cover bs) = true.

  Lemma corruption_detected : forall bs bs' h, bytes bs -> bytes bs' -> dec bs = Ok h ->
    wsum (cover bs') mod 65535 <> wsum (cover bs) mod 65535 -> forall h', dec bs' <> Ok h'.
  Proof.
    intros bs bs' h Hb Hb' A Hne h' A'. apply Hne.
    apply (verifies_same_residue pre); eauto.
  Qed.

  Lemma single_flip_rejected : forall bs h i j, bytes bs -> dec bs = Ok h ->
    (i < length (cover bs))%nat -> 0 <= j < 8 -> forall h', dec (flip_at bs i j) <> Ok h'.
  Proof.
    intros bs h i j Hb A Hi Hj. apply (corruption_detected bs _ h); try assumption.
    - apply flip_at_bytes; assumption.
    - rewrite cov_flip by assumption.
      exact (single_flip_changes_sum (cover bs) i j 0 Hi (cov_bytes bs Hb) Hj).
  Qed.

  Lemma double_flip_rejected : forall bs h i1 j1 i2 j2, bytes bs -> dec bs = Ok h ->
    (i1 < length (cover bs))%nat -> (i2 < length (cover bs))%nat -> 0 <= j1 < 8 -> 0 <= j2 < 8 ->
    (i1 <> i2 \/ j1 <> j2) ->
    ~ (bit_exp i1 j1 = bit_exp i2 j2 /\ Z.testbit (nth i1 bs 0) j1 <> Z.testbit (nth i2 bs 0) j2) ->
    forall h', dec (flip_at (flip_at bs i1 j1) i2 j2) <> Ok h'.
  Proof.
    intros bs h i1 j1 i2 j2 Hb A Hi1 Hi2 Hj1 Hj2 Hne Hnc. apply (corruption_detected bs _ h); try assumption.
    - apply flip_at_bytes; [apply flip_at_bytes|]; assumption.
    - rewrite cov_flip by (rewrite cov_flip, flip_at_length; assumption).
      rewrite cov_flip by assumption.
      intro E. apply Hnc. rewrite <- (cov_nth bs i1), <- (cov_nth bs i2) by assumption.
      exact (proj1 (double_flip_unchanged_iff (cover bs) i1 j1 i2 j2 0 Hi1 Hi2 (cov_bytes bs Hb) Hj1 Hj2 Hne) E).
  Qed.
End Detect.

(* IPv4 covers the first 20 bytes only *)
Lemma firstn_flip_cover : forall n bs i j, (i < length (firstn n bs))%nat ->
  firstn n (flip_at bs i j) = flip_at (firstn n bs) i j.
Proof. intros n bs i j H. apply firstn_flip_at. rewrite firstn_length in H. lia. Qed.
Lemma firstn_nth_cover : forall n (bs : list Z) i, (i < length (firstn n bs))%nat ->
  nth i (firstn n bs) 0 = nth i bs 0.
Proof. intros n bs i H. apply nth_firstn_lt. rewrite firstn_length in H. lia. Qed.
