(* C12 equivariance, part 1: the shift maps on headers / segments / TCBs and their
   commutation with the setters, the header builders and the binary heap. *)
From Elvis Require Import Model.Base Model.U32 Model.Tcb Proofs.ListFacts Proofs.U32Facts.
From Elvis Require Export Proofs.HeapPerm.
Local Open Scope Z_scope.

Lemma wadd_0_u32 a : u32 a -> wadd a 0 = a.
Proof. exact (U32Facts.wadd_0_u32 a). Qed.
Lemma wadd_wadd a d e : wadd (wadd a d) e = wadd a (d + e).
Proof. exact (U32Facts.wadd_wadd a d e). Qed.
Lemma wadd_wrap_r a d : wadd a (wrap d) = wadd a d.
Proof. rewrite wrap_spec, !wadd_spec. rewrite Zplus_mod_idemp_r. reflexivity. Qed.
Lemma u32_0 : u32 0.
Proof. unfold u32, M32. lia. Qed.

(* A header travelling FROM an endpoint whose own space is shifted by dS
   (its seq) towards a peer whose space is shifted by dK (its ack).  The ack
   field is shifted only when the ACK flag is set: otherwise it is the raw 0
   of the header builder. *)
Definition sh_hdr (dS dK : Z) (h : header) : header :=
  mkHdr (h_sport h) (h_dport h) (wadd (h_seq h) dS)
        (if c_ack (h_ctl h) then wadd (h_ack h) dK else h_ack h)
        (h_ctl h) (h_wnd h) (h_urg h).
Definition sh_seg (dS dK : Z) (s : segment) : segment := mkSeg (sh_hdr dS dK (s_hdr s)) (s_text s).
Definition sh_tx (dS dK : Z) (x : transmit) : transmit := mkTx (sh_seg dS dK (t_seg x)) (t_needs x).

(* Four fields can hold raw values that are in no sequence space: after tcb_open
   (SynSent) RCV.IRS = RCV.NXT = SND.WL1 = SND.WL2 = 0; arrives_listen and the
   SynSent -> SynReceived move copy the ack FIELD of an ACK-less SYN (the header
   builder's raw 0) into SND.WL2.  The shifted TCB takes them from a ghost, so
   the two runs are tied by a relation and not by a function. *)
Record ghost := mkG { g_wl1 : Z; g_wl2 : Z; g_irs : Z; g_nxt : Z }.

(* dO = shift of the endpoint's own sequence space, dP = shift of its peer's *)
Definition gsh (dO dP : Z) (g : ghost) (t : tcb) : tcb :=
  mkTcb (lport t) (rport t) (mtu t) (listen_init t) (st t)
        (wadd (snd_una t) dO) (wadd (snd_nxt t) dO) (snd_wnd t) (g_wl1 g) (g_wl2 g) (wadd (snd_iss t) dO)
        (g_irs g) (g_nxt g) (rcv_wnd t)
        (out_text t) (map (sh_tx dO dP) (retx t)) (map (sh_hdr dO dP) (oneshot t)) (fin_pending t)
        (map (sh_seg dP dO) (in_segs t)) (in_text t) (rto t) (time_wait t).

(* the plain shift: every field is taken to be valid *)
Definition shift_tcb (dO dP : Z) (t : tcb) : tcb :=
  gsh dO dP (mkG (wadd (snd_wl1 t) dP) (wadd (snd_wl2 t) dO) (wadd (rcv_irs t) dP) (wadd (rcv_nxt t) dP)) t.

Definition is_synsent (s : state) : bool := match s with SynSent => true | _ => false end.
Lemma state_eqb_synsent s : state_eqb s SynSent = is_synsent s.
Proof. destruct s; reflexivity. Qed.

(* RCV.IRS / RCV.NXT / SND.WL1 hold raw zeros until a SYN has been processed;
   from then on they live in the peer's space.  (SND.WL2 is never constrained.) *)
Definition rcv_valid (dP : Z) (g : ghost) (t : tcb) : Prop :=
  is_synsent (st t) = false ->
  (g_irs g = wadd (rcv_irs t) dP /\ g_wl1 g = wadd (snd_wl1 t) dP) /\ g_nxt g = wadd (rcv_nxt t) dP.
(* SND.WL1 / SND.WL2 are valid when they were taken from an ACK-bearing segment *)
Definition wl_valid (dO dP : Z) (g : ghost) (t : tcb) : Prop :=
  g_wl1 g = wadd (snd_wl1 t) dP /\ g_wl2 g = wadd (snd_wl2 t) dO.

(* THE RELATION between a TCB and its counterpart in the run with shifted ISNs *)
Definition trel (dO dP : Z) (t t' : tcb) : Prop :=
  exists g, t' = gsh dO dP g t /\ rcv_valid dP g t.

Definition set_gwl (g : ghost) (a b : Z) : ghost := mkG a b (g_irs g) (g_nxt g).
Definition set_girs (g : ghost) (v : Z) : ghost := mkG (g_wl1 g) (g_wl2 g) v (g_nxt g).
Definition set_gnxt (g : ghost) (v : Z) : ghost := mkG (g_wl1 g) (g_wl2 g) (g_irs g) v.

(* well-formedness, carried on the ORIGINAL run only:
   every sequence field in range; every SYN- or ACK-bearing header advertises
   the (constant) default window *)
Definition hok (h : header) : Prop :=
  u32 (h_seq h) /\ u32 (h_ack h) /\
  (c_ack (h_ctl h) || c_syn (h_ctl h) = true -> h_wnd h = DEFAULT_WND).
Definition sok (s : segment) : Prop := hok (s_hdr s).
Definition xok (x : transmit) : Prop := sok (t_seg x).

Record tinv (t : tcb) : Prop := mkTinv {
  i_una : u32 (snd_una t);
  i_nxt : u32 (snd_nxt t);
  i_iss : u32 (snd_iss t);
  i_rnxt : u32 (rcv_nxt t);
  i_wl1 : u32 (snd_wl1 t);
  i_rwnd : rcv_wnd t = DEFAULT_WND;
  i_swnd : if is_synsent (st t) then snd_wnd t = 0 /\ fin_pending t = false
           else snd_wnd t = DEFAULT_WND;
  i_retx : Forall xok (retx t);
  i_one : Forall hok (oneshot t);
  i_in : Forall sok (in_segs t) }.

Ltac tcb_cbn :=
  cbn [gsh set_st set_snd_una set_snd_nxt set_snd_window set_rcv_irs set_rcv_nxt set_out_text
       set_retx set_oneshot set_fin_pending set_in_segs set_in_text set_rto set_time_wait
       lport rport mtu listen_init st snd_una snd_nxt snd_wnd snd_wl1 snd_wl2 snd_iss
       rcv_irs rcv_nxt rcv_wnd out_text retx oneshot fin_pending in_segs in_text rto time_wait
       set_gwl set_girs set_gnxt g_wl1 g_wl2 g_irs g_nxt
       sh_hdr sh_seg sh_tx h_sport h_dport h_seq h_ack h_ctl h_wnd h_urg s_hdr s_text t_seg t_needs
       c_urg c_ack c_psh c_rst c_syn c_fin
       hb hb_ack hb_wnd hb_flag hb_rst hb_syn hb_fin ctl0 fst snd] in *.

Section Shift.
Variables dO dP : Z.
Notation G := (gsh dO dP).
Notation HO := (sh_hdr dO dP).   (* outgoing header *)
Notation HI := (sh_hdr dP dO).   (* incoming header *)
Notation SO := (sh_seg dO dP).
Notation SI := (sh_seg dP dO).

Lemma trel_st t t' : trel dO dP t t' -> st t' = st t.
Proof. intros (g & -> & _). reflexivity. Qed.
Lemma trel_in_text t t' : trel dO dP t t' -> in_text t' = in_text t.
Proof. intros (g & -> & _). reflexivity. Qed.

Lemma G_set_st g t v : set_st (G g t) v = G g (set_st t v).
Proof. reflexivity. Qed.
Lemma G_set_snd_una g t v : set_snd_una (G g t) (wadd v dO) = G g (set_snd_una t v).
Proof. reflexivity. Qed.
Lemma G_set_snd_nxt g t v : set_snd_nxt (G g t) (wadd v dO) = G g (set_snd_nxt t v).
Proof. reflexivity. Qed.
Lemma G_set_snd_window g t w a b x y :
  set_snd_window (G g t) w a b = G (set_gwl g a b) (set_snd_window t w x y).
Proof. reflexivity. Qed.
Lemma G_set_rcv_irs g t v x : set_rcv_irs (G g t) v = G (set_girs g v) (set_rcv_irs t x).
Proof. reflexivity. Qed.
Lemma G_set_rcv_nxt g t v x : set_rcv_nxt (G g t) v = G (set_gnxt g v) (set_rcv_nxt t x).
Proof. reflexivity. Qed.
Lemma G_set_out_text g t v : set_out_text (G g t) v = G g (set_out_text t v).
Proof. reflexivity. Qed.
Lemma G_set_retx g t v : set_retx (G g t) (map (sh_tx dO dP) v) = G g (set_retx t v).
Proof. reflexivity. Qed.
Lemma G_set_oneshot g t v : set_oneshot (G g t) (map HO v) = G g (set_oneshot t v).
Proof. reflexivity. Qed.
Lemma G_set_fin_pending g t v : set_fin_pending (G g t) v = G g (set_fin_pending t v).
Proof. reflexivity. Qed.
Lemma G_set_in_segs g t v : set_in_segs (G g t) (map SI v) = G g (set_in_segs t v).
Proof. reflexivity. Qed.
Lemma G_set_in_text g t v : set_in_text (G g t) v = G g (set_in_text t v).
Proof. reflexivity. Qed.
Lemma G_set_rto g t v : set_rto (G g t) v = G g (set_rto t v).
Proof. reflexivity. Qed.
Lemma G_set_time_wait g t v : set_time_wait (G g t) v = G g (set_time_wait t v).
Proof. reflexivity. Qed.

Lemma set_snd_window_same t : set_snd_window t (snd_wnd t) (snd_wl1 t) (snd_wl2 t) = t.
Proof. destruct t; reflexivity. Qed.
Lemma G_set_snd_window_same g t w a b : snd_wnd t = w ->
  set_snd_window (G g t) w a b = G (set_gwl g a b) t.
Proof.
  intros <-. rewrite (G_set_snd_window g t _ a b (snd_wl1 t) (snd_wl2 t)).
  rewrite set_snd_window_same. reflexivity.
Qed.

Lemma hb_G g t seq : hb (G g t) (wadd seq dO) = HO (hb t seq).
Proof. reflexivity. Qed.
Lemma hb_ack_sh dS dK h a : hb_ack (sh_hdr dS dK h) (wadd a dK) = sh_hdr dS dK (hb_ack h a).
Proof. reflexivity. Qed.
Lemma hb_wnd_sh dS dK h w : hb_wnd (sh_hdr dS dK h) w = sh_hdr dS dK (hb_wnd h w).
Proof. reflexivity. Qed.
Lemma hb_flag_sh dS dK h r s f : hb_flag (sh_hdr dS dK h) r s f = sh_hdr dS dK (hb_flag h r s f).
Proof. reflexivity. Qed.
Lemma hb_rst_sh dS dK h : hb_rst (sh_hdr dS dK h) = sh_hdr dS dK (hb_rst h).
Proof. apply hb_flag_sh. Qed.
Lemma hb_syn_sh dS dK h : hb_syn (sh_hdr dS dK h) = sh_hdr dS dK (hb_syn h).
Proof. apply hb_flag_sh. Qed.
Lemma hb_fin_sh dS dK h : hb_fin (sh_hdr dS dK h) = sh_hdr dS dK (hb_fin h).
Proof. apply hb_flag_sh. Qed.

Lemma ack_hdr_G g t : g_nxt g = wadd (rcv_nxt t) dP -> ack_hdr (G g t) = HO (ack_hdr t).
Proof. intros E. unfold ack_hdr. tcb_cbn. rewrite E. reflexivity. Qed.

Lemma rst_hdr_G g t seq : rst_hdr (G g t) (wadd seq dO) = HO (rst_hdr t seq).
Proof. unfold rst_hdr. rewrite hb_G, hb_rst_sh, hb_wnd_sh. reflexivity. Qed.

Lemma enqueue_G g t h : enqueue (G g t) (HO h) = G g (enqueue t h).
Proof.
  unfold enqueue. tcb_cbn. destruct (c_syn (h_ctl h) || c_fin (h_ctl h)).
  - rewrite <- G_set_retx. rewrite map_app. reflexivity.
  - rewrite <- G_set_oneshot. rewrite map_app. reflexivity.
Qed.

End Shift.

Lemma get_or_P {A} (P : A -> Prop) l i x : Forall P l -> P x -> P (get_or l i x).
Proof.
  intros Hl Hx. unfold get_or. destruct (nth_error l i) eqn:E; [exact (Forall_nth_error P l i _ Hl E) | exact Hx].
Qed.
Ltac hpf := repeat first [assumption | apply set_nth_Forall | apply get_or_P].

Lemma set_nth_length {A} (l : list A) i x : length (set_nth l i x) = length l.
Proof. exact (HeapPerm.set_nth_length l i x). Qed.

(* not a corollary of HeapPerm.sift_down_perm, which speaks of the list with the hole filled *)
Lemma sift_down_Forall (P : segment -> Prop) fuel : forall v pos x, Forall P v -> P x ->
  Forall P (fst (sift_down fuel v pos x)).
Proof.
  induction fuel as [|f IH]; intros v pos x Hv Hx; cbn [sift_down]; cbv zeta.
  - exact Hv.
  - destruct (Nat.leb (2 * pos + 1) (length v - 2) && Nat.leb 2 (length v)).
    + apply IH; hpf.
    + destruct (Nat.eqb (2 * pos + 1) (length v - 1) && Nat.leb 1 (length v)); cbn [fst];
        hpf.
Qed.

(* heap_pop with the case distinction on the initial part taken out *)
Definition pop_body (init : list segment) (last : segment) : option (segment * list segment) :=
  match init with
  | [] => Some (last, [])
  | _ :: _ =>
    let '(v1, pos) := sift_down (S (length init)) init O last in
    Some (hd last init, sift_up (S (length init)) v1 pos last)
  end.
Lemma heap_pop_body v :
  heap_pop v = match rev v with [] => None | last :: rinit => pop_body (rev rinit) last end.
Proof.
  unfold heap_pop. destruct (rev v) as [|last rinit]; [reflexivity|].
  destruct (rev rinit); reflexivity.
Qed.

Section Heap.
Variables dS dK : Z.
Notation S' := (sh_seg dS dK).

Definition squ32 (s : segment) : Prop := u32 (h_seq (s_hdr s)).

Lemma seg_le_sh a b : squ32 a -> squ32 b -> seg_le (S' a) (S' b) = seg_le a b.
Proof.
  intros Ha Hb. unfold seg_le. tcb_cbn.
  rewrite eqb_shift by assumption. rewrite mod_lt_shift. reflexivity.
Qed.

Lemma set_nth_map {A B} (f : A -> B) l i x : set_nth (map f l) i (f x) = map f (set_nth l i x).
Proof.
  revert i. induction l as [|y r IH]; intros [|j]; cbn; try reflexivity. rewrite IH. reflexivity.
Qed.
Lemma get_or_map {A B} (f : A -> B) l i x : get_or (map f l) i (f x) = f (get_or l i x).
Proof.
  unfold get_or. rewrite nth_error_map. destruct (nth_error l i); reflexivity.
Qed.

Lemma sift_up_sh fuel : forall v pos x, Forall squ32 v -> squ32 x ->
  sift_up fuel (map S' v) pos (S' x) = map S' (sift_up fuel v pos x).
Proof.
  induction fuel as [|f IH]; intros v pos x Hv Hx; cbn [sift_up]; cbv zeta.
  - apply set_nth_map.
  - destruct pos as [|p]; [apply set_nth_map|].
    rewrite get_or_map. rewrite seg_le_sh by hpf.
    destruct (seg_le x _).
    + apply set_nth_map.
    + rewrite set_nth_map. apply IH; hpf.
Qed.
Lemma heap_push_sh v x : Forall squ32 v -> squ32 x ->
  heap_push (map S' v) (S' x) = map S' (heap_push v x).
Proof.
  intros Hv Hx. unfold heap_push. rewrite map_length.
  change (map S' v ++ [S' x]) with (map S' v ++ map S' [x]). rewrite <- map_app.
  apply sift_up_sh; auto. apply Forall_app; auto.
Qed.
Lemma sift_down_sh fuel : forall v pos x, Forall squ32 v -> squ32 x ->
  sift_down fuel (map S' v) pos (S' x) =
  (map S' (fst (sift_down fuel v pos x)), snd (sift_down fuel v pos x)).
Proof.
  induction fuel as [|f IH]; intros v pos x Hv Hx; cbn [sift_down]; cbv zeta.
  - reflexivity.
  - rewrite map_length.
    destruct (Nat.leb (2 * pos + 1) (length v - 2) && Nat.leb 2 (length v)).
    + rewrite !get_or_map. rewrite seg_le_sh by hpf.
      rewrite set_nth_map. apply IH; hpf.
    + destruct (Nat.eqb (2 * pos + 1) (length v - 1) && Nat.leb 1 (length v)).
      * rewrite get_or_map, set_nth_map. reflexivity.
      * reflexivity.
Qed.

Definition opt_pop_sh (o : option (segment * list segment)) :=
  match o with None => None | Some (s, r) => Some (S' s, map S' r) end.
Lemma pop_body_sh init last : Forall squ32 init -> squ32 last ->
  pop_body (map S' init) (S' last) = opt_pop_sh (pop_body init last).
Proof.
  intros Hi Hl. destruct init as [|top rest]; [reflexivity|].
  unfold pop_body. change (map S' (top :: rest)) with (S' top :: map S' rest) at 1. cbv iota.
  rewrite map_length. rewrite sift_down_sh by assumption.
  destruct (sift_down (S (length (top :: rest))) (top :: rest) 0 last) as [v1 pos] eqn:Esd.
  cbn [fst snd].
  assert (Hv1 : Forall squ32 v1).
  { change v1 with (fst (v1, pos)). rewrite <- Esd. apply sift_down_Forall; assumption. }
  rewrite sift_up_sh by assumption. reflexivity.
Qed.
Lemma heap_pop_sh v : Forall squ32 v -> heap_pop (map S' v) = opt_pop_sh (heap_pop v).
Proof.
  intros Hv. rewrite !heap_pop_body. rewrite <- map_rev.
  assert (Hr : Forall squ32 (rev v)) by (apply Forall_rev; exact Hv).
  destruct (rev v) as [|last rinit]; [reflexivity|]. cbn [map].
  inversion Hr as [|? ? Hl Hri]; subst.
  rewrite <- map_rev. apply pop_body_sh; [apply Forall_rev; exact Hri | exact Hl].
Qed.

Lemma heap_peek_sh v : heap_peek (map S' v) = option_map S' (heap_peek v).
Proof. destruct v; reflexivity. Qed.

End Heap.
