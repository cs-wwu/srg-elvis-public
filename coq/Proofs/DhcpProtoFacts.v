(* Facts about Model/DhcpProto.v (property C15, protocol part): acknowledged addresses are pairwise distinct
   without release or without duplication, the server does not crash while the pool is large enough, every
   client learns an address; witnesses for duplication + release and for exhaustion are in Props/C15.v. *)
From Coq Require Import Permutation.
From Elvis Require Import Proofs.ListFacts Model.Base Model.IpGen Proofs.IpGenFacts Model.DhcpProto.
Local Open Scope Z_scope.

Lemma nth_error_perm {A} i (l : list A) m :
  nth_error l i = Some m -> Permutation l (m :: remove_nth i l).
Proof.
  revert i; induction l as [|y t IH]; intros i H; destruct i; cbn [nth_error remove_nth] in *; try discriminate.
  - inversion H; subst. apply Permutation_refl.
  - eapply perm_trans; [apply perm_skip, IH, H|apply perm_swap].
Qed.

Lemma remove_nth_none {A} i (l : list A) : nth_error l i = None -> remove_nth i l = l.
Proof.
  revert i; induction l as [|y t IH]; intros i H; destruct i; cbn [nth_error remove_nth] in *; try discriminate; auto.
  f_equal; auto.
Qed.

Lemma In_remove_nth {A} i (l : list A) x : In x (remove_nth i l) -> In x l.
Proof.
  destruct (nth_error l i) as [m|] eqn:E; [|rewrite (remove_nth_none _ _ E); auto].
  intros H. apply (Permutation_in _ (Permutation_sym (nth_error_perm _ _ _ E))). right. exact H.
Qed.

Lemma set_nth_same {A} i (l : list A) v : nth_error l i = Some v -> set_nth i v l = l.
Proof.
  revert i; induction l as [|y t IH]; intros i H; destruct i; cbn [nth_error set_nth] in *; try discriminate.
  - inversion H; subst; auto.
  - f_equal; auto.
Qed.

Lemma nth_error_set_nth {A} i j (l : list A) v old : nth_error l i = Some old ->
  nth_error (set_nth i v l) j = if Nat.eqb i j then Some v else nth_error l j.
Proof.
  revert i j; induction l as [|y t IH]; intros i j H; destruct i; cbn [nth_error set_nth] in *; try discriminate.
  - destruct j; reflexivity.
  - destruct j; cbn [nth_error Nat.eqb]; [reflexivity|]. eapply IH; eauto.
Qed.

Lemma set_nth_length {A} (l : list A) : forall i v, length (set_nth i v l) = length l.
Proof. induction l; intros i v; destruct i; cbn [set_nth length]; auto. Qed.

Lemma In_nth_or_rest {A} (l : list A) i m x : nth_error l i = Some m -> In x l -> x = m \/ In x (remove_nth i l).
Proof. intros H Hin. apply (Permutation_in _ (nth_error_perm _ _ _ H)) in Hin. destruct Hin; auto. Qed.

Lemma NoDup_app_r {A} (l1 l2 : list A) : NoDup (l1 ++ l2) -> NoDup l2.
Proof. induction l1 as [|x t IH]; cbn [app]; auto. intros H; inversion H; auto. Qed.

(* tokens: who has been told which address, by a message in flight or by an Ack it has taken *)
Definition opt_tok (c : nat) (o : option Z) : list (nat * Z) :=
  match o with Some a => [(c, a)] | None => [] end.
Fixpoint client_tokens (k : nat) (cl : list (option Z)) : list (nat * Z) :=
  match cl with
  | [] => []
  | o :: t => opt_tok k o ++ client_tokens (S k) t
  end.
Definition msg_tok (m : msg) : list (nat * Z) :=
  if is_discover (m_type m) then [] else [(m_cid m, m_ip m)].
Definition msg_tokens (l : list msg) : list (nat * Z) := flat_map msg_tok l.
Definition tokens (st : state) : list (nat * Z) :=
  msg_tokens (net st) ++ client_tokens 0 (clients st).

Lemma msg_tokens_app l1 l2 : msg_tokens (l1 ++ l2) = msg_tokens l1 ++ msg_tokens l2.
Proof. unfold msg_tokens. apply flat_map_app. Qed.

Lemma client_tokens_In cl : forall k c a,
  In (c, a) (client_tokens k cl) <-> (k <= c)%nat /\ nth_error cl (c - k) = Some (Some a).
Proof.
  induction cl as [|o t IH]; intros k c a; cbn [client_tokens].
  - split; [intros []|]. intros [_ H]. destruct (c - k)%nat; discriminate.
  - rewrite in_app_iff, IH. split.
    + intros [H|[H1 H2]].
      * destruct o as [b|]; cbn [opt_tok] in H; [|destruct H]. destruct H as [H|[]]. inversion H; subst.
        split; [lia|]. rewrite Nat.sub_diag. reflexivity.
      * split; [lia|]. replace (c - k)%nat with (S (c - S k)) by lia. exact H2.
    + intros [H1 H2]. destruct (Nat.eq_dec c k) as [->|Hne].
      * left. rewrite Nat.sub_diag in H2. cbn [nth_error] in H2. inversion H2; subst. left; reflexivity.
      * right. split; [lia|]. replace (c - k)%nat with (S (c - S k)) in H2 by lia. exact H2.
Qed.

Lemma acked_tokens st c a : acked st c a <-> In (c, a) (client_tokens 0 (clients st)).
Proof. unfold acked. rewrite client_tokens_In, Nat.sub_0_r. split; [intros; split; [lia|auto]|tauto]. Qed.

Lemma client_tokens_set cl : forall k c cur v, nth_error cl c = Some cur ->
  Permutation (opt_tok (k + c) cur ++ client_tokens k (set_nth c v cl))
              (opt_tok (k + c) v ++ client_tokens k cl).
Proof.
  induction cl as [|o t IH]; intros k c cur v H; destruct c; cbn [nth_error] in H; try discriminate.
  - inversion H; subst. cbn [set_nth client_tokens]. rewrite Nat.add_0_r.
    rewrite !app_assoc. apply Permutation_app_tail, Permutation_app_comm.
  - cbn [set_nth client_tokens]. specialize (IH (S k) c cur v H).
    replace (k + S c)%nat with (S k + c)%nat by lia.
    eapply perm_trans; [apply Permutation_app_swap_app|].
    eapply perm_trans; [apply Permutation_app_head, IH|]. apply Permutation_app_swap_app.
Qed.

Lemma tokens_deliver st i m g cl outs : nth_error (net st) i = Some m ->
  Permutation (msg_tok m ++ tokens {| srv := g; clients := cl; net := remove_nth i (net st) ++ outs |})
              (msg_tokens outs ++ msg_tokens (net st) ++ client_tokens 0 cl).
Proof.
  intros En. unfold tokens; cbn [net clients].
  rewrite (Permutation_flat_map msg_tok (nth_error_perm _ _ _ En)), msg_tokens_app. cbn [flat_map].
  rewrite !app_assoc. apply Permutation_app_tail. rewrite <- (app_assoc (msg_tokens outs)). apply Permutation_app_comm.
Qed.

Definition offer (c : nat) (a : Z) : msg := {| m_up := false; m_cid := c; m_type := Offer; m_ip := a |}.

Lemma avail_u32 g a : gen_u32 g -> avail g a -> u32 a.
Proof.
  unfold gen_u32. rewrite Forall_forall. intros Hg [r [Hr Ha]]. specialize (Hg r Hr).
  unfold range_u32, u32, inr in *. lia.
Qed.

Lemma server_discover g m : gen_u32 g -> m_type m = Discover ->
  (exists a g', server_demux g m = Ok (g', [offer (m_cid m) a]) /\ avail g a /\ gen_u32 g' /\
                forall b, avail g' b <-> avail g b /\ b <> a) \/
  (server_demux g m = Panic 60 /\ forall a, ~ avail g a).
Proof.
  intros Hg Ht. unfold server_demux. rewrite Ht.
  destruct (fetch_ip_spec g Hg) as [oa [g' [E H]]]. rewrite E; cbn [bind fst snd].
  destruct oa as [a|].
  - left. exists a, g'. destruct H as [H1 [H2 H3]]. auto.
  - right. destruct H as [_ H]. auto.
Qed.

Lemma server_request g m : m_type m = Request ->
  server_demux g m = Ok (g, [{| m_up := false; m_cid := m_cid m; m_type := Ack; m_ip := m_ip m |}]).
Proof. unfold server_demux. intros ->. reflexivity. Qed.

Lemma server_release g m : gen_u32 g -> m_type m = Release -> u32 (m_ip m) ->
  exists g', server_demux g m = Ok (g', []) /\ gen_u32 g' /\
    forall b, avail g' b <-> avail g b \/ b = m_ip m.
Proof.
  intros Hg Ht Hu. unfold server_demux. rewrite Ht. unfold return_ip.
  destruct (net_new_1_wf _ Hu) as [Hwf Hone].
  destruct (return_subnet_spec g _ Hg Hwf) as [g' [E [Hg' Hs]]]. rewrite E; cbn [bind].
  exists g'. split; [reflexivity|]. split; [exact Hg'|]. intro b. rewrite Hs, Hone. reflexivity.
Qed.

(* the other four types are ignored (dhcp_server.rs:83) *)
Definition server_handles (t : mtype) : bool :=
  match t with Discover | Request | Release => true | _ => false end.
Lemma server_demux_ignored g m : server_handles (m_type m) = false -> server_demux g m = Ok (g, []).
Proof. unfold server_demux. destruct (m_type m); intros H; (discriminate H || reflexivity). Qed.

Lemma server_out g m g' outs : server_demux g m = Ok (g', outs) ->
  match m_type m with
  | Discover => exists a, outs = [offer (m_cid m) a]
  | Request => outs = [{| m_up := false; m_cid := m_cid m; m_type := Ack; m_ip := m_ip m |}]
  | _ => outs = []
  end.
Proof.
  unfold server_demux. destruct (m_type m); try (intros H; inversion H; reflexivity).
  - destruct (fetch_ip g) as [[[a|] g2]| | |]; cbn [bind fst snd]; try discriminate.
    intros H. inversion H. exists a. reflexivity.
  - destruct (return_ip g (m_ip m)); cbn [bind]; try discriminate. intros H. inversion H. reflexivity.
Qed.

(* the client answers an Offer with a Request, stores the address of an Ack and ignores the rest
   (dhcp_client.rs:98) *)
Definition client_handles (t : mtype) : bool := match t with Offer | Ack => true | _ => false end.
Lemma client_demux_ignored c cur m : client_handles (m_type m) = false -> client_demux c cur m = (cur, []).
Proof. unfold client_demux. destruct (m_type m); intros H; (discriminate H || reflexivity). Qed.

Inductive step_kind (st : state) (l : label) (st' : state) : Prop :=
| SK_sub extra :
    srv st' = srv st -> Permutation (tokens st) (extra ++ tokens st') -> step_kind st l st'
| SK_fetch c a :
    avail (srv st) a -> gen_u32 (srv st') ->
    (forall b, avail (srv st') b <-> avail (srv st) b /\ b <> a) ->
    Permutation (tokens st') ((c, a) :: tokens st) -> step_kind st l st'
| SK_release c a :
    (exists m, In m (net st) /\ m_type m = Release) ->
    (u32 a -> gen_u32 (srv st') /\ forall b, avail (srv st') b <-> avail (srv st) b \/ b = a) ->
    Permutation (tokens st) ((c, a) :: tokens st') -> step_kind st l st'
| SK_dup i :
    l = Dup i -> srv st' = srv st -> (forall t, In t (tokens st') -> In t (tokens st)) ->
    step_kind st l st'.

Lemma perm_sub_move {A} (x : list A) rest cl : Permutation (x ++ rest ++ cl) ((rest ++ x) ++ cl).
Proof. rewrite app_assoc. apply Permutation_app_tail, Permutation_app_comm. Qed.

Lemma step_kind_same st l st' : srv st' = srv st -> tokens st' = tokens st -> step_kind st l st'.
Proof. intros Hs Ht. apply SK_sub with (extra := []); [exact Hs|rewrite Ht; apply Permutation_refl]. Qed.

Lemma step_analysis st l st' : gen_u32 (srv st) ->
  step st l = Ok st' -> step_kind st l st'.
Proof.
  intros Hg E. destruct l as [i|i|i|c]; cbn [step] in E.
  - (* Deliver *)
    destruct (nth_error (net st) i) as [m|] eqn:En; [|inversion E; subst; apply step_kind_same; reflexivity].
    pose proof (fun g cl outs => tokens_deliver st i m g cl outs En) as Hp. unfold msg_tok in Hp.
    destruct (m_up m).
    + (* to the server *)
      destruct (server_demux (srv st) m) as [[g' outs]| | |] eqn:Es; try discriminate.
      cbn [bind fst snd] in E. inversion E; subst st'; clear E. specialize (Hp g' (clients st) outs).
      pose proof (server_out _ _ _ _ Es) as Ho.
      destruct (server_handles (m_type m)) eqn:Hh.
      2:{ rewrite (server_demux_ignored _ _ Hh) in Es. inversion Es; subst.
          apply SK_sub with (extra := msg_tok m); [reflexivity|apply Permutation_sym, Hp]. }
      destruct (m_type m) eqn:Ht; try discriminate Hh; cbn [is_discover] in Hp.
      * destruct (server_discover (srv st) m Hg Ht) as [(a & g2 & Es2 & Ha & Hg' & Hs)|[Es2 _]];
          rewrite Es in Es2; inversion Es2; subst.
        apply SK_fetch with (c := m_cid m) (a := a); [exact Ha|exact Hg'|exact Hs|exact Hp].
      * (* Request -> Ack *)
        subst outs. apply SK_sub with (extra := []).
        -- rewrite (server_request _ _ Ht) in Es. inversion Es. reflexivity.
        -- apply Permutation_sym, (Permutation_cons_inv Hp).
      * (* Release *)
        subst outs. apply SK_release with (c := m_cid m) (a := m_ip m); cbn [srv].
        -- exists m. split; [eapply nth_error_In; eauto|auto].
        -- intros Hu. destruct (server_release (srv st) m Hg Ht Hu) as [g2 [E2 [Hg2 Hs2]]].
           rewrite Es in E2. inversion E2; subst. auto.
        -- apply Permutation_sym, Hp.
    + (* to a client *)
      destruct (nth_error (clients st) (m_cid m)) as [cur|] eqn:Ec; inversion E; subst st'; clear E.
      2:{ (* no such machine *)
          specialize (Hp (srv st) (clients st) []). rewrite app_nil_r in Hp.
          apply SK_sub with (extra := msg_tok m); [reflexivity|apply Permutation_sym, Hp]. }
      specialize (Hp (srv st) (set_nth (m_cid m) (fst (client_demux (m_cid m) cur m)) (clients st))
                     (snd (client_demux (m_cid m) cur m))).
      destruct (client_handles (m_type m)) eqn:Hh.
      2:{ rewrite (client_demux_ignored _ _ _ Hh) in *. cbn [fst snd] in *. rewrite (set_nth_same _ _ _ Ec) in *.
          apply SK_sub with (extra := msg_tok m); [reflexivity|apply Permutation_sym, Hp]. }
      unfold client_demux in *. destruct (m_type m) eqn:Ht; try discriminate Hh; cbn [fst snd is_discover] in *.
      * (* Offer -> Request *)
        rewrite (set_nth_same _ _ _ Ec) in *.
        apply SK_sub with (extra := []); [reflexivity|]. apply Permutation_sym, (Permutation_cons_inv Hp).
      * (* Ack: the client stores the address *)
        apply SK_sub with (extra := opt_tok (m_cid m) cur); [reflexivity|].
        pose proof (client_tokens_set (clients st) 0 (m_cid m) cur (Some (m_ip m)) Ec) as Hc.
        cbn [Nat.add opt_tok app] in Hc, Hp. apply (Permutation_cons_inv (a := (m_cid m, m_ip m))).
        rewrite (Permutation_middle (opt_tok (m_cid m) cur)), Hp. cbn [msg_tokens flat_map app].
        rewrite Permutation_app_swap_app, Hc. apply Permutation_middle.
  - (* Dup *)
    destruct (nth_error (net st) i) as [m|] eqn:En; [|inversion E; subst; apply step_kind_same; reflexivity].
    inversion E; subst st'; clear E. apply SK_dup with (i := i); cbn [srv]; auto.
    intros t. unfold tokens; cbn [net clients]. rewrite msg_tokens_app, !in_app_iff.
    intros [[H|H]|H]; auto. left.
    cbn [msg_tokens flat_map] in H. rewrite app_nil_r in H.
    unfold msg_tokens. apply in_flat_map. exists m. split; [eapply nth_error_In; eauto|auto].
  - (* Drop *)
    inversion E; subst st'; clear E.
    destruct (nth_error (net st) i) as [m|] eqn:En; [|rewrite (remove_nth_none _ _ En); apply step_kind_same; reflexivity].
    pose proof (tokens_deliver st i m (srv st) (clients st) [] En) as Hp. rewrite app_nil_r in Hp.
    apply SK_sub with (extra := msg_tok m); [reflexivity|apply Permutation_sym, Hp].
  - (* AppRelease *)
    destruct (nth_error (clients st) c) as [[a|]|] eqn:Ec; inversion E; subst; try (apply step_kind_same; reflexivity).
    apply SK_sub with (extra := []); cbn [srv app]; auto.
    unfold tokens; cbn [net clients]. rewrite msg_tokens_app.
    cbn [msg_tokens flat_map msg_tok m_type is_discover m_cid m_ip app].
    pose proof (client_tokens_set (clients st) 0 c (Some a) None Ec) as Hc.
    cbn [Nat.add opt_tok app] in Hc.
    rewrite <- app_assoc. apply Permutation_app_head. cbn [app]. apply Permutation_sym, Hc.
Qed.

Definition is_release_label (l : label) : bool := match l with AppRelease _ => true | _ => false end.
Definition is_dup_label (l : label) : bool := match l with Dup _ => true | _ => false end.
Definition no_release (tr : list label) : Prop := forallb (fun l => negb (is_release_label l)) tr = true.
Definition no_dup (tr : list label) : Prop := forallb (fun l => negb (is_dup_label l)) tr = true.

Lemma run_inv (P : state -> Prop) (ok : label -> bool) :
  (forall st l st', P st -> ok l = true -> step st l = Ok st' -> P st') ->
  forall tr st st', P st -> forallb ok tr = true -> DhcpProto.run st tr = Ok st' -> P st'.
Proof.
  intros Hstep. induction tr as [|l t IH]; intros st st' HP Hok E; cbn [DhcpProto.run] in E.
  - inversion E; subst; auto.
  - cbn [forallb] in Hok. apply andb_true_iff in Hok. destruct Hok as [Hl Ht].
    destruct (step st l) as [st1| | |] eqn:E1; cbn [bind] in E; try discriminate.
    apply (IH st1 st'); auto. apply (Hstep st l st1); auto.
Qed.

(* no Release message exists unless an application released *)
Definition NR (st : state) : Prop := forall m, In m (net st) -> m_type m <> Release.

Lemma server_out_types g m g' outs : server_demux g m = Ok (g', outs) ->
  forall x, In x outs -> m_type x = Offer \/ m_type x = Ack.
Proof.
  intros E x. apply server_out in E. destruct (m_type m); [destruct E as [a E]| | | | | |]; subst outs; cbn [In];
    intros H; try contradiction; destruct H as [<-|[]]; auto.
Qed.

Lemma client_out_types c cur m x : In x (snd (client_demux c cur m)) -> m_type x = Request.
Proof. unfold client_demux. destruct (m_type m); cbn [snd In]; intros H; try contradiction. destruct H as [<-|[]]; reflexivity. Qed.

Lemma NR_step st l st' : NR st -> is_release_label l = false -> step st l = Ok st' -> NR st'.
Proof.
  intros Hnr Hl E. destruct l as [i|i|i|c]; cbn [step] in E; try discriminate.
  - destruct (nth_error (net st) i) as [m|] eqn:En; [|inversion E; subst; auto].
    destruct (m_up m).
    + destruct (server_demux (srv st) m) as [[g' outs]| | |] eqn:Es; cbn [bind fst snd] in E; try discriminate.
      inversion E; subst st'; clear E. intros x Hx. cbn [net] in Hx. apply in_app_iff in Hx.
      destruct Hx as [Hx|Hx]; [apply Hnr; eapply In_remove_nth; eauto|].
      destruct (server_out_types _ _ _ _ Es x Hx) as [-> | ->]; discriminate.
    + destruct (nth_error (clients st) (m_cid m)) as [cur|].
      * inversion E; subst st'; clear E. intros x Hx. cbn [net] in Hx. apply in_app_iff in Hx.
        destruct Hx as [Hx|Hx]; [apply Hnr; eapply In_remove_nth; eauto|].
        rewrite (client_out_types _ _ _ _ Hx). discriminate.
      * inversion E; subst st'; clear E. intros x Hx. cbn [net] in Hx. apply Hnr; eapply In_remove_nth; eauto.
  - destruct (nth_error (net st) i) as [m|] eqn:En; [|inversion E; subst; auto].
    inversion E; subst st'; clear E. intros x Hx. cbn [net] in Hx. apply in_app_iff in Hx.
    destruct Hx as [Hx|[<-|[]]]; [apply Hnr; auto|]. apply Hnr. eapply nth_error_In; eauto.
  - inversion E; subst st'; clear E. intros x Hx. cbn [net] in Hx. apply Hnr; eapply In_remove_nth; eauto.
Qed.

Definition TokOK (g0 : gen) (st : state) : Prop :=
  forall c a, In (c, a) (tokens st) -> avail g0 a /\ ~ avail (srv st) a.

(* common to both: the generator offers only addresses of the pool, and none that somebody was told *)
Definition Core (g0 : gen) (st : state) : Prop :=
  gen_u32 (srv st) /\ (forall a, avail (srv st) a -> avail g0 a) /\ TokOK g0 st.

(* A: arbitrary duplication, no release *)
Definition InvA (g0 : gen) (st : state) : Prop :=
  Core g0 st /\ NR st /\
  (forall c1 c2 a, In (c1, a) (tokens st) -> In (c2, a) (tokens st) -> c1 = c2).

(* B: releases, no duplication *)
Definition InvB (g0 : gen) (st : state) : Prop := Core g0 st /\ NoDup (map snd (tokens st)).

Lemma Core_sub g0 st st' : srv st' = srv st -> (forall t, In t (tokens st') -> In t (tokens st)) ->
  Core g0 st -> Core g0 st'.
Proof.
  intros Hs Hin (Hg & Hsub & Htok). unfold Core, TokOK. rewrite Hs. split; [exact Hg|]. split; [exact Hsub|].
  intros c a Ht. apply (Htok c a), Hin, Ht.
Qed.

Lemma Core_fetch g0 st st' c a : avail (srv st) a -> gen_u32 (srv st') ->
  (forall b, avail (srv st') b <-> avail (srv st) b /\ b <> a) ->
  (forall t, In t (tokens st') -> t = (c, a) \/ In t (tokens st)) -> Core g0 st -> Core g0 st'.
Proof.
  intros Ha Hg' Hs Hin (Hg & Hsub & Htok). split; [exact Hg'|]. split.
  - intros b Hb. apply Hs in Hb. apply Hsub, Hb.
  - intros c' a' Ht. destruct (Hin _ Ht) as [Heq|Hold].
    + inversion Heq; subst. split; [auto|]. intro Hb. apply Hs in Hb. destruct Hb; congruence.
    + destruct (Htok _ _ Hold) as [H1 H2]. split; auto. intro Hb. apply Hs in Hb. tauto.
Qed.

Lemma InvA_step g0 st l st' : InvA g0 st -> negb (is_release_label l) = true -> step st l = Ok st' -> InvA g0 st'.
Proof.
  intros (HC & Hnr & Huniq) Hl E. apply negb_true_iff in Hl.
  pose proof (NR_step st l st' Hnr Hl E) as Hnr'. pose proof HC as (Hg & _ & Htok).
  assert (Sub : srv st' = srv st -> (forall t, In t (tokens st') -> In t (tokens st)) -> InvA g0 st').
  { intros Hs Hin. split; [apply (Core_sub g0 st); assumption|]. split; [exact Hnr'|].
    intros c1 c2 a H1 H2. apply (Huniq c1 c2 a); apply Hin; assumption. }
  destruct (step_analysis st l st' Hg E) as [extra Hs Hp|c a Ha Hg' Hs Hp|c a [m [Hin Ht]] _ _|i _ Hs Hin].
  - apply Sub; [exact Hs|]. intros t Ht. apply (Permutation_in _ (Permutation_sym Hp)), in_or_app. right. exact Ht.
  - assert (Hin : forall t, In t (tokens st') -> t = (c, a) \/ In t (tokens st)).
    { intros t Ht. apply (Permutation_in _ Hp) in Ht. destruct Ht; auto. }
    split; [apply (Core_fetch g0 st st' c a); assumption|]. split; [exact Hnr'|].
    intros c1 c2 a' H1 H2. destruct (Hin _ H1) as [E1|O1]; destruct (Hin _ H2) as [E2|O2].
    + congruence.
    + inversion E1; subst. destruct (Htok _ _ O2); contradiction.
    + inversion E2; subst. destruct (Htok _ _ O1); contradiction.
    + eapply Huniq; eauto.
  - exfalso. apply (Hnr m Hin Ht).
  - apply Sub; assumption.
Qed.

Lemma InvB_step g0 st l st' : gen_u32 g0 -> InvB g0 st -> negb (is_dup_label l) = true ->
  step st l = Ok st' -> InvB g0 st'.
Proof.
  intros Hg0 (HC & Hnd) Hl E. apply negb_true_iff in Hl. pose proof HC as (Hg & Hsub & Htok).
  destruct (step_analysis st l st' Hg E) as [extra Hs Hp|c a Ha Hg' Hs Hp|c a _ Hrel Hp|i Hi _ _].
  - split.
    + apply (Core_sub g0 st); [exact Hs| |exact HC].
      intros t Ht. apply (Permutation_in _ (Permutation_sym Hp)), in_or_app. right. exact Ht.
    + apply (Permutation_map snd) in Hp. apply (Permutation_NoDup Hp) in Hnd.
      rewrite map_app in Hnd. eapply NoDup_app_r; eauto.
  - split.
    + apply (Core_fetch g0 st st' c a); try assumption. intros t Ht. apply (Permutation_in _ Hp) in Ht. destruct Ht; auto.
    + apply (Permutation_map snd) in Hp. apply (Permutation_NoDup (Permutation_sym Hp)).
      cbn [map snd]. constructor; auto. intro Hx. apply in_map_iff in Hx. destruct Hx as [[c' a'] [Heq Hx]].
      cbn [snd] in Heq; subst a'. destruct (Htok _ _ Hx); contradiction.
  - assert (Hca : In (c, a) (tokens st)) by (eapply Permutation_in; [apply Permutation_sym, Hp|left; auto]).
    destruct (Htok _ _ Hca) as [Hpool _].
    destruct (Hrel (avail_u32 _ _ Hg0 Hpool)) as [Hg' Hs].
    assert (Hin : forall t, In t (tokens st') -> In t (tokens st)).
    { intros t Ht. eapply Permutation_in; [apply Permutation_sym, Hp|]. right; auto. }
    pose proof (Permutation_map snd Hp) as Hp2. apply (Permutation_NoDup Hp2) in Hnd. cbn [map snd] in Hnd.
    inversion Hnd as [|? ? Hnotin Hnd']; subst.
    split; [|exact Hnd']. split; [exact Hg'|]. split.
    + intros b Hb. apply Hs in Hb. destruct Hb as [Hb| -> ]; auto.
    + intros c' a' Ht. destruct (Htok _ _ (Hin _ Ht)) as [H1 H2]. split; auto.
      intro Hb. apply Hs in Hb. destruct Hb as [Hb| -> ]; [contradiction|].
      apply Hnotin. apply in_map_iff. exists (c', a). auto.
  - subst l. discriminate.
Qed.

Lemma msg_tokens_discovers l : msg_tokens (map discover_of l) = [].
Proof. induction l; cbn; auto. Qed.
Lemma client_tokens_none n : forall k, client_tokens k (repeat None n) = [].
Proof. induction n; intros k; cbn [repeat client_tokens opt_tok app]; auto. Qed.

Lemma tokens_init n g : tokens (init n g) = [].
Proof. unfold tokens, init; cbn [net clients]. rewrite msg_tokens_discovers, client_tokens_none. reflexivity. Qed.

Lemma NR_init n g : NR (init n g).
Proof.
  intros m Hm. unfold init in Hm; cbn [net] in Hm. apply in_map_iff in Hm. destruct Hm as [c [<- _]].
  cbn. discriminate.
Qed.

Lemma Core_init n g0 : gen_u32 g0 -> Core g0 (init n g0).
Proof.
  intros Hg. unfold Core, TokOK. rewrite tokens_init. split; [exact Hg|]. split; [auto|]. intros; contradiction.
Qed.

Lemma InvA_init n g0 : gen_u32 g0 -> InvA g0 (init n g0).
Proof.
  intros Hg. split; [apply Core_init, Hg|]. split; [apply NR_init|]. rewrite tokens_init. intros; contradiction.
Qed.

Lemma InvB_init n g0 : gen_u32 g0 -> InvB g0 (init n g0).
Proof. intros Hg. split; [apply Core_init, Hg|]. rewrite tokens_init. constructor. Qed.

Lemma acked_token st c a : acked st c a -> In (c, a) (tokens st).
Proof. intros H. unfold tokens. apply in_app_iff. right. apply acked_tokens, H. Qed.

Lemma dhcp_distinct n g0 tr st : gen_u32 g0 -> no_release tr \/ no_dup tr ->
  DhcpProto.run (init n g0) tr = Ok st ->
  (forall c1 c2 a, acked st c1 a -> acked st c2 a -> c1 = c2) /\
  (forall c a, acked st c a -> avail g0 a /\ ~ avail (srv st) a).
Proof.
  intros Hg [Hnr|Hnd] E.
  - assert (HI : InvA g0 st).
    { eapply (run_inv (InvA g0) (fun l => negb (is_release_label l))); eauto.
      - intros; eapply InvA_step; eauto.
      - apply InvA_init; auto. }
    destruct HI as ((_ & _ & Htok) & _ & Huniq). split.
    + intros c1 c2 a H1 H2. eapply Huniq; apply acked_token; eauto.
    + intros c a H. apply (Htok c a), acked_token, H.
  - assert (HI : InvB g0 st).
    { eapply (run_inv (InvB g0) (fun l => negb (is_dup_label l))); eauto.
      - intros; eapply InvB_step; eauto.
      - apply InvB_init; auto. }
    destruct HI as ((_ & _ & Htok) & Hnodup). split.
    + intros c1 c2 a H1 H2.
      pose proof (NoDup_map_inj snd _ (c1, a) (c2, a) Hnodup (acked_token _ _ _ H1) (acked_token _ _ _ H2) eq_refl) as Ec.
      congruence.
    + intros c a H. apply (Htok c a), acked_token, H.
Qed.

(* duplication AND release together: the same address ends up acknowledged to two clients *)
Definition double_lease_trace : list label :=
  [ Deliver 0; Deliver 1; Deliver 1;   (* client 0: Discover -> Offer 10 -> Request 10 -> Ack 10 in flight *)
    Dup 1;                             (* the Ack is duplicated *)
    Deliver 1;                         (* client 0 learns 10 *)
    AppRelease 0; Deliver 2;           (* client 0 releases 10; the server takes it back *)
    Deliver 0; Deliver 1; Deliver 1; Deliver 1;   (* client 1: Discover -> Offer 10 -> ... -> learns 10 *)
    Deliver 0 ].                       (* the stale duplicate Ack reaches client 0 *)

Example dhcp_release_reuse :
  exists st, DhcpProto.run (init 2 (gen_new (10, 10)))
     [Deliver 0; Deliver 1; Deliver 1; Deliver 1; AppRelease 0; Deliver 1;
      Deliver 0; Deliver 0; Deliver 0; Deliver 0] = Ok st /\
     clients st = [None; Some 10].
Proof. eexists. split; vm_compute; reflexivity. Qed.

Definition is_updisc (m : msg) : bool := m_up m && is_discover (m_type m).
Definition discovers (l : list msg) : nat := length (filter is_updisc l).
Definition count_dups (tr : list label) : nat := length (filter is_dup_label tr).
Definition Free (g : gen) (k : nat) : Prop :=
  exists L, NoDup L /\ (forall a, In a L -> avail g a) /\ (k <= length L)%nat.

Lemma Free_le g k k' : (k' <= k)%nat -> Free g k -> Free g k'.
Proof. intros Hle [L [H1 [H2 H3]]]. exists L. repeat split; auto. lia. Qed.

Lemma Free_nonempty g k : Free g (S k) -> exists a, avail g a.
Proof. intros [L [_ [H2 H3]]]. destruct L as [|a t]; cbn [length] in H3; [lia|]. exists a. apply H2. left; auto. Qed.

Lemma Free_fetch g g' a k : Free g (S k) -> (forall b, avail g' b <-> avail g b /\ b <> a) -> Free g' k.
Proof.
  intros [L [Hnd [Hav Hlen]]] Hs. destruct (in_dec Z.eq_dec a L) as [Hin|Hnin].
  - apply in_split in Hin. destruct Hin as [l1 [l2 ->]].
    exists (l1 ++ l2). split; [eapply NoDup_remove_1; eauto|]. split.
    + intros b Hb. apply Hs. split.
      * apply Hav. apply in_app_iff in Hb. apply in_app_iff. destruct Hb; [left|right; right]; auto.
      * intros ->. eapply NoDup_remove_2; eauto.
    + rewrite app_length in *. cbn [length] in Hlen. lia.
  - exists L. split; [auto|]. split; [|lia].
    intros b Hb. apply Hs. split; [auto|]. intros ->. contradiction.
Qed.

Lemma discovers_app l1 l2 : discovers (l1 ++ l2) = (discovers l1 + discovers l2)%nat.
Proof. unfold discovers. rewrite filter_app, app_length. reflexivity. Qed.

Lemma discovers_nth l : forall i m, nth_error l i = Some m ->
  discovers l = ((if is_updisc m then 1 else 0) + discovers (remove_nth i l))%nat.
Proof.
  induction l as [|x t IH]; intros i m H; destruct i; cbn [nth_error remove_nth] in *; try discriminate.
  - inversion H; subst. unfold discovers. cbn [filter]. destruct (is_updisc m); reflexivity.
  - specialize (IH i m H). unfold discovers in *. cbn [filter]. destruct (is_updisc x); cbn [length]; lia.
Qed.

Lemma discovers_remove l i : (discovers (remove_nth i l) <= discovers l)%nat.
Proof.
  destruct (nth_error l i) as [m|] eqn:E.
  - rewrite (discovers_nth l i m E). lia.
  - rewrite (remove_nth_none _ _ E). lia.
Qed.

Lemma discovers_client_out c cur m : discovers (snd (client_demux c cur m)) = 0%nat.
Proof. unfold client_demux. destruct (m_type m); reflexivity. Qed.

Lemma step_free st l k : NR st -> gen_u32 (srv st) -> is_release_label l = false ->
  Free (srv st) (discovers (net st) + (if is_dup_label l then 1 else 0) + k) ->
  exists st', step st l = Ok st' /\ gen_u32 (srv st') /\ Free (srv st') (discovers (net st') + k).
Proof.
  intros Hnr Hg Hl Hf. destruct l as [i|i|i|c]; cbn [step is_dup_label] in *; try discriminate.
  - destruct (nth_error (net st) i) as [m|] eqn:En.
    2:{ exists st. repeat split; auto. eapply Free_le; [|exact Hf]. lia. }
    pose proof (discovers_nth _ _ _ En) as Hd. unfold is_updisc in Hd.
    destruct (m_up m).
    + destruct (server_handles (m_type m)) eqn:Hh.
      2:{ rewrite (server_demux_ignored _ _ Hh). cbn [bind fst snd]. eexists; split; [reflexivity|]. cbn [srv net].
          split; [exact Hg|]. rewrite app_nil_r. eapply Free_le; [|exact Hf]. lia. }
      destruct (m_type m) eqn:Ht; try discriminate Hh; cbn [andb is_discover] in Hd.
      * rewrite Hd in Hf. cbn [Nat.add] in Hf. rewrite Nat.add_0_r in Hf.
        destruct (Free_nonempty _ _ Hf) as [a0 Ha0].
        destruct (server_discover (srv st) m Hg Ht) as [[a [g' [Es [Ha [Hg' Hs]]]]]|[_ Hno]];
          [|exfalso; eapply Hno; eauto].
        rewrite Es; cbn [bind fst snd]. eexists; split; [reflexivity|]. cbn [srv net]. split; [exact Hg'|].
        rewrite discovers_app. change (discovers [offer (m_cid m) a]) with 0%nat. rewrite Nat.add_0_r.
        eapply Free_fetch; eauto.
      * rewrite (server_request _ _ Ht). cbn [bind fst snd]. eexists; split; [reflexivity|]. cbn [srv net].
        split; [exact Hg|]. rewrite discovers_app. eapply Free_le; [|exact Hf].
        unfold discovers at 2. cbn. lia.
      * exfalso. apply (Hnr m); [eapply nth_error_In; eauto|auto].
    + destruct (nth_error (clients st) (m_cid m)) as [cur|].
      * eexists; split; [reflexivity|]. cbn [srv net]. split; [exact Hg|].
        rewrite discovers_app, discovers_client_out. eapply Free_le; [|exact Hf]. lia.
      * eexists; split; [reflexivity|]. cbn [srv net]. split; [exact Hg|].
        eapply Free_le; [|exact Hf]. lia.
  - destruct (nth_error (net st) i) as [m|] eqn:En.
    2:{ exists st. repeat split; auto. eapply Free_le; [|exact Hf]. lia. }
    eexists; split; [reflexivity|]. cbn [srv net]. split; [exact Hg|].
    rewrite discovers_app. eapply Free_le; [|exact Hf].
    unfold discovers at 2. cbn [filter]. destruct (is_updisc m); cbn [length]; lia.
  - eexists; split; [reflexivity|]. cbn [srv net]. split; [exact Hg|].
    eapply Free_le; [|exact Hf]. pose proof (discovers_remove (net st) i). lia.
Qed.

Lemma run_no_panic tr : forall st, NR st -> gen_u32 (srv st) -> no_release tr ->
  Free (srv st) (discovers (net st) + count_dups tr) -> exists st', DhcpProto.run st tr = Ok st'.
Proof.
  induction tr as [|l t IH]; intros st Hnr Hg Hrel Hf; cbn [DhcpProto.run].
  - eauto.
  - unfold no_release in Hrel. cbn [forallb] in Hrel. apply andb_true_iff in Hrel. destruct Hrel as [Hl Ht].
    apply negb_true_iff in Hl.
    assert (Hf' : Free (srv st) (discovers (net st) + (if is_dup_label l then 1 else 0) + count_dups t)).
    { eapply Free_le; [|exact Hf]. unfold count_dups. cbn [filter]. destruct (is_dup_label l); cbn [length]; lia. }
    destruct (step_free st l (count_dups t) Hnr Hg Hl Hf') as [st1 [E1 [Hg1 Hf1]]].
    rewrite E1; cbn [bind]. apply IH; auto. eapply NR_step; eauto.
Qed.

Lemma discovers_init l : discovers (map discover_of l) = length l.
Proof. unfold discovers. induction l; cbn; auto. Qed.

Lemma dhcp_no_panic n g0 tr L : gen_u32 g0 -> no_release tr ->
  NoDup L -> (forall a, In a L -> avail g0 a) -> (n + count_dups tr <= length L)%nat ->
  exists st, DhcpProto.run (init n g0) tr = Ok st.
Proof.
  intros Hg Hrel Hnd Hav Hlen. apply run_no_panic; auto.
  - apply NR_init.
  - unfold init; cbn [srv net]. rewrite discovers_init, seq_length. exists L. auto.
Qed.

Definition progress (m : msg) : bool :=
  if m_up m then match m_type m with Discover | Request => true | _ => false end
  else match m_type m with Offer | Ack => true | _ => false end.
Definition served (st : state) (c : nat) : Prop :=
  (exists a, acked st c a) \/ (exists m, In m (net st) /\ m_cid m = c /\ progress m = true).
Definition InvE (n : nat) (st : state) : Prop :=
  length (clients st) = n /\ forall c, (c < n)%nat -> served st c.
Definition is_lossless (l : label) : bool := match l with Deliver _ | Dup _ => true | _ => false end.

(* a delivery keeps a client served if it keeps the client's address and hands the progress of the
   delivered message on: to the client's state or to a reply *)
Lemma served_deliver st i m st' outs c : nth_error (net st) i = Some m ->
  net st' = remove_nth i (net st) ++ outs ->
  (forall a, acked st c a -> exists a', acked st' c a') ->
  (m_cid m = c -> progress m = true ->
   (exists a, acked st' c a) \/ exists x, In x outs /\ m_cid x = c /\ progress x = true) ->
  served st c -> served st' c.
Proof.
  intros En Hn Hk Hm [[a Ha]|(m' & Hin & Hcid & Hp)]; [left; eauto|].
  destruct (In_nth_or_rest _ _ _ _ En Hin) as [->|Hrest].
  - destruct (Hm Hcid Hp) as [Ha|(x & Hx & Hxc & Hxp)]; [left; exact Ha|].
    right. exists x. rewrite Hn. split; [apply in_or_app; right; exact Hx|auto].
  - right. exists m'. rewrite Hn. split; [apply in_or_app; left; exact Hrest|auto].
Qed.

Lemma InvE_step n st l st' : InvE n st -> is_lossless l = true -> step st l = Ok st' -> InvE n st'.
Proof.
  intros [Hlen Hs] Hl E. destruct l as [i|i|i|c0]; cbn [step is_lossless] in *; try discriminate.
  - destruct (nth_error (net st) i) as [m|] eqn:En; [|inversion E; subst; split; auto].
    destruct (m_up m) eqn:Hup.
    + destruct (server_demux (srv st) m) as [[g' outs]| | |] eqn:Es; cbn [bind fst snd] in E; try discriminate.
      inversion E; subst st'; clear E. split; [exact Hlen|]. intros c Hc.
      apply (served_deliver st i m _ outs c En); [reflexivity|intros a Ha; exists a; exact Ha| |apply Hs, Hc].
      intros Hcid Hp. right. unfold progress in Hp. rewrite Hup in Hp. apply server_out in Es.
      destruct (m_type m); try discriminate Hp; [destruct Es as [a ->]|subst outs]; eexists;
        (split; [left; reflexivity|split; [exact Hcid|reflexivity]]).
    + destruct (nth_error (clients st) (m_cid m)) as [cur|] eqn:Ec; inversion E; subst st'; clear E.
      * split; [cbn [clients]; rewrite set_nth_length; exact Hlen|]. intros c Hc.
        apply (served_deliver st i m _ (snd (client_demux (m_cid m) cur m)) c En); [reflexivity| | |apply Hs, Hc].
        -- intros a Ha. unfold acked in *. cbn [clients]. rewrite (nth_error_set_nth _ c _ _ _ Ec).
           destruct (Nat.eqb (m_cid m) c) eqn:Eq; [|eauto]. apply Nat.eqb_eq in Eq. subst c.
           rewrite Ec in Ha. inversion Ha; subst. unfold client_demux. destruct (m_type m); cbn [fst]; eauto.
        -- intros Hcid Hp. unfold progress in Hp. rewrite Hup in Hp. unfold client_demux.
           destruct (m_type m); try discriminate Hp; cbn [fst snd].
           ++ right. eexists. split; [left; reflexivity|]. split; [exact Hcid|reflexivity].
           ++ left. exists (m_ip m). unfold acked. cbn [clients].
              rewrite (nth_error_set_nth _ c _ _ _ Ec), Hcid, Nat.eqb_refl. reflexivity.
      * split; [exact Hlen|]. intros c Hc.
        apply (served_deliver st i m _ [] c En); [symmetry; apply app_nil_r|intros a Ha; exists a; exact Ha| |apply Hs, Hc].
        intros Hcid _. exfalso. apply nth_error_None in Ec. lia.
  - destruct (nth_error (net st) i) as [m|] eqn:En; [|inversion E; subst; split; auto].
    inversion E; subst st'; clear E. split; [exact Hlen|]. intros c Hc.
    destruct (Hs c Hc) as [Hack|[m' [Hin [Hcid Hp]]]]; [left; exact Hack|].
    right. exists m'. split; [cbn [net]; apply in_app_iff; left; auto|auto].
Qed.

Lemma InvE_init n g : InvE n (init n g).
Proof.
  split; [unfold init; cbn [clients]; apply repeat_length|].
  intros c Hc. right. exists (discover_of c). split; [|split; reflexivity].
  unfold init; cbn [net]. apply in_map. apply in_seq. lia.
Qed.

Lemma InvE_run n g0 tr st : forallb is_lossless tr = true -> DhcpProto.run (init n g0) tr = Ok st -> InvE n st.
Proof.
  intros Hl E. apply (run_inv (InvE n) is_lossless (InvE_step n) tr (init n g0) st (InvE_init n g0) Hl E).
Qed.

(* the hypotheses of the theorems are satisfiable: the canonical run of two clients *)
Example dhcp_two_clients :
  exists st, DhcpProto.run (init 2 (gen_new (1, 255)))
      [Deliver 0; Deliver 0; Deliver 0; Deliver 0; Deliver 0; Deliver 0; Deliver 0; Deliver 0] = Ok st /\
    net st = [] /\ clients st = [Some 1; Some 2].
Proof. eexists. split; [vm_compute; reflexivity|]. split; reflexivity. Qed.

(* DhcpServer::new(_, IpRange::new(s, e)): no crash while clients + duplications fit in the range *)
Lemma range_list s e : s <= e ->
  exists L, NoDup L /\ (forall a, In a L <-> s <= a <= e) /\ length L = Z.to_nat (e - s + 1).
Proof.
  intros Hle. exists (map (fun i => s + Z.of_nat i) (seq 0 (Z.to_nat (e - s + 1)))). split; [|split].
  - apply FinFun.Injective_map_NoDup; [|apply seq_NoDup]. intros x y H. lia.
  - intro a. rewrite in_map_iff. split.
    + intros [i [<- Hi]]. apply in_seq in Hi. lia.
    + intros Ha. exists (Z.to_nat (a - s)). split; [lia|]. apply in_seq. lia.
  - rewrite map_length, seq_length. reflexivity.
Qed.

Lemma dhcp_no_panic_range n s e tr : u32 s -> u32 e -> s <= e -> no_release tr ->
  Z.of_nat (n + count_dups tr) <= e - s + 1 ->
  exists st, DhcpProto.run (init n (gen_new (s, e))) tr = Ok st.
Proof.
  intros Hs He Hle Hrel Hn. destruct (range_list s e Hle) as [L [Hnd [Hin Hlen]]].
  apply (dhcp_no_panic n _ tr L); auto.
  - apply gen_new_u32. split; auto.
  - intros a Ha. apply avail_new. apply Hin in Ha. exact Ha.
  - rewrite Hlen. lia.
Qed.
