(* C03 (d): simultaneous close.  From a quiescent state both sides close, two loss-free rounds,
   then both 2*MSL timers: both endpoints are released.  For every quiescent state. *)
From Elvis Require Import Model.Base Model.U32 Model.Tcb Model.TcpNet Proofs.U32Facts Proofs.TcbLive
  Proofs.TcbLiveSys Proofs.TcbLiveThm Proofs.TcbLiveHs Proofs.TcbLiveHsSys Proofs.TcbLiveClose
  Proofs.TcbLiveCloseSys Proofs.TcbLiveClose2.
Local Open Scope Z_scope.

Section Close2.
  Variable c : config.

  Theorem close_simultaneous s a b : Quiescent c s a b ->
    run c s [LClose SA; LClose SB; LFair 2; LTick SA 2001; LTick SB 2001] =
    mkSys EDead EDead [] [] (subA s) (subB s) (delA s) (delB s) false.
  Proof.
    intros HQ. pattern s. apply (quiescent_literal_ind c _ a b); [|exact HQ]. clear s HQ.
    intros lpA rpA mA liA w1A w2A issA irsA lpB rpB mB liB w1B w2B issB irsB sA sB dA dB Hua Hub HmA HmB.
    cbn [subA subB delA delB].
    cbn [run fold_left].
    (* both close *)
    match goal with |- context [sys_step c (fst (sys_step c ?s0 (LClose SA))) (LClose SB)] =>
      set (s1 := fst (sys_step c (fst (sys_step c s0 (LClose SA))) (LClose SB))) end.
    close_norm_in s1.
    match goal with s1 := mkSys (ELive ?x) (ELive ?y) _ _ _ _ _ _ _ |- _ => set (tA1 := x) in s1; set (tB1 := y) in s1 end.
    rewrite (fairk c s1 2 eq_refl). cbn [fair_rounds].
    set (finctl := mkCtl false true false false false true).
    set (ackctl := mkCtl false true false false false false).
    set (finAh := mkHdr lpA rpA a b finctl 65535 0). set (finA := mkSeg finAh []).
    set (finBh := mkHdr lpB rpB b a finctl 65535 0). set (finB := mkSeg finBh []).
    assert (HfinA : fin_ack finAh) by (unfold fin_ack; auto).
    assert (HfinB : fin_ack finBh) by (unfold fin_ack; auto).
    (* round 1, A's half: A's FIN and its copy; B: FIN-WAIT-1 -> CLOSING *)
    pose proof (fun t => fin_not_acked t b Hub) as HfaB. pose proof (fun t => fin_not_acked t a Hua) as HfaA.
    assert (G1 : segment_arrives tB1 finA =
                 Ok (set_st (set_oneshot (set_rcv_nxt (set_in_segs tB1 []) (wadd a 1))
                                         [ack_hdr (set_rcv_nxt (set_in_segs tB1 []) (wadd a 1))]) Closing, AOk)).
    { eapply arrives_single; try reflexivity.
      - apply mod_gt_refl_false.
      - etransitivity; [exact (process_fin_unacked (set_in_segs tB1 []) finAh (or_introl eq_refl) eq_refl eq_refl eq_refl
                   (mod_leq_refl b) (HfaB (set_in_segs tB1 []) eq_refl eq_refl eq_refl)
                   (seq_ok_fin_at_nxt (set_in_segs tB1 []) a Hua eq_refl eq_refl))|].
        rewrite (ps_fin_first (set_in_segs tB1 []) finAh eq_refl eq_refl Hua eq_refl).
        cbv zeta. cbn [set_in_segs st tB1].
        rewrite HfaB by reflexivity. reflexivity.
      - reflexivity. }
    set (tB2 := set_st _ Closing) in G1.
    assert (G2 : segment_arrives tB2 finA =
                 Ok (set_oneshot (set_in_segs tB2 []) (oneshot tB2 ++ [ack_hdr tB2]), AOk)).
    { eapply arrives_single; try reflexivity.
      - cbn. unfold mod_gt. apply mod_lt_succ_l.
      - etransitivity; [exact (process_fin_unacked (set_in_segs tB2 []) finAh (or_intror eq_refl) eq_refl eq_refl eq_refl
                   (mod_leq_refl b) (HfaB (set_in_segs tB2 []) eq_refl eq_refl eq_refl)
                   (seq_ok_fin_before (set_in_segs tB2 []) a Hua eq_refl eq_refl))|].
        rewrite (ps_fin_again (set_in_segs tB2 []) finAh eq_refl eq_refl Hua eq_refl).
        reflexivity.
      - reflexivity. }
    set (tB3 := set_oneshot _ _) in G2.
    rewrite (fair_half_flush c s1 SA tA1 tB1 ([finA] ++ [finA]) (Live tB3)); [|reflexivity..|cbn; lia|].
    2: { unfold s1. cbn [net_of netA netB app]. rewrite (feed_cons _ _ _ _ G1), (feed_cons _ _ _ _ G2). reflexivity. }
    clear G1 G2. subst tA1 tB3 tB2 tB1 s1. sys_simpl. cbn [fed_end]. tcb_norm.
    match goal with |- context [mkSys (ELive ?x) (ELive ?y)] => set (tA5 := x); set (tB4 := y) end.
    set (s2 := mkSys _ _ _ _ _ _ _ _ _).
    (* round 1, B's half: two ACKs overtake B's FIN and wait in A's heap; then the FIN *)
    set (ackBh := mkHdr lpB rpB (wadd b 1) (wadd a 1) ackctl 65535 0). set (ackB := mkSeg ackBh []).
    assert (HackB : ack_only ackBh) by (unfold ack_only; auto).
    assert (Hgt : mod_gt (wadd b 1) b = true) by (unfold mod_gt; apply mod_lt_succ_r).
    assert (M1 : segment_arrives tA5 ackB = Ok (set_in_segs tA5 [ackB], AOk)).
    { apply (arrives_park tA5 ackB [ackB] ackB); try reflexivity. exact Hgt. }
    set (tA6 := set_in_segs tA5 [ackB]) in M1.
    assert (M2 : segment_arrives tA6 ackB = Ok (set_in_segs tA6 [ackB; ackB], AOk)).
    { apply (arrives_park tA6 ackB [ackB; ackB] ackB); try reflexivity.
      - apply heap_push_same_seq. reflexivity.
      - exact Hgt. }
    set (tA7 := set_in_segs tA6 [ackB; ackB]) in M2.
    (* the FIN goes to the top of the heap; FIN, ACK, ACK are processed in one call *)
    set (T0 := set_in_segs tA7 [ackB; ackB]).
    set (t1 := set_st (set_oneshot (set_rcv_nxt T0 (wadd b 1)) [ack_hdr (set_rcv_nxt T0 (wadd b 1))]) Closing).
    assert (P1 : process_segment T0 finB = Ok (t1, PSuccess)).
    { etransitivity; [exact (process_fin_unacked T0 finBh (or_introl eq_refl) eq_refl eq_refl eq_refl
                               (mod_leq_refl a) (HfaA T0 eq_refl eq_refl eq_refl)
                               (seq_ok_fin_at_nxt T0 b Hub eq_refl eq_refl))|].
      rewrite (ps_fin_first T0 finBh eq_refl eq_refl Hub eq_refl).
      cbv zeta. cbn [T0 set_in_segs st tA7 tA6 tA5].
      rewrite HfaA by reflexivity. reflexivity. }
    destruct (process_ack_closing (set_in_segs t1 [ackB]) ackBh (mkTx finA false)
                eq_refl eq_refl eq_refl (wadd_u32 b 1) HackB eq_refl Hua eq_refl eq_refl eq_refl eq_refl eq_refl)
      as (w & wl1 & wl2 & P2 & Hwv).
    assert (Hw : w = 65535) by (destruct Hwv as [-> | ->]; reflexivity). subst w. clear Hwv.
    fold ackB in P2. set (t2 := set_time_wait _ (Some MSL2)) in P2.
    assert (P3 : process_segment (set_in_segs t2 []) ackB = Ok (set_in_segs t2 [], PSuccess)).
    { apply process_ack_timewait; try reflexivity; try assumption. apply wadd_u32. }
    assert (M3 : segment_arrives tA7 finB = Ok (set_in_segs t2 [], AOk)).
    { unfold segment_arrives. change (in_segs tA7) with [ackB; ackB].
      rewrite (heap_push_smaller ackB ackB finB (seg_le_before finB ackB b Hub eq_refl eq_refl)).
      cbn [length].
      apply (arrives_loop_three 0 (set_in_segs tA7 [finB; ackB; ackB]) finB ackB ackB
               t1 PSuccess t2 PSuccess (set_in_segs t2 []) PSuccess); try reflexivity.
      - apply seg_le_same. reflexivity.
      - apply mod_gt_refl_false.
      - exact P1.
      - apply mod_gt_refl_false.
      - exact P2.
      - apply mod_gt_refl_false.
      - exact P3. }
    set (tA8 := set_in_segs t2 []) in M3.
    pose proof (fin_in_timewait tA8 finBh eq_refl eq_refl eq_refl HfinB Hub eq_refl) as M4.
    cbv zeta in M4. fold finB in M4. set (tA9 := set_time_wait _ _) in M4.
    rewrite (fair_half_flush c s2 SB tB4 tA5 ([ackB; ackB; finB] ++ [finB]) (Live tA9)); [|reflexivity..|cbn; lia|].
    2: { unfold s2. cbn [net_of netA netB app]. rewrite (feed_cons _ _ _ _ M1), (feed_cons _ _ _ _ M2), (feed_cons _ _ _ _ M3), (feed_cons _ _ _ _ M4). reflexivity. }
    clear M1 M2 M3 M4 P1 P2 P3 HfaA HfaB HfinA HfinB HackB Hgt.
    subst tA9 tA8 t2 t1 T0 tA7 tA6 tA5 tB4 s2 ackB ackBh finA finAh finB finBh finctl ackctl. sys_simpl. cbn [fed_end]. tcb_norm.
    match goal with |- context [mkSys (ELive ?x) (ELive ?y)] => set (tA10 := x); set (tB8 := y) end.
    set (s3 := mkSys _ _ _ _ _ _ _ _ _).
    (* round 2, A's half: A's three ACKs; B: CLOSING -> TIME-WAIT *)
    set (ackctl := mkCtl false true false false false false).
    set (kh := mkHdr lpA rpA (wadd a 1) (wadd b 1) ackctl 65535 0). set (k := mkSeg kh []).
    assert (Hk : ack_only kh) by (unfold ack_only; auto).
    destruct (process_ack_closing (set_in_segs tB8 []) kh
                (mkTx (mkSeg (mkHdr lpB rpB b a (mkCtl false true false false false true) 65535 0) []) false)
                eq_refl eq_refl eq_refl (wadd_u32 a 1) Hk eq_refl Hub eq_refl eq_refl eq_refl eq_refl eq_refl)
      as (w & wl1' & wl2' & P1 & Hwv).
    assert (Hw : w = 65535) by (destruct Hwv as [-> | ->]; reflexivity). subst w. clear Hwv.
    fold k in P1. set (tB9 := set_time_wait _ (Some MSL2)) in P1.
    assert (Q1 : segment_arrives tB8 k = Ok (tB9, AOk)).
    { eapply arrives_single; try reflexivity.
      - apply mod_gt_refl_false.
      - exact P1.
      - reflexivity. }
    assert (Q2 : segment_arrives tB9 k = Ok (set_in_segs tB9 [], AOk)).
    { apply ack_in_timewait; try reflexivity; try assumption. apply wadd_u32. }
    set (tB10 := set_in_segs tB9 []) in Q2.
    assert (Q3 : segment_arrives tB10 k = Ok (set_in_segs tB10 [], AOk)).
    { apply ack_in_timewait; try reflexivity; try assumption. apply wadd_u32. }
    set (tB11 := set_in_segs tB10 []) in Q3.
    rewrite (fair_half_flush c s3 SA tA10 tB8 ([k; k; k] ++ []) (Live tB11)); [|reflexivity..|cbn; lia|].
    2: { unfold s3. cbn [net_of netA netB app]. rewrite (feed_cons _ _ _ _ Q1), (feed_cons _ _ _ _ Q2), (feed_cons _ _ _ _ Q3). reflexivity. }
    clear P1 Q1 Q2 Q3 Hk.
    subst tA10 tB11 tB10 tB9 tB8 s3 k kh ackctl. sys_simpl. cbn [fed_end]. tcb_norm.
    match goal with |- context [mkSys (ELive ?x) (ELive ?y)] => set (tA14 := x); set (tB12 := y) end.
    set (s4 := mkSys _ _ _ _ _ _ _ _ _).
    (* round 2, B's half: nothing to send in TIME-WAIT *)
    rewrite (fair_half_flush c s4 SB tB12 tA14 ([] ++ []) (Live tA14)); [|reflexivity..|cbn; lia|reflexivity].
    subst tB12 tA14 s4. sys_simpl. cbn [fed_end]. tcb_norm.
    match goal with |- context [mkSys (ELive ?x) (ELive ?y)] => set (tA15 := x); set (tB16 := y) end.
    set (s5 := mkSys _ _ _ _ _ _ _ _ _).
    (* A's 2*MSL timer *)
    rewrite (tick_expire c s5 SA tA15 (MSL2 - 101) 2001) by (try reflexivity; cbn; unfold MSL2; lia).
    subst s5. sys_simpl.
    set (s6 := mkSys _ _ _ _ _ _ _ _ _).
    (* B's 2*MSL timer *)
    rewrite (tick_expire c s6 SB tB16 (MSL2 - 101) 2001) by (try reflexivity; cbn; unfold MSL2; lia).
    subst s6. sys_simpl. reflexivity.
  Qed.
End Close2.

Definition close_both_trace : list label := [LClose SA; LClose SB; LFair 2; LTick SA 2001; LTick SB 2001].
