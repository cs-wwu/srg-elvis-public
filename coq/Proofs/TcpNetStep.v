(* One walk through the labels of the closed system (Model/TcpNet.v: sys_step, tick,
   deliver_all, the fair rounds): a property of the system state that the primitive operations
   keep is kept by every label.  The safety invariant (TcbSafetyStep.v), the no-crash
   invariant under forged segments (TcbC17.v) and the growth of the submitted streams
   (TcbSafety.v) are instances. *)
From Elvis Require Import Model.Base Model.Tcb Model.TcpNet.
Local Open Scope Z_scope.

Lemma remove_nth_incl {A} (l : list A) n : incl (remove_nth l n) l.
Proof.
  revert n. induction l as [|a l IH]; intros n x H; cbn [remove_nth] in H; [destruct H|].
  destruct n; [right; exact H|]. destruct H as [<-|H]; [left; reflexivity|right; eapply IH, H].
Qed.

Section StepRule.
  Variables (c : config) (I : sys -> Prop).
  (* which writes, tick lengths and forged segments the property tolerates *)
  Variables (oksend : sys -> side -> list Z -> Prop) (okms : Z -> Prop) (okinj : segment -> Prop).

  Definition label_ok (s : sys) (l : label) : Prop :=
    match l with
    | LSend x b => oksend s x b
    | LTick _ ms | LFairT _ ms _ => okms ms
    | LInject _ seg => okinj seg
    | _ => True
    end.

  Hypothesis ok101 : okms 101.
  Hypothesis I_open : forall s x, I s -> end_of s x = EClosed ->
    I (set_end s x (ELive (tcb_open (port_of c x) (port_of c (other x)) (iss_of c x) (mtu_of c x)))).
  Hypothesis I_send : forall s x t b, I s -> end_of s x = ELive t -> oksend s x b ->
    I (set_end (if accepts_send (st t) then set_sub s x (sub_of s x ++ b) else s) x (ELive (tcb_send t b))).
  Hypothesis I_recv : forall s x, I s -> I (fst (recv s x)).
  Hypothesis I_close : forall s x t, I s -> end_of s x = ELive t -> I (set_end s x (ELive (fst (tcb_close t)))).
  Hypothesis I_emit : forall s x, I s -> I (fst (fst (emit s x))).
  Hypothesis I_adv : forall s x t ms, I s -> end_of s x = ELive t -> okms ms ->
    I (match advance_time t ms with
       | (t1, TIgnore) => set_end s x (ELive t1)
       | (t1, TCloseConnection) => set_end (final_read s x t1) x EDead
       end).
  (* the network drops, duplicates and reorders *)
  Hypothesis I_net : forall s x l, I s -> incl l (net_of s x) -> I (set_net s x l).
  Hypothesis I_deliver : forall s x seg l, I s -> In seg (net_of s x) -> incl l (net_of s x) ->
    I (fst (arrive c (set_net s x l) (other x) seg)).
  Hypothesis I_inject : forall s x seg, I s -> okinj seg -> I (fst (arrive c s (other x) seg)).

  Lemma tick_rule s x ms : I s -> okms ms -> I (fst (tick s x ms)).
  Proof.
    intros HI Hms. unfold tick. pose proof (I_emit s x HI) as H1.
    destruct (emit s x) as [[s1 segs] bad]. cbn [fst] in H1.
    destruct bad; [exact H1|].
    destruct (end_of s1 x) as [| |t|] eqn:El; try exact H1.
    pose proof (I_adv s1 x t ms H1 El Hms) as H.
    destruct (advance_time t ms) as [t1 []]; exact H.
  Qed.

  Lemma deliver_all_rule fuel : forall s x, I s -> I (deliver_all fuel c s x).
  Proof.
    induction fuel as [|f IH]; intros s x HI; cbn [deliver_all]; [exact HI|].
    destruct (net_of s x) as [|seg rest] eqn:En; [exact HI|].
    apply IH. apply I_deliver; [exact HI|rewrite En; left; reflexivity|rewrite En; apply incl_tl, incl_refl].
  Qed.

  Lemma fair_half_t_rule s x ms one : I s -> okms ms -> I (fair_half_t c s x ms one).
  Proof.
    intros HI Hms. unfold fair_half_t.
    pose proof (I_emit _ x (tick_rule s x ms HI Hms)) as H2.
    destruct (emit (fst (tick s x ms)) x) as [[s2 segs] bad]. cbn [fst] in H2.
    apply I_recv, I_recv, deliver_all_rule, H2.
  Qed.

  Lemma fair_rounds_t_rule ms one k : okms ms -> forall s, I s -> I (fair_rounds_t k c s ms one).
  Proof.
    intros Hms. induction k as [|k IH]; intros s HI; cbn [fair_rounds_t]; [exact HI|].
    apply IH. apply fair_half_t_rule; [|exact Hms]. apply fair_half_t_rule; assumption.
  Qed.

  Lemma fair_rounds_rule k : forall s, I s -> I (fair_rounds k c s).
  Proof.
    induction k as [|k IH]; intros s HI; cbn [fair_rounds]; [exact HI|].
    apply IH. unfold fair_half. apply fair_half_t_rule; [|exact ok101]. apply fair_half_t_rule; assumption.
  Qed.

  Theorem sys_step_rule s l : I s -> label_ok s l -> I (fst (sys_step c s l)).
  Proof.
    intros HI Hl. unfold sys_step. destruct (panicked s); [exact HI|].
    destruct l as [x|x bytes|x|x|x ms|x|x i|x i|x i|x seg|k|k ms one|]; cbn [label_ok] in Hl.
    - destruct (end_of s x) eqn:El; try exact HI. apply I_open; assumption.
    - destruct (end_of s x) as [| |t|] eqn:El; try exact HI. apply I_send; assumption.
    - apply I_recv, HI.
    - destruct (end_of s x) as [| |t|] eqn:El; try exact HI.
      pose proof (I_close s x t HI El) as H. destruct (tcb_close t) as [t1 r]. exact H.
    - apply tick_rule; assumption.
    - destruct (end_of s x) as [| |t|]; try exact HI.
      pose proof (I_emit s x HI) as H. destruct (emit s x) as [[s1 segs] bad]. destruct bad; exact H.
    - destruct (net_of s x) as [|a n] eqn:En; [exact HI|].
      destruct (nth_error (a :: n) _) as [seg|] eqn:Enth; [|exact HI].
      apply I_deliver; [exact HI| |]; rewrite En; [eapply nth_error_In; eassumption|apply remove_nth_incl].
    - destruct (net_of s x) as [|a n] eqn:En; [exact HI|].
      apply I_net; [exact HI|]. rewrite En. apply remove_nth_incl.
    - destruct (net_of s x) as [|a n] eqn:En; [exact HI|].
      destruct (nth_error (a :: n) _) as [seg|] eqn:Enth; [|exact HI].
      apply I_net; [exact HI|]. rewrite En. apply incl_app; [apply incl_refl|].
      intros y [<-|[]]. eapply nth_error_In; eassumption.
    - apply I_inject; assumption.
    - apply fair_rounds_rule, HI.
    - apply fair_rounds_t_rule; assumption.
    - exact HI.
  Qed.
End StepRule.
