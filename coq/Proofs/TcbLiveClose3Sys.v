(* C03 (d): B closes first.  From a quiescent state: B closes, one loss-free round, A closes, two
   loss-free rounds, and B's 2*MSL timer: both endpoints are released.  For every quiescent state.
   (Not the mirror image of close_sequential: in every round A's half still runs first.) *)
From Elvis Require Import Model.Base Model.U32 Model.Tcb Model.TcpNet Proofs.U32Facts Proofs.TcbSafetySnd
  Proofs.TcbLive Proofs.TcbLiveSys Proofs.TcbLiveThm Proofs.TcbLiveHsSys Proofs.TcbLiveClose
  Proofs.TcbLiveCloseSys.
Local Open Scope Z_scope.

Section CloseB.
  Variable c : config.

  Theorem close_sequential_B s a b : Quiescent c s a b ->
    run c s [LClose SB; LFair 1; LClose SA; LFair 2; LTick SB 2001] =
    mkSys EDead EDead [] [] (subA s) (subB s) (delA s) (delB s) false.
  Proof.
    intros HQ. pattern s. apply (quiescent_literal_ind c _ a b); [|exact HQ]. clear s HQ.
    intros lpA rpA mA liA w1A w2A issA irsA lpB rpB mB liB w1B w2B issB irsB sA sB dA dB Hua Hub HmA HmB.
    cbn [subA subB delA delB].
    cbn [run fold_left].
    (* B closes *)
    match goal with |- context [sys_step c ?s0 (LClose SB)] => set (s1 := fst (sys_step c s0 (LClose SB))) end.
    close_norm_in s1.
    match goal with s1 := mkSys (ELive ?x) (ELive ?y) _ _ _ _ _ _ _ |- _ => set (tA0 := x) in s1; set (tB1 := y) in s1 end.
    rewrite (fairk c s1 1 eq_refl). cbn [fair_rounds].
    (* round 1, A's half: nothing to do *)
    assert (QA0 : quiet tA0 a b) by (unfold quiet; cbn; splits; auto; lia).
    rewrite (half_idle c s1 SA tA0 tB1 a b eq_refl QA0 eq_refl eq_refl eq_refl). clear QA0.
    (* round 1, B's half: the FIN and its copy; A reaches CLOSE-WAIT *)
    set (finBh := mkHdr lpB rpB b a (mkCtl false true false false false true) 65535 0).
    set (finB := mkSeg finBh []).
    assert (HfinB : fin_ack finBh) by (unfold fin_ack; auto).
    pose proof (fin_arrives tA0 finBh eq_refl eq_refl eq_refl Hub HfinB eq_refl (mod_leq_refl a)) as G1.
    fold finB in G1.
    rewrite (ps_fin_first (set_in_segs tA0 []) finBh eq_refl eq_refl Hub eq_refl) in G1.
    cbv zeta in G1. cbn [set_in_segs st] in G1. set (tA1 := set_st _ CloseWait) in G1.
    pose proof (fin_again_arrives tA1 finBh eq_refl eq_refl eq_refl HfinB Hub eq_refl (mod_leq_refl a)) as G2.
    fold finB in G2.
    rewrite (ps_fin_again (set_in_segs tA1 []) finBh eq_refl eq_refl Hub eq_refl) in G2.
    cbv zeta in G2. cbn [set_in_segs st tA1 set_st] in G2. set (tA2 := set_oneshot _ _) in G2.
    rewrite (fair_half_flush c s1 SB tB1 tA0 ([finB] ++ [finB]) (Live tA2)); [|reflexivity..|cbn; lia|].
    2: { unfold s1. cbn [net_of netA netB app]. rewrite (feed_cons _ _ _ _ G1), (feed_cons _ _ _ _ G2). reflexivity. }
    clear G1 G2 HfinB. subst tB1 tA2 tA1 tA0 s1 finB finBh. sys_simpl. cbn [fed_end]. tcb_norm.
    (* A closes: CLOSE-WAIT -> LAST-ACK *)
    match goal with |- context [sys_step c ?s0 (LClose SA)] => set (s3 := fst (sys_step c s0 (LClose SA))) end.
    close_norm_in s3.
    match goal with s3 := mkSys (ELive ?x) (ELive ?y) _ _ _ _ _ _ _ |- _ => set (tA4 := x) in s3; set (tB5 := y) in s3 end.
    rewrite (fairk c s3 2 eq_refl). cbn [fair_rounds].
    (* round 2, A's half: the two ACKs of B's FIN, then A's FIN and its copy;
       B goes FIN-WAIT-1 -> FIN-WAIT-2 -> TIME-WAIT *)
    set (ackAh := mkHdr lpA rpA a (wadd b 1) (mkCtl false true false false false false) 65535 0).
    set (ackA := mkSeg ackAh []).
    set (finAh := mkHdr lpA rpA a (wadd b 1) (mkCtl false true false false false true) 65535 0).
    set (finA := mkSeg finAh []).
    assert (HackA : ack_only ackAh) by (unfold ack_only; auto).
    assert (HfinA : fin_ack finAh) by (unfold fin_ack; auto).
    destruct (ack_of_fin_finwait1 tB5 ackAh (mkTx (mkSeg (mkHdr lpB rpB b a (mkCtl false true false false false true) 65535 0) []) false)
                eq_refl eq_refl eq_refl eq_refl Hua HackA eq_refl Hub eq_refl eq_refl eq_refl eq_refl eq_refl)
      as (w & wl1 & wl2 & G1 & Hwv).
    assert (Hw : w = 65535) by (destruct Hwv as [-> | ->]; reflexivity). subst w. clear Hwv.
    fold ackA in G1. set (tB6 := set_st _ FinWait2) in G1.
    assert (G2 : segment_arrives tB6 ackA = Ok (set_in_segs tB6 [], AOk)).
    { apply ack_noop_arrives; try reflexivity; try assumption. apply mod_leq_refl. }
    set (tB7 := set_in_segs tB6 []) in G2.
    pose proof (fin_arrives tB7 finAh eq_refl eq_refl eq_refl Hua HfinA eq_refl (mod_leq_refl (wadd b 1))) as M1.
    fold finA in M1.
    rewrite (ps_fin_first (set_in_segs tB7 []) finAh eq_refl eq_refl Hua eq_refl) in M1.
    cbv zeta in M1. change (st (set_in_segs tB7 [])) with FinWait2 in M1. cbv iota in M1.
    set (tB8 := set_rto _ RTO) in M1.
    pose proof (fin_in_timewait tB8 finAh eq_refl eq_refl eq_refl HfinA Hua eq_refl) as M2.
    cbv zeta in M2. fold finA in M2. set (tB9 := set_time_wait _ _) in M2.
    rewrite (fair_half_flush c s3 SA tA4 tB5 ([ackA; ackA; finA] ++ [finA]) (Live tB9)); [|reflexivity..|cbn; lia|].
    2: { unfold s3. cbn [net_of netA netB app]. rewrite (feed_cons _ _ _ _ G1), (feed_cons _ _ _ _ G2), (feed_cons _ _ _ _ M1), (feed_cons _ _ _ _ M2). reflexivity. }
    clear G1 G2 M1 M2 HfinA HackA.
    subst tB9 tB8 tB7 tB6 tB5 tA4 s3 finA finAh ackA ackAh. sys_simpl. cbn [fed_end]. tcb_norm.
    match goal with |- context [mkSys (ELive ?x) (ELive ?y)] => set (tA8 := x); set (tB10 := y) end.
    set (s5 := mkSys _ _ _ _ _ _ _ _ _).
    (* round 2, B's half: the ACKs of A's FIN; A's TCB is deleted *)
    set (kh := mkHdr lpB rpB (wadd b 1) (wadd a 1) (mkCtl false true false false false false) 65535 0).
    set (k := mkSeg kh []).
    assert (Hk : ack_only kh) by (unfold ack_only; auto).
    destruct (ack_of_fin_lastack tA8 kh
                (mkTx (mkSeg (mkHdr lpA rpA a (wadd b 1) (mkCtl false true false false false true) 65535 0) []) false)
                eq_refl eq_refl eq_refl eq_refl (wadd_u32 b 1) Hk eq_refl Hua eq_refl eq_refl eq_refl eq_refl eq_refl)
      as (tA9 & P1 & P2).
    fold k in P1. change (in_text tA8) with (@nil Z) in P2.
    rewrite (fair_half_flush c s5 SB tB10 tA8 ([k; k; k] ++ []) (Closed tA9)); [|reflexivity..|exact P2|cbn; lia|].
    2: { unfold s5. cbn [net_of netA netB app]. rewrite (feed_close _ _ _ _ P1). reflexivity. }
    clear P1 P2. subst tB10 s5. sys_simpl. cbn [fed_end]. clear tA8 tA9. tcb_norm.
    match goal with |- context [mkSys EDead (ELive ?y)] => set (tB14 := y) end.
    set (s6 := mkSys _ _ _ _ _ _ _ _ _).
    (* round 3, A's half: nothing (A is released) *)
    rewrite (half_dead c s6 SA tB14 eq_refl eq_refl eq_refl eq_refl).
    (* round 3, B's half: B waits in TIME-WAIT *)
    set (tB17 := flushed tB14).
    assert (H6 : fair_half c s6 SB =
      mkSys EDead (ELive (set_in_text tB17 [])) [] [] sA sB dA dB false).
    { rewrite (fair_half_peer_dead c s6 SB tB14 tB17 [] eq_refl eq_refl);
        [unfold s6; sys_simpl; change (in_text tB17) with (@nil Z); cbn [chunk]; now rewrite app_nil_r|].
      rewrite (flush2_idle tB14); [reflexivity|reflexivity|reflexivity|cbn; lia|reflexivity|].
      intros tw E; injection E as <-; unfold MSL2; lia. }
    rewrite H6. clear H6. subst tB17 tB14 s6. tcb_norm.
    match goal with |- context [mkSys EDead (ELive ?y)] => set (tB18 := y) end.
    set (s7 := mkSys _ _ _ _ _ _ _ _ _).
    (* B's 2*MSL timer *)
    rewrite (tick_expire c s7 SB tB18 (MSL2 - 101 - 101) 2001) by (try reflexivity; cbn; unfold MSL2; lia).
    subst s7. sys_simpl. reflexivity.
  Qed.
End CloseB.

Definition close_trace_B : list label := [LClose SB; LFair 1; LClose SA; LFair 2; LTick SB 2001].
