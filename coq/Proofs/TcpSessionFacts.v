(* One session task (Model/TcpSession.v: sess_step, sess_exec, sess_validate): soundness of
   the trace validator and the small facts about the loop. *)
From Elvis Require Import Model.Base Model.Tcb Model.TcpSession.
Local Open Scope Z_scope.

Lemma bytes_eqb_eq a : forall b, bytes_eqb a b = true -> a = b.
Proof.
  induction a as [|x a IH]; intros [|y b] H; cbn [bytes_eqb] in H; try discriminate; [reflexivity|].
  apply andb_prop in H. destruct H as [H1 H2]. apply Z.eqb_eq in H1. subst y. f_equal. apply IH, H2.
Qed.

Lemma ctl_eqb_eq a b : ctl_eqb a b = true -> a = b.
Proof.
  destruct a as [a1 a2 a3 a4 a5 a6], b as [b1 b2 b3 b4 b5 b6]. unfold ctl_eqb. cbn [c_urg c_ack c_psh c_rst c_syn c_fin]. intros H.
  repeat (apply andb_prop in H; destruct H as [H ?]).
  repeat match goal with E : Bool.eqb _ _ = true |- _ => apply eqb_prop in E end.
  congruence.
Qed.

Lemma hdr_eqb_eq a b : hdr_eqb a b = true -> a = b.
Proof.
  destruct a as [a1 a2 a3 a4 a5 a6 a7], b as [b1 b2 b3 b4 b5 b6 b7]. unfold hdr_eqb. cbn [h_sport h_dport h_seq h_ack h_ctl h_wnd h_urg]. intros H.
  repeat (apply andb_prop in H; destruct H as [H ?]).
  repeat match goal with E : (_ =? _) = true |- _ => apply Z.eqb_eq in E end.
  match goal with E : ctl_eqb _ _ = true |- _ => apply ctl_eqb_eq in E end.
  congruence.
Qed.

Lemma seg_eqb_eq a b : seg_eqb a b = true -> a = b.
Proof.
  destruct a as [a1 a2], b as [b1 b2]. unfold seg_eqb. cbn [s_hdr s_text]. intros H.
  apply andb_prop in H. destruct H as [H1 H2]. apply hdr_eqb_eq in H1. apply bytes_eqb_eq in H2. congruence.
Qed.

Definition ev_agrees (e : oevent) (o : sout) : Prop :=
  match e, o with
  | EvConnected, OConnected => True
  | EvIncoming s, OCall (CArrives s') => s = s'
  | EvOutgoing b, OCall (CSend b') => b = b'
  | EvAdvance ns, OCall (CAdvance ms) => ns = ms * 1000000
  | EvEmitted s, OEmitted s' => s = s'
  | EvFlushed b, OFlushed b' => b = b'
  | EvEnded sn, OEnded t => snap_matches sn t = true
  | _, _ => False
  end.

(* the observed events are, one by one, the first visible outputs of the model *)
Inductive obs_prefix : list oevent -> list sout -> Prop :=
| op_nil os : obs_prefix [] os
| op_cons e o tr os : ev_agrees e o -> obs_prefix tr os -> obs_prefix (e :: tr) (o :: os).

Lemma ev_matches_agrees e o : ev_matches e o = true -> ev_agrees e o.
Proof.
  destruct e, o; cbn [ev_matches ev_agrees]; try discriminate; try (intros; exact I);
    try destruct c; try discriminate; intros H.
  - apply seg_eqb_eq, H.
  - apply bytes_eqb_eq, H.
  - apply Z.eqb_eq in H. exact H.
  - apply seg_eqb_eq, H.
  - apply bytes_eqb_eq, H.
  - exact H.
Qed.

Lemma first_mismatch_none tr : forall k os, first_mismatch k tr os = None -> obs_prefix tr os.
Proof.
  induction tr as [|e tr IH]; intros k os H; [constructor|].
  destruct os as [|o os]; cbn [first_mismatch] in H; [discriminate|].
  destruct (ev_matches e o) eqn:E; [|discriminate].
  constructor; [apply ev_matches_agrees, E|eapply IH, H].
Qed.

Lemma init_tcb_spec i t : init_tcb i = Some t ->
  snap_matches (ii_snap i) t = true /\
  (if sn_listen (ii_snap i)
   then arrives_listen (syn_of_snapshot i) (sn_iss (ii_snap i)) (ii_mtu i) = LTcb t
   else t = tcb_open (ii_lport i) (ii_rport i) (sn_iss (ii_snap i)) (ii_mtu i)).
Proof.
  unfold init_tcb, init_candidate. destruct (sn_listen (ii_snap i)).
  - destruct (arrives_listen _ _ _) as [|h|t0]; try discriminate.
    destruct (snap_matches (ii_snap i) t0) eqn:E; [|discriminate]. intros [= <-]. auto.
  - set (t0 := tcb_open _ _ _ _). destruct (snap_matches (ii_snap i) t0) eqn:E; [|discriminate]. intros [= <-]. auto.
Qed.

Theorem validate_sound i tr : sess_validate i tr = Accept ->
  exists t0 evs s' outs,
    init_tcb i = Some t0 /\
    sess_exec (fst (sess_start t0)) evs = Some (s', outs) /\
    obs_prefix tr (filter visible (snd (sess_start t0) ++ outs)).
Proof.
  unfold sess_validate. destruct (init_tcb i) as [t0|] eqn:Ei; [|discriminate].
  destruct (sess_start t0) as [s0 o0] eqn:Es.
  destruct (sess_exec s0 (inputs_of RTop tr)) as [[s' outs]|] eqn:Ex; [|discriminate].
  destruct (first_mismatch 0 tr (filter visible (o0 ++ outs))) eqn:Em; [discriminate|].
  intros _. exists t0, (inputs_of RTop tr), s', outs. rewrite Es. cbn [fst snd].
  split; [reflexivity|]. split; [exact Ex|]. eapply first_mismatch_none, Em.
Qed.

Lemma sess_top_outs t c : forall o, In o (snd (sess_top t c)) -> o = OCall CStatus \/ o = OConnected.
Proof.
  unfold sess_top. destruct c; [intros o []|].
  destruct (state_eqb (st t) Established); cbn [snd]; intros o Hin;
    repeat (destruct Hin as [<-|Hin]; auto); destruct Hin.
Qed.

(* the phase after an instruction was handled with InstructionResult::Ok: l.75 in the drain
   loop, l.112 after the timed receive; instructions are taken nowhere else *)
Definition next_after (ph : sphase) : option sphase :=
  match ph with PDrain _ => Some (PDrain false) | PWait => Some PReady | _ => None end.

(* sess_step, case by case *)
Inductive sstep (s : sess) : sevent -> sess -> list sout -> Prop :=
| ss_in_ok seg t1 nx : next_after (ss_phase s) = Some nx -> segment_arrives (ss_tcb s) seg = Ok (t1, AOk) ->
    sstep s (SIncoming seg) (mkSess t1 (ss_conn s) nx) [OCall (CArrives seg)]
| ss_in_close seg t1 nx : next_after (ss_phase s) = Some nx -> segment_arrives (ss_tcb s) seg = Ok (t1, AClose) ->
    sstep s (SIncoming seg) (mkSess t1 (ss_conn s) PEnded) [OCall (CArrives seg); OEnded t1]
| ss_in_crash seg p nx : next_after (ss_phase s) = Some nx ->
    sstep s (SIncoming seg) (mkSess (ss_tcb s) (ss_conn s) PCrashed) [OCall (CArrives seg); OPanicked p]
| ss_out b nx : next_after (ss_phase s) = Some nx ->
    sstep s (SOutgoing b) (mkSess (tcb_send (ss_tcb s) b) (ss_conn s) nx) [OCall (CSend b)]
| ss_empty nt : ss_phase s = PDrain nt ->
    sstep s SEmpty (mkSess (ss_tcb s) (ss_conn s) (if nt then PWait else PReady)) []
| ss_adv_ok t1 : ss_phase s = PWait -> advance_time (ss_tcb s) TIMEOUT_MS = (t1, TIgnore) ->
    sstep s SAdvance (mkSess t1 (ss_conn s) PReady) [OCall (CAdvance TIMEOUT_MS)]
| ss_adv_close t1 : ss_phase s = PWait -> advance_time (ss_tcb s) TIMEOUT_MS = (t1, TCloseConnection) ->
    sstep s SAdvance (mkSess t1 (ss_conn s) PEnded) [OCall (CAdvance TIMEOUT_MS); OEnded t1]
| ss_emit_ok t1 segs : ss_phase s = PReady -> tcb_segments (ss_tcb s) = Ok (t1, segs) ->
    sstep s SEmit (mkSess t1 (ss_conn s) PEmitted) (OCall CSegments :: map OEmitted segs)
| ss_emit_crash p : ss_phase s = PReady ->
    sstep s SEmit (mkSess (ss_tcb s) (ss_conn s) PCrashed) [OCall CSegments; OPanicked p]
| ss_flush c o : ss_phase s = PEmitted -> sess_top (set_in_text (ss_tcb s) []) (ss_conn s) = (c, o) ->
    sstep s SFlush (mkSess (set_in_text (ss_tcb s) []) c (PDrain true)) (OCall CReceive :: OFlushed (in_text (ss_tcb s)) :: o).

Lemma sess_step_inv s e s' o : sess_step s e = Some (s', o) -> sstep s e s' o.
Proof.
  unfold sess_step, sess_handle, tcb_receive. cbv zeta.
  destruct (ss_phase s) as [nt| | | | |] eqn:Hp, e as [seg|b| | | |]; try discriminate.
  - destruct (segment_arrives (ss_tcb s) seg) as [[t1 []]|x|p|] eqn:Ea; intros [= <- <-];
      econstructor; try eassumption; rewrite Hp; reflexivity.
  - intros [= <- <-]. constructor. rewrite Hp. reflexivity.
  - intros [= <- <-]. constructor. exact Hp.
  - destruct (segment_arrives (ss_tcb s) seg) as [[t1 []]|x|p|] eqn:Ea; intros [= <- <-];
      econstructor; try eassumption; rewrite Hp; reflexivity.
  - intros [= <- <-]. constructor. rewrite Hp. reflexivity.
  - destruct (advance_time (ss_tcb s) TIMEOUT_MS) as [t1 []] eqn:Ea; intros [= <- <-]; constructor; assumption.
  - destruct (tcb_segments (ss_tcb s)) as [[t1 segs]|x|p|] eqn:Es; intros [= <- <-]; constructor; assumption.
  - destruct (sess_top _ _) as [c o1] eqn:Et. intros [= <- <-]. constructor; assumption.
Qed.

Lemma sess_step_ended s e : ss_phase s = PEnded \/ ss_phase s = PCrashed -> sess_step s e = None.
Proof. unfold sess_step. intros [-> | ->]; reflexivity. Qed.

Lemma sess_exec_ended s evs s' outs :
  ss_phase s = PEnded \/ ss_phase s = PCrashed -> sess_exec s evs = Some (s', outs) ->
  evs = [] /\ outs = [] /\ s' = s.
Proof.
  intros Hp. destruct evs as [|e r]; cbn [sess_exec].
  - intros [= <- <-]. auto.
  - rewrite (sess_step_ended s e Hp). discriminate.
Qed.

Lemma sess_step_end_cause s e s' o t : sess_step s e = Some (s', o) -> In (OEnded t) o ->
  ss_phase s' = PEnded /\ ss_tcb s' = t /\
  ((exists seg, e = SIncoming seg /\ segment_arrives (ss_tcb s) seg = Ok (t, AClose) /\
                o = [OCall (CArrives seg); OEnded t]) \/
   (e = SAdvance /\ advance_time (ss_tcb s) 5 = (t, TCloseConnection) /\
    o = [OCall (CAdvance 5); OEnded t])).
Proof.
  intros H Hin. destruct (sess_step_inv _ _ _ _ H) as [seg t1 nx _ Ea|seg t1 nx _ Ea|seg p nx _|b nx _|nt _
    |t1 _ Ea|t1 _ Ea|t1 segs _ Es|p _|c o1 _ Et]; cbn [In] in Hin.
  - destruct Hin as [[=]|[]].
  - destruct Hin as [[=]|[[= <-]|[]]]. cbn [ss_phase ss_tcb]. eauto 10.
  - destruct Hin as [[=]|[[=]|[]]].
  - destruct Hin as [[=]|[]].
  - destruct Hin.
  - destruct Hin as [[=]|[]].
  - destruct Hin as [[=]|[[= <-]|[]]]. cbn [ss_phase ss_tcb]. auto 10.
  - destruct Hin as [[=]|Hin]. apply in_map_iff in Hin. destruct Hin as (x & [=] & _).
  - destruct Hin as [[=]|[[=]|[]]].
  - destruct Hin as [[=]|[[=]|Hin]].
    pose proof (sess_top_outs _ (ss_conn s) _ ltac:(rewrite Et; exact Hin)) as [[=]|[=]].
Qed.

Theorem exec_ended_last evs : forall s s' outs t,
  sess_exec s evs = Some (s', outs) -> In (OEnded t) outs ->
  exists pre, outs = pre ++ [OEnded t] /\ ss_phase s' = PEnded /\ ss_tcb s' = t.
Proof.
  induction evs as [|e r IH]; intros s s' outs t; cbn [sess_exec].
  - intros [= <- <-] [].
  - destruct (sess_step s e) as [[s1 o1]|] eqn:E1; [|discriminate].
    destruct (sess_exec s1 r) as [[s2 o2]|] eqn:E2; [|discriminate].
    intros [= <- <-] Hin. apply in_app_or in Hin. destruct Hin as [Hin|Hin].
    + destruct (sess_step_end_cause _ _ _ _ _ E1 Hin) as (Hp & Ht & Hc).
      destruct (sess_exec_ended s1 r s2 o2 (or_introl Hp) E2) as (_ & -> & ->).
      rewrite app_nil_r. split with (x := removelast o1). split; [|split; assumption].
      destruct Hc as [(seg & _ & _ & ->)|(_ & _ & ->)]; reflexivity.
    + destruct (IH _ _ _ _ E2 Hin) as (pre & -> & Hp & Ht).
      exists (o1 ++ pre). rewrite app_assoc. auto.
Qed.

Lemma sess_step_advance s e s' o ms : sess_step s e = Some (s', o) -> In (OCall (CAdvance ms)) o -> ms = 5.
Proof.
  intros H Hin. destruct (sess_step_inv _ _ _ _ H) as [seg t1 nx _ Ea|seg t1 nx _ Ea|seg p nx _|b nx _|nt _
    |t1 _ Ea|t1 _ Ea|t1 segs _ Es|p _|c o1 _ Et]; cbn [In] in Hin.
  - destruct Hin as [[=]|[]].
  - destruct Hin as [[=]|[[=]|[]]].
  - destruct Hin as [[=]|[[=]|[]]].
  - destruct Hin as [[=]|[]].
  - destruct Hin.
  - destruct Hin as [[= <-]|[]]. reflexivity.
  - destruct Hin as [[= <-]|[[=]|[]]]. reflexivity.
  - destruct Hin as [[=]|Hin]. apply in_map_iff in Hin. destruct Hin as (x & [=] & _).
  - destruct Hin as [[=]|[[=]|[]]].
  - destruct Hin as [[=]|[[=]|Hin]].
    pose proof (sess_top_outs _ (ss_conn s) _ ltac:(rewrite Et; exact Hin)) as [[=]|[=]].
Qed.

Theorem exec_advance_5ms evs : forall s s' outs ms,
  sess_exec s evs = Some (s', outs) -> In (OCall (CAdvance ms)) outs -> ms = 5.
Proof.
  induction evs as [|e r IH]; intros s s' outs ms; cbn [sess_exec].
  - intros [= <- <-] [].
  - destruct (sess_step s e) as [[s1 o1]|] eqn:E1; [|discriminate].
    destruct (sess_exec s1 r) as [[s2 o2]|] eqn:E2; [|discriminate].
    intros [= <- <-] Hin. apply in_app_or in Hin. destruct Hin as [Hin|Hin].
    + eapply sess_step_advance; eassumption.
    + eapply IH; eassumption.
Qed.

Theorem emit_then_receive s s1 o1 : sess_step s SEmit = Some (s1, o1) ->
  (ss_phase s1 = PEmitted \/ ss_phase s1 = PCrashed) /\
  (ss_phase s1 = PEmitted -> forall e s2 o2, sess_step s1 e = Some (s2, o2) ->
     e = SFlush /\ ss_phase s2 = PDrain true /\
     exists rest, o2 = OCall CReceive :: OFlushed (in_text (ss_tcb s1)) :: rest).
Proof.
  intros H. apply sess_step_inv in H. split.
  - inversion H; subst; cbn [ss_phase]; auto.
  - intros Hp e s2 o2 H2. apply sess_step_inv in H2.
    destruct H2 as [? ? ? Hn|? ? ? Hn|? ? ? Hn|? ? Hn|? Hn|? Hn|? Hn|? ? Hn|? Hn|c o _ _];
      try (rewrite Hp in Hn; discriminate Hn).
    cbn [ss_phase]. eauto.
Qed.

Theorem round_starts_after_receive s e s' o :
  sess_step s e = Some (s', o) -> ss_phase s' = PDrain true ->
  e = SFlush /\ exists b rest, o = OCall CReceive :: OFlushed b :: rest.
Proof.
  intros H. destruct (sess_step_inv _ _ _ _ H) as [? ? nx Hn|? ? ? ?|? ? ? ?|? nx Hn|nt ?|? ? ?|? ? ?|? ? ? ?|? ?|? ? ? ?];
    cbn [ss_phase]; try discriminate; try (intros ->; destruct (ss_phase s); discriminate Hn).
  - destruct nt; discriminate.
  - eauto.
Qed.

Lemma obs_prefix_In tr : forall os e, obs_prefix tr os -> In e tr -> exists o, In o os /\ ev_agrees e o.
Proof.
  induction tr as [|e0 tr IH]; intros os e H Hin; [destruct Hin|].
  inversion H; subst. destruct Hin as [<-|Hin].
  - exists o. split; [left; reflexivity|assumption].
  - destruct (IH _ _ H4 Hin) as (o' & Ho & Ha). exists o'. split; [right; assumption|assumption].
Qed.

Theorem validate_advance_5ms i tr ns :
  sess_validate i tr = Accept -> In (EvAdvance ns) tr -> ns = 5000000.
Proof.
  intros Hv Hin. destruct (validate_sound i tr Hv) as (t0 & evs & s' & outs & Hi & Hx & Hp).
  destruct (obs_prefix_In _ _ _ Hp Hin) as (o & Ho & Ha).
  apply filter_In in Ho. destruct Ho as [Ho _].
  destruct o; try contradiction. destruct c; try contradiction. cbn [ev_agrees] in Ha. subst ns.
  apply in_app_or in Ho. destruct Ho as [Ho|Ho].
  - unfold sess_start in Ho. destruct (sess_top t0 false) as [c o] eqn:Et. cbn [snd] in Ho.
    pose proof (sess_top_outs t0 false _ ltac:(rewrite Et; exact Ho)) as [H|H]; discriminate.
  - rewrite (exec_advance_5ms _ _ _ _ _ Hx Ho). reflexivity.
Qed.
