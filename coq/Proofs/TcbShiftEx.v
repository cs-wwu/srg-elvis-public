(* C12 equivariance, part 6: concrete instances, evaluated independently on
   both sides by vm_compute.
   (1) a wrap-forcing pair of ISNs: A's sequence space wraps between the
       handshake and the data in the original run and does not in the shifted
       one; the hypotheses of the trace theorem hold and the two normal forms
       coincide.
   (2) the witness that a PLAIN shift of SND.WL2 is not preserved
       (simultaneous open, close in SYN-RECEIVED, then the peer's SYN-ACK):
       tcb.rs l.550-551 copies the ack FIELD of an ACK-less SYN into SND.WL2
       and ack_established_processing l.727-728 later compares it. *)
From Elvis Require Import Model.Base Model.U32 Model.Tcb Model.TcpNet
  Proofs.U32Facts Proofs.TcbShift Proofs.TcbShiftInv Proofs.TcbShiftOps Proofs.TcbShiftNet Proofs.TcbShiftObs.
Local Open Scope Z_scope.

Definition exC : config := mkCfg 1000 2000 4294967290 4294967000 1500 1500.
Definition ex_dA : Z := 100.
Definition ex_dB : Z := 500.
Definition exT : list label :=
  [LOpen SA; LEmit SA; LDeliver SA 0; LEmit SB; LDeliver SB 0; LEmit SA; LDeliver SA 0;
   LSend SA [1;2;3;4;5;6;7;8;9;10]; LEmit SA; LDeliver SA 0; LRecv SB; LEmit SB; LDeliver SB 0;
   LSend SB [7;7]; LTick SB 10; LDeliver SB 0; LRecv SA; LClose SA; LFair 3; LClose SB; LFair 3].

Definition live (e : endpoint) : option tcb := match e with ELive t => Some t | _ => None end.

Lemma ex_hyps : u32 (issA exC) /\ u32 (issB exC) /\ forallb closed_label exT = true /\
  run_ok exC (init_sys true) exT.
Proof.
  split; [|split; [|split]].
  - unfold u32, M32. cbn. lia.
  - unfold u32, M32. cbn. lia.
  - reflexivity.
  - apply run_okb_ok. vm_compute. reflexivity.
Qed.

Lemma ex_agree :
  nz_sys (shift_cfg ex_dA ex_dB exC) (run (shift_cfg ex_dA ex_dB exC) (init_sys true) exT) =
  nz_sys exC (run exC (init_sys true) exT) /\
  nz_obs_list (shift_cfg ex_dA ex_dB exC) exT (run_obs (shift_cfg ex_dA ex_dB exC) (init_sys true) exT) =
  nz_obs_list exC exT (run_obs exC (init_sys true) exT).
Proof. split; vm_compute; reflexivity. Qed.

(* the original run wraps (SND.NXT = 5 below SND.UNA = 2^32-5 after ten bytes),
   the shifted one does not; the data arrives all the same *)
Lemma ex_wraps :
  option_map (fun t => (snd_iss t, snd_una t, snd_nxt t)) (live (endA (run exC (init_sys true) (firstn 10 exT)))) =
    Some (4294967290, 4294967291, 5) /\
  option_map (fun t => (snd_iss t, snd_una t, snd_nxt t))
             (live (endA (run (shift_cfg ex_dA ex_dB exC) (init_sys true) (firstn 10 exT)))) =
    Some (94, 95, 105) /\
  delivered (run exC (init_sys true) exT) SB = [1;2;3;4;5;6;7;8;9;10] /\
  delivered (run (shift_cfg ex_dA ex_dB exC) (init_sys true) exT) SB = [1;2;3;4;5;6;7;8;9;10] /\
  delivered (run exC (init_sys true) exT) SA = [7;7] /\
  panicked (run exC (init_sys true) exT) = false.
Proof. repeat split; vm_compute; reflexivity. Qed.

Definition wC : config := mkCfg 1000 2000 5 77 1500 1500.
Definition w_dA : Z := 2999999995.
Definition wT : list label :=
  [LOpen SA; LOpen SB; LEmit SA; LEmit SB; LDeliver SA 0; LDeliver SB 0; LClose SA; LEmit SB; LDeliver SB 0].

Lemma wl2_not_shifted :
  u32 (issA wC) /\ u32 (issB wC) /\ forallb closed_label wT = true /\ run_ok wC (init_sys false) wT /\
  option_map (fun t => (st t, snd_wl1 t, snd_wl2 t, snd_wnd t))
             (live (endA (run wC (init_sys false) wT))) = Some (FinWait1, 77, 6, 65535) /\
  option_map (fun t => (st t, snd_wl1 t, snd_wl2 t, snd_wnd t))
             (live (endA (run (shift_cfg w_dA 0 wC) (init_sys false) wT))) = Some (FinWait1, 77, 0, 65535) /\
  wadd 6 w_dA = 3000000001.
Proof.
  split; [|split; [|split; [|split; [|split; [|split]]]]].
  - unfold u32, M32. cbn. lia.
  - unfold u32, M32. cbn. lia.
  - reflexivity.
  - apply run_okb_ok. vm_compute. reflexivity.
  - vm_compute. reflexivity.
  - vm_compute. reflexivity.
  - vm_compute. reflexivity.
Qed.

(* the plain shift is related to the original, and is THE related state when
   the four ghost fields are valid *)
Lemma trel_shift_tcb dO dP t : trel dO dP t (shift_tcb dO dP t).
Proof.
  unfold shift_tcb. eexists. split; [reflexivity|]. intros _. split; [split|]; reflexivity.
Qed.

(* every well-formed TCB has a related one: the invariant half of the joint statements
   of TcbShiftOps.v needs no second run *)
Lemma trok_self t : tinv t -> trok 0 0 t (shift_tcb 0 0 t).
Proof. split; [apply trel_shift_tcb | assumption]. Qed.
