(* A concrete run of two session tasks: the hypotheses of the C01s safety theorems are satisfiable and data gets through. *)
From Elvis Require Import Model.Base Model.U32 Model.Tcb Model.TcpNet Model.TcpSession
  Proofs.TcbSafetyDefs Proofs.TcpSessionSys.
Local Open Scope Z_scope.

Definition exs_cfg : config := mkCfg 40001 80 4294967290 77 1500 150.

(* one turn of a task: up to three instructions and the empty poll, the timeout if the task
   waits, segments(), receive(); then up to three of its in-flight segments reach the peer *)
Definition exs_turn (x : side) : list ylabel :=
  [YTask x; YTask x; YTask x; YTask x; YTimeout x; YTask x; YTask x; YDeliver x 0; YDeliver x 0; YDeliver x 0].

Fixpoint exs_rounds (k : nat) : list ylabel :=
  match k with O => [] | S k' => exs_turn SA ++ exs_turn SB ++ exs_rounds k' end.

Definition exs_bytes (n : nat) (k : Z) : list Z := map (fun i => (Z.of_nat i * 7 + k) mod 256) (seq 0 n).

Definition exs_trace : list ylabel :=
  YOpen SA :: YWrite SA (exs_bytes 130 1) ::            (* a write before the handshake completes *)
  exs_rounds 3 ++
  YDrop SA 0 :: YDup SB 0 ::                             (* whatever is in flight: one loss, one copy *)
  YWrite SB (exs_bytes 250 9) :: YWrite SA (exs_bytes 5 3) ::
  exs_rounds 30.

Definition exs_final : ysys := yrun exs_cfg (yinit true) exs_trace.

Lemma exs_facts :
  u32 (issA exs_cfg) /\ u32 (issB exs_cfg) /\ 100 <= mtuA exs_cfg <= 65535 /\ 100 <= mtuB exs_cfg <= 65535 /\
  zlen (ypushA exs_final) < 2 ^ 31 - 2 ^ 17 /\ zlen (ypushB exs_final) < 2 ^ 31 - 2 ^ 17 /\
  length (ypushA exs_final) = 135%nat /\ length (ypushB exs_final) = 250%nat /\
  yflushed exs_final SB = ypushA exs_final /\ yflushed exs_final SA = ypushB exs_final.
Proof. vm_compute. repeat split; try reflexivity; discriminate. Qed.
