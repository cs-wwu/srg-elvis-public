(* Facts about lists that several files need: slices of a concatenation, and the list utilities that
   each model declares for itself (equality test, update at an index, duplicate test), each
   characterised by its defining equations, which hold by computation. *)
From Elvis Require Import Model.Base.

Section Slices.
  Context {A : Type}.
  Implicit Types l : list A.

  Lemma skipn_add a b l : skipn a (skipn b l) = skipn (b + a) l.
  Proof.
    revert l. induction b as [|b IH]; intros l; [reflexivity|].
    destruct l as [|x l]; [rewrite !skipn_nil; reflexivity | apply IH].
  Qed.

  Lemma firstn_add a b l : firstn (a + b) l = firstn a l ++ firstn b (skipn a l).
  Proof.
    revert l. induction a as [|a IH]; intros l; [reflexivity|].
    destruct l as [|x l]; cbn [Nat.add firstn skipn app]; [rewrite firstn_nil; reflexivity | rewrite IH; reflexivity].
  Qed.

  Lemma firstn_app_le n l1 l2 : n <= length l1 -> firstn n (l1 ++ l2) = firstn n l1.
  Proof.
    intros H. rewrite firstn_app. replace (n - length l1) with 0 by lia. apply app_nil_r.
  Qed.

  Lemma firstn_app_ge n l1 l2 : length l1 <= n -> firstn n (l1 ++ l2) = l1 ++ firstn (n - length l1) l2.
  Proof. intros H. rewrite firstn_app, (firstn_all2 l1) by lia. reflexivity. Qed.

  Lemma skipn_app_le n l1 l2 : n <= length l1 -> skipn n (l1 ++ l2) = skipn n l1 ++ l2.
  Proof. intros H. rewrite skipn_app. replace (n - length l1) with 0 by lia. reflexivity. Qed.

  Lemma skipn_app_ge n l1 l2 : length l1 <= n -> skipn n (l1 ++ l2) = skipn (n - length l1) l2.
  Proof. intros H. rewrite skipn_app, (skipn_all2 l1) by lia. reflexivity. Qed.

  Lemma Forall_nth_error (P : A -> Prop) l i x : Forall P l -> nth_error l i = Some x -> P x.
  Proof. intros H E. rewrite Forall_forall in H. apply H. eapply nth_error_In. exact E. Qed.

  Lemma not_in_app (x : A) l1 l2 : ~ In x l1 -> ~ In x l2 -> ~ In x (l1 ++ l2).
  Proof. intros H1 H2 H. apply in_app_or in H. destruct H; contradiction. Qed.

  Lemma NoDup_snoc l x : NoDup l -> ~ In x l -> NoDup (l ++ [x]).
  Proof.
    intros Hl Hx. apply NoDup_rev in Hl. rewrite <- (rev_involutive (l ++ [x])), rev_app_distr.
    apply NoDup_rev. constructor; [rewrite <- in_rev; exact Hx | exact Hl].
  Qed.
End Slices.

(* Every model declares its own structural equality test on lists; each is determined by its
   four defining equations, which hold by computation. *)
Lemma list_eqb_spec_gen {A} (leqb : list A -> list A -> bool) (eqb : A -> A -> bool) :
  (forall x y, eqb x y = true <-> x = y) ->
  leqb [] [] = true -> (forall y b, leqb [] (y :: b) = false) -> (forall x a, leqb (x :: a) [] = false) ->
  (forall x a y b, leqb (x :: a) (y :: b) = eqb x y && leqb a b) ->
  forall a b, leqb a b = true <-> a = b.
Proof.
  intros He Hnn Hnc Hcn Hcc. induction a as [|x a IH]; intros [|y b].
  - split; [reflexivity | intros _; exact Hnn].
  - rewrite Hnc. split; discriminate.
  - rewrite Hcn. split; discriminate.
  - rewrite Hcc, andb_true_iff, He, IH. split; [intros [-> ->]; reflexivity | intros [= -> ->]; split; reflexivity].
Qed.

(* update at an index: out of range leaves the list alone *)
Section UpdateAt.
  Context {A : Type} (upd : nat -> A -> list A -> list A).
  Hypothesis upd_nil : forall i x, upd i x [] = [].
  Hypothesis upd_O : forall x h t, upd 0 x (h :: t) = x :: t.
  Hypothesis upd_S : forall i x h t, upd (S i) x (h :: t) = h :: upd i x t.

  Lemma upd_length i x l : length (upd i x l) = length l.
  Proof.
    revert i. induction l as [|h t IH]; intros [|i]; rewrite ?upd_nil, ?upd_O, ?upd_S; cbn [length]; auto.
  Qed.

  Lemma upd_nth_error i x l k :
    nth_error (upd i x l) k = if (k =? i) && (i <? length l) then Some x else nth_error l k.
  Proof.
    revert i k. induction l as [|h t IH]; intros i k.
    - rewrite upd_nil. cbn [length]. replace (i <? 0) with false by (symmetry; apply Nat.ltb_ge; lia).
      rewrite andb_false_r. reflexivity.
    - destruct i as [|i]; destruct k as [|k]; rewrite ?upd_O, ?upd_S; cbn [nth_error length]; try reflexivity.
      rewrite IH. reflexivity.
  Qed.

  Lemma upd_nth i x l k d : nth k (upd i x l) d = if (k =? i) && (i <? length l) then x else nth k l d.
  Proof.
    revert i k. induction l as [|h t IH]; intros i k.
    - rewrite upd_nil. cbn [length]. replace (i <? 0) with false by (symmetry; apply Nat.ltb_ge; lia).
      rewrite andb_false_r. reflexivity.
    - destruct i as [|i]; destruct k as [|k]; rewrite ?upd_O, ?upd_S; cbn [nth length]; try reflexivity.
      rewrite IH. reflexivity.
  Qed.

  Lemma upd_Forall (P : A -> Prop) i x l : P x -> Forall P l -> Forall P (upd i x l).
  Proof.
    intros Hx. revert i. induction l as [|h t IH]; intros [|i] H; rewrite ?upd_nil, ?upd_O, ?upd_S; auto;
      inversion H; subst; constructor; auto.
  Qed.
End UpdateAt.

(* duplicate test *)
Section NoDupB.
  Context {A : Type} (test : A -> A -> bool) (nd : list A -> bool).
  Hypothesis test_spec : forall x y, test x y = true <-> x = y.
  Hypothesis nd_nil : nd [] = true.
  Hypothesis nd_cons : forall x l, nd (x :: l) = negb (existsb (test x) l) && nd l.

  Lemma nd_NoDup l : nd l = true <-> NoDup l.
  Proof.
    induction l as [|x l IH]; [rewrite nd_nil; split; [constructor | reflexivity]|].
    rewrite nd_cons, andb_true_iff, negb_true_iff, IH.
    assert (Hex : existsb (test x) l = false <-> ~ In x l).
    { rewrite <- not_true_iff_false, existsb_exists. split; intros H.
      - intros Hi. apply H. exists x. split; [exact Hi | apply test_spec; reflexivity].
      - intros (y & Hy & E). apply test_spec in E. subst y. exact (H Hy). }
    rewrite Hex. split; [intros [H1 H2]; constructor; assumption | intros H; inversion H; split; assumption].
  Qed.
End NoDupB.

Lemma existsb_eqb_iff {A} (eqb : A -> A -> bool) (eqb_eq : forall a b, eqb a b = true <-> a = b) x l :
  existsb (eqb x) l = true <-> In x l.
Proof.
  rewrite existsb_exists. split.
  - intros (y & Hy & E). apply eqb_eq in E. subst y. exact Hy.
  - intros H. exists x. split; [exact H | apply eqb_eq; reflexivity].
Qed.

Lemma filter_all {A} (p : A -> bool) (l : list A) :
  (forall x, In x l -> p x = true) -> filter p l = l.
Proof.
  induction l as [|a l IH]; intros H; [reflexivity|].
  cbn [filter]. rewrite (H a (or_introl eq_refl)). f_equal. apply IH.
  intros x Hx. apply H. right. exact Hx.
Qed.

Lemma NoDup_map_inj {A B} (f : A -> B) (l : list A) (a b : A) :
  NoDup (map f l) -> In a l -> In b l -> f a = f b -> a = b.
Proof.
  induction l as [|x l IH]; intros Hnd Ha Hb Hf; [destruct Ha|].
  cbn [map] in Hnd. inversion Hnd as [|y ys Hnin Hnd']; subst.
  destruct Ha as [Ha|Ha], Hb as [Hb|Hb]; subst.
  - reflexivity.
  - exfalso. apply Hnin. rewrite Hf. apply in_map. exact Hb.
  - exfalso. apply Hnin. rewrite <- Hf. apply in_map. exact Ha.
  - apply IH; assumption.
Qed.

Lemma Forall2_nth {A B} (R : A -> B -> Prop) (l1 : list A) (l2 : list B) :
  Forall2 R l1 l2 -> forall i a b, nth_error l1 i = Some a -> nth_error l2 i = Some b -> R a b.
Proof.
  induction 1 as [|x y l1 l2 Hxy H IH]; intros i a b Ha Hb.
  - destruct i; discriminate.
  - destruct i as [|i]; cbn [nth_error] in Ha, Hb.
    + injection Ha as <-. injection Hb as <-. exact Hxy.
    + exact (IH i a b Ha Hb).
Qed.

Lemma Forall2_imp {A B} (R1 R2 : A -> B -> Prop) (l1 : list A) (l2 : list B) :
  (forall a b, R1 a b -> R2 a b) -> Forall2 R1 l1 l2 -> Forall2 R2 l1 l2.
Proof. intros H. induction 1; constructor; auto. Qed.

Lemma forallb_filter {A} (p q : A -> bool) l :
  forallb q (filter p l) = true -> forall e, In e l -> p e = true -> q e = true.
Proof.
  intros H e He Hp. rewrite forallb_forall in H. apply H. apply filter_In. split; assumption.
Qed.

Lemma split_app {A} : forall (l l2 pre : list A) ev post,
  l ++ l2 = pre ++ ev :: post ->
  (exists q, l = pre ++ ev :: q) \/ (exists q, pre = l ++ q /\ l2 = q ++ ev :: post).
Proof.
  induction l as [|a l IH]; simpl; intros l2 pre ev post H.
  - right. exists pre. auto.
  - destruct pre as [|b pre]; simpl in H; inversion H; subst.
    + left. exists l. reflexivity.
    + destruct (IH _ _ _ _ H2) as [[q Hq]|[q [Hq1 Hq2]]].
      * left. exists q. simpl. rewrite Hq. reflexivity.
      * right. exists q. simpl. rewrite Hq1. auto.
Qed.

Lemma nth_map_some : forall {A B} (f : A -> B) l j y,
  nth_error (map f l) j = Some y -> exists x, nth_error l j = Some x /\ y = f x.
Proof.
  induction l; destruct j; simpl; intros; try discriminate.
  - inversion H. eauto.
  - eauto.
Qed.

Lemma pigeon : forall n seen,
  NoDup seen -> (forall x, In x seen -> x < n) -> length seen = n -> forall i, i < n -> In i seen.
Proof.
  intros n seen Hnd Hb Hlen i Hi.
  assert (incl (seq 0 n) seen).
  { apply NoDup_length_incl; [assumption | rewrite seq_length; lia |].
    intros x Hx. apply in_seq. specialize (Hb _ Hx). lia. }
  apply H. apply in_seq. lia.
Qed.

Lemma nodup_by_offset {A} (g : A -> N) (T : N) : forall l : list A,
  (forall k f, nth_error l k = Some f -> (g f + N.of_nat k = T)%N) -> NoDup (map g l).
Proof.
  intros l H. apply (proj2 (NoDup_nth_error _)). intros i j Hi E.
  rewrite map_length in Hi. rewrite !nth_error_map in E.
  destruct (nth_error l i) as [fi |] eqn:Ei; [| apply nth_error_None in Ei; lia].
  destruct (nth_error l j) as [fj |] eqn:Ej; [| discriminate].
  cbn in E. inversion E as [E'].
  pose proof (H i fi Ei). pose proof (H j fj Ej). lia.
Qed.
