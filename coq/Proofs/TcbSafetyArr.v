(* process_segment, the arrival loop, segment_arrives and arrives_listen
   preserve the endpoint invariant. *)
From Elvis Require Import Model.Base Model.U32 Model.Tcb
  Proofs.U32Facts Proofs.TcbSafetyDefs Proofs.TcbSafetyBase Proofs.TcbSafetySnd Proofs.TcbSafetyRcv.
Local Open Scope Z_scope.

Section Proc.
  Variables (iss m : Z) (S : list Z) (pv : pview) (D : list Z).
  Hypothesis Hiss : u32 iss.
  Hypothesis HS : zlen S < SEQ_BOUND.
  Hypothesis Hwf : pv_wf pv.

  (* what every outcome of processing must satisfy, relative to the state t before *)
  Definition Good (t t' : tcb) : Prop :=
    SndInv iss m S t' /\ RcvInv pv D t' /\ my_pv iss S t' = my_pv iss S t /\ in_segs t' = in_segs t.

  Lemma good_stage t t' :
    SndInv iss m S t -> RcvInv pv D t -> stage_ok t t' ->
    fin_consumed (st t') = fin_consumed (st t) ->
    state_eqb (st t') SynSent = state_eqb (st t) SynSent -> Good t t'.
  Proof.
    intros HI HR Hst H1 H2. unfold Good. splits.
    - eapply stage_ok_snd; eassumption.
    - eapply RcvInv_same; [|exact HR]. apply stage_ok_rcv_same; assumption.
    - apply snd_frame_pv. apply Hst.
    - apply Hst.
  Qed.

  Lemma good_rstage t t' :
    SndInv iss m S t -> rstage_ok t t' -> RcvInv pv D t' -> Good t t'.
  Proof.
    intros HI Hst HR. unfold Good. splits.
    - eapply rstage_ok_snd; eassumption.
    - exact HR.
    - apply snd_frame_pv. apply Hst.
    - apply Hst.
  Qed.

  Lemma good_trans a b c : Good a b -> my_pv iss S c = my_pv iss S b -> in_segs c = in_segs b ->
    SndInv iss m S c -> RcvInv pv D c -> Good a c.
  Proof. intros (A1 & A2 & A3 & A4) E1 E2 HI HR. unfold Good. splits; congruence. Qed.

  Lemma good_stage_trans t t2 t3 :
    Good t t2 -> stage_ok t2 t3 -> fin_consumed (st t3) = fin_consumed (st t2) ->
    state_eqb (st t3) SynSent = state_eqb (st t2) SynSent -> Good t t3.
  Proof.
    intros (A1 & A2 & A3 & A4) Hst H1 H2.
    destruct (good_stage t2 t3 A1 A2 Hst H1 H2) as (B1 & B2 & B3 & B4).
    unfold Good. splits; congruence.
  Qed.

  Lemma good_rstage_trans t t2 t3 :
    Good t t2 -> rstage_ok t2 t3 -> RcvInv pv D t3 -> Good t t3.
  Proof.
    intros (A1 & A2 & A3 & A4) Hst HR.
    destruct (good_rstage t2 t3 A1 Hst HR) as (B1 & B2 & B3 & B4).
    unfold Good. splits; congruence.
  Qed.

  Lemma enqueue_synack t x y w :
    enqueue t (hb_wnd (hb_ack (hb_syn (hb t x)) y) w) =
    set_retx t (retx t ++ [mkTx (mkSeg (hb_wnd (hb_ack (hb_syn (hb t x)) y) w) []) true]).
  Proof. reflexivity. Qed.

  (* SYN processed in SYN-SENT: the receive variables are initialised from the peer's ISS *)
  Lemma syn_in_synsent t h :
    SndInv iss m S t -> RcvInv pv D t -> st t = SynSent ->
    h_seq h = pv_iss pv ->
    let t1 := set_snd_window (set_rcv_nxt (set_rcv_irs t (h_seq h)) (wadd (h_seq h) 1))
                             (h_wnd h) (h_seq h) (h_ack h) in
    (let t2 := set_st t1 Established in Good t (enqueue t2 (ack_hdr t2))) /\
    (let t2 := set_st t1 SynReceived in
     Good t (enqueue t2 (hb_wnd (hb_ack (hb_syn (hb t2 (snd_iss t2))) (rcv_nxt t2)) (rcv_wnd t2)))).
  Proof.
    intros HI (R1 & R2 & R3) Est Hseq t1.
    rewrite Est in R3. cbn [state_eqb] in R3. destruct R3 as [R3 R4].
    destruct Hwf as (Hu & Hl & Hb & Hfz).
    assert (HR : forall t', in_segs t' = in_segs t -> in_text t' = in_text t ->
              rcv_irs t' = h_seq h -> rcv_nxt t' = wadd (h_seq h) 1 ->
              (st t' = Established \/ st t' = SynReceived) -> RcvInv pv D t').
    { intros t' E1 E2 E3 E4 E5. unfold RcvInv, rcv_n. rewrite E1, E2, E3, E4.
      assert (Hst : state_eqb (st t') SynSent = false /\ fin_consumed (st t') = false)
        by (destruct E5 as [-> | ->]; split; reflexivity).
      destruct Hst as [-> ->]. cbn [b2z]. unfold pv_base. rewrite Hseq, wsub_diag, R3, R4.
      cbn [Z.to_nat firstn app]. splits; auto; try lia; try discriminate. apply wadd_u32. }
    assert (Hcl : closed_state (st t) = false) by (rewrite Est; reflexivity).
    split; intros t2.
    - rewrite enqueue_plain by apply ack_hdr_plain.
      apply good_rstage; [assumption| |apply HR; auto].
      subst t2 t1. unfold rstage_ok, snd_frame; tcb_simpl. rewrite Hcl. splits; auto.
      intros Ho. apply Forall_snoc; [assumption|apply ack_hdr_plain].
    - rewrite enqueue_synack.
      assert (F : snd_frame t (set_retx t2 (retx t2 ++
               [mkTx (mkSeg (hb_wnd (hb_ack (hb_syn (hb t2 (snd_iss t2))) (rcv_nxt t2)) (rcv_wnd t2)) []) true]))).
      { subst t2 t1. unfold snd_frame; tcb_simpl. rewrite Hcl. splits; auto. }
      unfold Good. splits.
      + eapply SndInv_frame; [exact F|exact HI| |].
        * subst t2 t1. tcb_simpl. rewrite map_app. apply Forall_app. split; [apply HI|].
          cbn [map]. constructor; [|constructor]. tcb_simpl.
          apply syn_seg_inv; [reflexivity|]. cbn. apply HI.
        * subst t2 t1. tcb_simpl. apply HI.
      + apply HR; auto.
      + apply snd_frame_pv, F.
      + reflexivity.
  Qed.

  Lemma process_segment_inv t seg :
    SndInv iss m S t -> RcvInv pv D t -> seg_inv pv seg ->
    (state_eqb (st t) SynSent = false -> mod_gt (h_seq (s_hdr seg)) (rcv_nxt t) = false) ->
    exists t' r, process_segment t seg = Ok (t', r) /\ Good t t'.
  Proof.
    intros HI HR Hseg Hloop. destruct seg as [h text]. tcb_simpl.
    unfold process_segment. tcb_simpl.
    assert (Hw : rcv_wnd t = 65535) by apply HI.
    set (seq_bad := match st t with SynSent => false | _ => _ end).
    destruct seq_bad eqn:Ebad.
    { eexists _, _. split; [reflexivity|].
      apply good_stage; [exact HI|exact HR|apply stage_enqueue, ack_hdr_plain| |]; now rewrite enqueue_st. }
    destruct (ps_ack t h) as [t2 r2] eqn:Eack.
    pose proof (ps_ack_stage t h) as St2. pose proof (ps_ack_st t h) as Rel.
    rewrite Eack in St2, Rel. cbn [fst] in St2, Rel.
    destruct (ack_edge_props _ _ Rel) as (P1 & P2 & P3).
    assert (G2 : Good t t2) by (apply good_stage; assumption).
    destruct r2 as [r|]; [exists t2, r; auto|].
    destruct (ps_rst t2 h) as [r|]; [exists t2, r; auto|].
    destruct G2 as (HI2 & HR2 & Epv2 & Eseg2).
    assert (Hw2 : rcv_wnd t2 = 65535) by apply HI2.
    unfold ps_syn. destruct Hseg as (T & Sy & Fi). tcb_simpl.
    destruct (c_syn (h_ctl h)) eqn:Esyn; cbn [negb].
    - (* SYN *)
      destruct (Sy eq_refl) as (Etext & Efin & Eseq). subst text.
      assert (G2 : Good t t2) by (unfold Good; auto).
      destruct (st t2) eqn:Est2;
        try (eexists _, _; split; [reflexivity|];
             apply (good_stage_trans t t2); [exact G2|apply stage_enqueue, ack_hdr_plain| |];
             now rewrite enqueue_st).
      destruct (syn_in_synsent t2 h HI2 HR2 Est2 Eseq) as [GE GS].
      cbv zeta in GE, GS.
      match goal with |- context [if ?c then _ else _] => destruct c end.
      + (* -> Established, continue: no text, no FIN *)
        rewrite enqueue_st. cbn [set_st st state_eqb]. rewrite ps_text_nil.
        rewrite ps_fin_nofin by exact Efin.
        eexists _, _. split; [reflexivity|].
        destruct GE as (A1 & A2 & A3 & A4). unfold Good.
        splits; [exact A1|exact A2|etransitivity; [exact A3|exact Epv2]|etransitivity; [exact A4|exact Eseg2]].
      + eexists _, _. split; [reflexivity|].
        destruct GS as (A1 & A2 & A3 & A4). unfold Good.
        splits; [exact A1|exact A2|etransitivity; [exact A3|exact Epv2]|etransitivity; [exact A4|exact Eseg2]].
    - (* no SYN *)
      destruct (state_eqb (st t2) SynSent) eqn:Ess2.
      { exists t2, PDiscard. split; [reflexivity|]. unfold Good; auto. }
      assert (Hss : state_eqb (st t) SynSent = false) by congruence.
      specialize (Hloop Hss).
      assert (Hfacts : text <> [] -> fin_consumed (st t2) = false ->
                mod_gt (h_seq h) (rcv_nxt t2) = false /\
                (is_in_rcv_window t2 (h_seq h) || is_in_rcv_window t2 (wadd (h_seq h) (zlen text))) = true).
      { intros Hne Hfc2. destruct (T Hne) as (_ & Tfin & Tu & Tlen & _).
        pose proof St2 as ((_ & _ & Ew2 & _) & _ & _ & _ & En2 & _).
        rewrite !(is_in_rcv_window_ext t t2) by assumption. rewrite En2.
        split; [exact Hloop|].
        assert (Hlen1 : 0 < zlen text).
        { destruct text; [congruence|]. rewrite zlen_cons. pose proof (zlen_nonneg text). lia. }
        (* the segment passed the sequence check of stage 1 *)
        apply (seq_ok_assert t (h_seq h) (zlen text) false); [exact Hw|exact Tu|lia|].
        rewrite P1 in Hfc2. subst seq_bad. rewrite ?Esyn, ?Tfin in Ebad.
        destruct (st t); try discriminate Hss; try discriminate Hfc2;
          (destruct (is_seq_ok _ _ _ _ _); [reflexivity|discriminate Ebad]). }
      assert (Hseg' : seg_inv pv (mkSeg h text)).
      { unfold seg_inv; tcb_simpl. rewrite Esyn. exact (conj T (conj Sy Fi)). }
      destruct (ps_text_inv pv D t2 h text Hwf HR2 Ess2 Hw2 Hseg' Hfacts)
        as (t6 & E6 & R6 & S6 & St6 & Enil).
      rewrite E6.
      destruct (c_fin (h_ctl h)) eqn:Efin.
      + destruct (Fi eq_refl) as (Etext & _ & Hfr & Hfseq). subst text.
        rewrite (Enil eq_refl). change (zlen (@nil Z)) with 0.
        destruct (ps_fin_inv pv D t2 h Hwf HR2 Ess2 Efin Hfr Hfseq) as [R7 S7].
        { intros _. rewrite (proj1 (proj2 (proj2 (proj2 (proj2 St2))))). exact Hloop. }
        eexists _, _. split; [reflexivity|].
        apply (good_rstage_trans t t2); [unfold Good; auto|exact S7|exact R7].
      + rewrite ps_fin_nofin by exact Efin.
        eexists _, _. split; [reflexivity|].
        apply (good_rstage_trans t t2); [unfold Good; auto|exact S6|exact R6].
  Qed.

  Lemma segment_arrives_inv t seg :
    SndInv iss m S t -> RcvInv pv D t -> seg_inv pv seg ->
    exists t' r, segment_arrives t seg = Ok (t', r) /\
      SndInv iss m S t' /\ RcvInv pv D t' /\ my_pv iss S t' = my_pv iss S t.
  Proof.
    intros HI HR Hseg.
    apply (segment_arrives_total
             (fun t' => SndInv iss m S t' /\ RcvInv pv D t' /\ my_pv iss S t' = my_pv iss S t)).
    - intros t0 s rest (HI0 & HR0 & E0) Epop Hloop.
      destruct HR0 as (R1 & R2 & R3).
      destruct (heap_pop_Forall _ _ _ _ R1 Epop) as [Hs Hrest].
      assert (HI1 : SndInv iss m S (set_in_segs t0 rest)).
      { eapply SndInv_frame; [|exact HI0| |]; [unfold snd_frame; tcb_simpl; auto 10| |]; tcb_simpl; apply HI0. }
      assert (HR1 : RcvInv pv D (set_in_segs t0 rest)).
      { unfold RcvInv, rcv_n in *. tcb_simpl. auto. }
      destruct (process_segment_inv _ s HI1 HR1 Hs Hloop) as (t1 & r & E1 & A1 & A2 & A3 & _).
      exists t1, r. splits; auto. rewrite A3. exact E0.
    - splits; [| |reflexivity].
      + eapply SndInv_frame; [|exact HI| |]; [unfold snd_frame; tcb_simpl; auto 10| |]; tcb_simpl; apply HI.
      + destruct HR as (R1 & R2 & R3). unfold RcvInv, rcv_n in *. tcb_simpl.
        split; [apply heap_push_Forall; assumption|auto].
  Qed.
End Proc.

Lemma arrives_listen_inv iss m pv seg :
  u32 iss -> pv_wf pv -> seg_inv pv seg ->
  match arrives_listen seg iss m with
  | LNone => True
  | LResponse h => plain_hdr h
  | LTcb t => SndInv iss m [] t /\ RcvInv pv [] t /\ my_pv iss [] t = mkPv iss [] 0 false
  end.
Proof.
  intros Hu (Hpu & Hl & Hb & Hfz) (T & Sy & Fi). unfold arrives_listen.
  destruct (c_rst _); [exact I|].
  destruct (c_ack _); [split; reflexivity|].
  destruct (c_syn (h_ctl (s_hdr seg))) eqn:Esyn; [|exact I].
  destruct (Sy eq_refl) as (Etext & Efin & Eseq).
  set (h := s_hdr seg) in *.
  set (t := mkTcb _ _ _ _ _ _ _ _ _ _ _ _ _ _ _ _ _ _ _ _ _ _).
  rewrite (enqueue_synack t). rewrite Etext.
  set (hs := hb_wnd _ _). set (h' := mkHdr _ _ _ _ _ _ _).
  splits.
  - unfold SndInv, my_pv, data_sent, finq. subst t. tcb_simpl. cbn [closed_state andb b2z zlen length].
    change (Z.of_nat 0) with 0. cbn [Z.sub Z.to_nat skipn Z.add].
    splits; auto; try lia; try discriminate.
    + rewrite wadd_wadd. reflexivity.
    + cbn [app map]. constructor; [|constructor]. tcb_simpl.
      apply syn_seg_inv; reflexivity.
  - unfold RcvInv, rcv_n. subst t. tcb_simpl. cbn [state_eqb fin_consumed b2z app].
    splits; auto; try discriminate.
    + apply heap_push_Forall; [constructor|].
      subst h'. unfold seg_inv; tcb_simpl. splits; intros; splits; congruence.
    + apply wadd_u32.
    + unfold pv_base. fold h. rewrite Eseq, wsub_diag. lia.
    + unfold pv_base. fold h. rewrite Eseq, wsub_diag. lia.
    + unfold pv_base. fold h. rewrite Eseq, wsub_diag. reflexivity.
  - reflexivity.
Qed.
