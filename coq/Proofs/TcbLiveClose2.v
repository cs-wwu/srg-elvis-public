(* C03 (d): simultaneous close, TCB level.  Both sides are in FIN-WAIT-1; the ACK of the peer's
   FIN can overtake the FIN itself and then waits in the reassembly heap. *)
From Elvis Require Import Model.Base Model.U32 Model.Tcb Model.TcpNet Proofs.U32Facts Proofs.TcbSafetySnd
  Proofs.TcbSafetyRcv Proofs.TcbLive Proofs.TcbLiveHs Proofs.TcbLiveClose.
Local Open Scope Z_scope.

Lemma heap_push_smaller x1 x2 f : seg_le f x1 = false -> heap_push [x1; x2] f = [f; x2; x1].
Proof. intros H. unfold heap_push. cbv -[seg_le]. rewrite H. reflexivity. Qed.

Lemma heap_pop_three f x2 x1 : seg_le x1 x2 = true -> heap_pop [f; x2; x1] = Some (f, [x2; x1]).
Proof. intros H. unfold heap_pop. cbv -[seg_le]. rewrite H. reflexivity. Qed.

Lemma seg_le_same a b : h_seq (s_hdr a) = h_seq (s_hdr b) -> seg_le a b = true.
Proof. intros E. unfold seg_le. now rewrite E, Z.eqb_refl. Qed.

Lemma seg_le_before f x q : u32 q -> h_seq (s_hdr f) = q -> h_seq (s_hdr x) = wadd q 1 -> seg_le f x = false.
Proof.
  intros Hu Hf Hx. unfold seg_le. rewrite Hf, Hx.
  replace (q =? wadd q 1) with false by (rewrite wadd_spec; unfold u32, M32 in *; lia).
  now rewrite mod_lt_succ_r.
Qed.

(* a segment beyond RCV.NXT is parked in the heap *)
Lemma arrives_park t seg v top :
  heap_push (in_segs t) seg = v -> heap_peek v = Some top ->
  state_eqb (st t) SynSent = false -> mod_gt (h_seq (s_hdr top)) (rcv_nxt t) = true ->
  segment_arrives t seg = Ok (set_in_segs t v, AOk).
Proof.
  intros Hv Hp Hss Hgt. unfold segment_arrives. rewrite Hv. apply arrives_loop_stop. tcb_simpl. now rewrite Hp.
Qed.

(* three queued segments are processed one after the other *)
Lemma arrives_loop_three n t f x2 x1 t1 r1 t2 r2 t3 r3 :
  in_segs t = [f; x2; x1] -> seg_le x1 x2 = true ->
  state_eqb (st t) SynSent = false -> mod_gt (h_seq (s_hdr f)) (rcv_nxt t) = false ->
  process_segment (set_in_segs t [x2; x1]) f = Ok (t1, r1) -> should_delete r1 = false -> in_segs t1 = [x2; x1] ->
  state_eqb (st t1) SynSent = false -> mod_gt (h_seq (s_hdr x2)) (rcv_nxt t1) = false ->
  process_segment (set_in_segs t1 [x1]) x2 = Ok (t2, r2) -> should_delete r2 = false -> in_segs t2 = [x1] ->
  state_eqb (st t2) SynSent = false -> mod_gt (h_seq (s_hdr x1)) (rcv_nxt t2) = false ->
  process_segment (set_in_segs t2 []) x1 = Ok (t3, r3) -> should_delete r3 = false -> in_segs t3 = [] ->
  arrives_loop (Datatypes.S (Datatypes.S (Datatypes.S (Datatypes.S n)))) t = Ok (t3, AOk).
Proof.
  intros Hs Hle S0 G0 P1 D1 I1 S1 G1 P2 D2 I2 S2 G2 P3 D3 I3.
  rewrite (arrives_loop_step _ t f [x2; x1] t1 r1), D1;
    [|rewrite Hs; apply (heap_pop_three f x2 x1 Hle)|now rewrite S0, G0|exact P1].
  rewrite (arrives_loop_step _ t1 x2 [x1] t2 r2), D2; [|rewrite I1; apply heap_pop_two|now rewrite S1, G1|exact P2].
  apply (arrives_loop_one n t2 x1 t3 r3); try assumption.
  now rewrite S2, G2.
Qed.

(* our FIN (sequence number q) is queued and not yet acknowledged *)
Lemma fin_not_acked t q : u32 q -> fin_pending t = false -> snd_nxt t = wadd q 1 -> snd_una t = q ->
  is_fin_acked t = false.
Proof. intros Hu H1 H2 H3. unfold is_fin_acked. rewrite H1, H2, H3, succ_neq by assumption. reflexivity. Qed.

Lemma ps_ack_unacked t h : (st t = FinWait1 \/ st t = Closing) -> c_ack (h_ctl h) = true ->
  mod_leq (h_ack h) (snd_una t) = true -> is_fin_acked t = false -> ps_ack t h = (t, None).
Proof.
  intros Hs Ha Hl Hf. unfold ps_ack. rewrite Ha, (ack_est_old t h Hl). cbn [negb].
  destruct Hs as [-> | ->]; rewrite Hf; reflexivity.
Qed.

Lemma process_fin_unacked t h :
  (st t = FinWait1 \/ st t = Closing) -> c_ack (h_ctl h) = true -> c_rst (h_ctl h) = false -> c_syn (h_ctl h) = false ->
  mod_leq (h_ack h) (snd_una t) = true -> is_fin_acked t = false ->
  is_seq_ok t 0 (h_seq h) false (c_fin (h_ctl h)) = true ->
  process_segment t (mkSeg h []) = Ok (ps_fin t h 0, PSuccess).
Proof.
  intros Hs Ha Hr Hsy Hl Hfa Hok.
  assert (Hss : state_eqb (st t) SynSent = false) by (destruct Hs as [-> | ->]; reflexivity).
  rewrite process_nosyn by assumption. rewrite (ps_ack_unacked t h Hs Ha Hl Hfa). cbn iota.
  rewrite Hss, ps_text_nil. reflexivity.
Qed.

(* the ACK of our FIN in CLOSING: TIME-WAIT *)
Lemma process_ack_closing t h tx :
  st t = Closing -> fin_pending t = false -> rcv_wnd t = 65535 -> u32 (rcv_nxt t) ->
  ack_only h -> h_seq h = rcv_nxt t -> u32 (snd_una t) -> snd_nxt t = wadd (snd_una t) 1 ->
  h_ack h = snd_nxt t -> retx t = [tx] -> h_seq (s_hdr (t_seg tx)) = snd_una t -> seg_len (t_seg tx) = 1 ->
  exists w wl1 wl2,
    process_segment t (mkSeg h []) =
    Ok (set_time_wait (set_st (set_snd_window (set_retx (set_snd_una t (snd_nxt t)) []) w wl1 wl2) TimeWait)
                      (Some MSL2), PSuccess) /\
    (w = snd_wnd t \/ w = h_wnd h).
Proof.
  intros Est Hfp Hw Hu (Ha & Hr & Hsy & Hf) Hseq Huu Hnx Hack Hretx Htxs Htxl.
  destruct (ack_of_fin_core t h tx Huu Hnx Hack Hretx Htxs Htxl) as (t2 & E2 & w & wl1 & wl2 & Et2 & Hwv).
  exists w, wl1, wl2. split; [|exact Hwv].
  rewrite process_nosyn; try assumption; [|now rewrite Est|rewrite Hf; now apply is_seq_ok_ack_at_nxt].
  unfold ps_ack. rewrite Ha. cbn [negb]. rewrite Est, E2.
  assert (Hacked : is_fin_acked t2 = true).
  { rewrite Et2. unfold is_fin_acked. tcb_simpl. now rewrite Hfp, Z.eqb_refl. }
  rewrite Hacked. cbn [set_time_wait set_st st state_eqb]. rewrite ps_text_nil, ps_fin_nofin by exact Hf. rewrite Et2. reflexivity.
Qed.
