(* Re-fragmentation: partitions of the pieces of a partition form a partition
   of the original; the model's successive fragmentation (chain). *)
From Elvis Require Import Model.Base Model.Frag Proofs.FragFacts.
Local Open Scope Z_scope.

Section Chain.
Context {A : Type}.

(* pieces of a non-final piece (h,_) of o are non-final pieces of o *)
Lemma rebase_nonlast : forall (ps : list (frag A)) o h mtu acc acc',
  ihl h = ihl o -> oth h = oth o -> flags h = set_mf (flags o) ->
  8 * fragment_offset h = 8 * fragment_offset o + acc ->
  pieces_ok h mtu acc' false ps = true -> sumlen ps mod 8 = 0 ->
  pieces_ok o mtu (acc + acc') true ps = true.
Proof.
  induction ps as [|f rest IH]; intros o h mtu acc acc' Hi Ho Hf Hfo Hp Hs; [reflexivity|].
  cbn [pieces_ok] in *. apply andb_prop in Hp. destruct Hp as [Hp1 Hp2].
  apply piece_ok_iff in Hp1. destruct Hp1 as (Q1 & Q2 & Q3 & Q4 & Q5 & Q6).
  cbn [sumlen] in Hs. pose proof (plen_nonneg f) as Hf0. pose proof (sumlen_nonneg rest) as Hr0.
  rewrite andb_false_r. apply andb_true_intro. split.
  - apply piece_ok_iff. unfold PieceOK. repeat split; try lia; try congruence.
    + destruct rest as [|g rest'].
      * cbn [is_nil andb negb] in Q6. congruence.
      * cbn [is_nil andb negb] in Q6. destruct Q6 as [Q6 _]. rewrite Q6, Hf. apply set_mf_idem.
    + destruct rest as [|g rest'].
      * cbn [sumlen] in Hs. rewrite Z.add_0_r in Hs. exact Hs.
      * cbn [is_nil andb negb] in Q6. apply Q6.
  - replace (acc + acc' + plen f) with (acc + (acc' + plen f)) by lia.
    apply (IH o h); try assumption.
    destruct rest as [|g rest']; [reflexivity|].
    cbn [is_nil andb negb] in Q6. destruct Q6 as [_ Q6]. lia.
Qed.

Lemma is_nil_app {B} (a b : list B) : is_nil (a ++ b) = is_nil a && is_nil b.
Proof. destruct a; reflexivity. Qed.

Lemma pieces_ok_app : forall (l1 l2 : list (frag A)) o mtu acc more,
  pieces_ok o mtu acc more (l1 ++ l2) =
  pieces_ok o mtu acc (more || negb (is_nil l2)) l1 && pieces_ok o mtu (acc + sumlen l1) more l2.
Proof.
  induction l1 as [|f l1 IH]; intros l2 o mtu acc more.
  - cbn [app pieces_ok sumlen andb]. rewrite Z.add_0_r. reflexivity.
  - cbn [app pieces_ok sumlen]. rewrite IH, is_nil_app.
    replace (acc + (plen f + sumlen l1)) with (acc + plen f + sumlen l1) by lia.
    replace (is_nil l1 && is_nil l2 && negb more) with (is_nil l1 && negb (more || negb (is_nil l2)))
      by (destruct (is_nil l1), (is_nil l2), more; reflexivity).
    rewrite andb_assoc. reflexivity.
Qed.

Definition Sub (mtu : Z) (f : frag A) (ps : list (frag A)) : Prop := POK (fst f) (snd f) mtu ps.

Lemma Sub_sumlen mtu f ps : Sub mtu f ps -> sumlen ps = plen f.
Proof. intros (_ & Hc & _ & _). rewrite <- len_payloads, Hc. reflexivity. Qed.

Lemma concat_nonnil (pss : list (list (frag A))) ps :
  ps <> [] -> is_nil (concat (ps :: pss)) = false.
Proof. intros H. cbn [concat]. destruct ps; [congruence | reflexivity]. Qed.

Lemma refrag_pieces_ok : forall (frs : list (frag A)) pss mtu',
  Forall2 (Sub mtu') frs pss ->
  forall o mtu acc more, pieces_ok o mtu acc more frs = true ->
  pieces_ok o mtu' acc more (concat pss) = true.
Proof.
  intros frs pss mtu' HF.
  induction HF as [|f ps frs pss Hsub HF IH]; intros o mtu acc more Hp; [reflexivity|].
  cbn [concat]. rewrite pieces_ok_app. cbn [pieces_ok] in Hp.
  apply andb_prop in Hp. destruct Hp as [Hp1 Hp2].
  pose proof (Sub_sumlen _ _ _ Hsub) as Hs.
  apply andb_true_intro. split.
  - apply piece_ok_iff in Hp1. destruct Hp1 as (Q1 & Q2 & Q3 & Q4 & Q5 & Q6).
    destruct Hsub as (Hne & Hc & Hpo & Hnd).
    assert (Hflag : more || negb (is_nil (concat pss)) = negb (is_nil frs && negb more)).
    { inversion HF as [|f' ps' frs' pss' Hsub' HF']; subst.
      - cbn. destruct more; reflexivity.
      - rewrite concat_nonnil by apply Hsub'. cbn. destruct more; reflexivity. }
    rewrite Hflag. destruct (is_nil frs && negb more); cbn [negb].
    + (* pieces of the final piece of o: same flags, plain shift *)
      rewrite <- (pieces_ok_shift ps o (fst f) mtu' acc 0 false) by (try assumption; lia). exact Hpo.
    + replace acc with (acc + 0) by lia. destruct Q6 as [Q6 Q7].
      apply (rebase_nonlast ps o (fst f)); try assumption. rewrite Hs. exact Q7.
  - rewrite Hs. apply (IH o mtu). exact Hp2.
Qed.

Lemma refrag_payload : forall (frs : list (frag A)) pss mtu',
  Forall2 (Sub mtu') frs pss ->
  concat (map snd (concat pss)) = concat (map snd frs).
Proof.
  intros frs pss mtu' HF. induction HF as [|f ps frs pss Hsub HF IH]; [reflexivity|].
  destruct Hsub as (_ & Hc & _ & _).
  change (concat (ps :: pss)) with (ps ++ concat pss).
  change (map snd (f :: frs)) with (snd f :: map snd frs).
  change (concat (snd f :: map snd frs)) with (snd f ++ concat (map snd frs)).
  rewrite map_app, concat_app. f_equal; [exact Hc | exact IH].
Qed.

Lemma refrag_nonnil : forall (frs : list (frag A)) pss mtu',
  Forall2 (Sub mtu') frs pss -> frs <> [] -> concat pss <> [].
Proof.
  intros frs pss mtu' HF Hne. destruct HF as [|f ps frs pss Hsub HF]; [congruence|].
  destruct Hsub as (Hps & _). cbn [concat]. destruct ps; [congruence | discriminate].
Qed.

Lemma refrag_all_nonempty : forall (frs : list (frag A)) pss mtu',
  Forall2 (Sub mtu') frs pss -> Forall (fun f : frag A => snd f <> []) frs ->
  Forall (fun f : frag A => snd f <> []) (concat pss).
Proof.
  intros frs pss mtu' HF. induction HF as [|f ps frs pss Hsub HF IH]; intros Hall; [constructor|].
  inversion Hall as [|f' frs' Hf Hrest]; subst.
  cbn [concat]. apply Forall_app. split; [|apply IH, Hrest].
  destruct Hsub as (Hps & Hc & _ & Hnd). apply nondeg_ok_iff in Hnd. destruct Hnd as [H1 | Hall'].
  - destruct ps as [|g [|g' t]]; try discriminate. constructor; [|constructor].
    cbn [map concat] in Hc. rewrite app_nil_r in Hc. congruence.
  - exact Hall'.
Qed.

Lemma refrag_nondeg : forall (frs : list (frag A)) pss mtu',
  Forall2 (Sub mtu') frs pss -> nondeg_ok frs = true -> nondeg_ok (concat pss) = true.
Proof.
  intros frs pss mtu' HF Hnd. apply nondeg_ok_iff in Hnd. destruct Hnd as [H1 | Hall].
  - destruct HF as [|f ps frs pss Hsub HF]; [discriminate|].
    destruct frs; [|discriminate]. inversion HF; subst.
    cbn [concat]. rewrite app_nil_r. apply Hsub.
  - apply nondeg_ok_iff. right. apply (refrag_all_nonempty frs pss mtu'); assumption.
Qed.

Theorem refragment_partition o (body : list A) m m' frs pss :
  POK o body m frs -> Forall2 (Sub m') frs pss -> POK o body m' (concat pss).
Proof.
  intros (Hne & Hc & Hpo & Hnd) HF. repeat split.
  - apply (refrag_nonnil frs pss m'); assumption.
  - rewrite (refrag_payload frs pss m') by assumption. exact Hc.
  - apply (refrag_pieces_ok frs pss m' HF o m). exact Hpo.
  - apply (refrag_nondeg frs pss m'); assumption.
Qed.

Lemma POK_piece o (body : list A) mtu frs i f :
  POK o body mtu frs -> nth_error frs i = Some f ->
  PieceOK o mtu (sumlen (firstn i frs)) (Nat.eqb (S i) (length frs)) f.
Proof.
  intros (_ & _ & Hpo & _) Hn. rewrite pieces_ok_iff in Hpo. specialize (Hpo i f Hn).
  rewrite Z.add_0_l, andb_true_r in Hpo. exact Hpo.
Qed.

Lemma POK_elem o (body : list A) mtu frs f :
  POK o body mtu frs -> Valid o body -> In f frs ->
  Valid (fst f) (snd f) /\ ihl (fst f) = ihl o /\
  may_fragment (flags (fst f)) = may_fragment (flags o) /\
  total_length (fst f) <= mtu /\
  8 * fragment_offset (fst f) + plen f <= 8 * fragment_offset o + len body.
Proof.
  intros HP (V1 & V2 & V3 & V4) Hin.
  apply In_nth_error in Hin. destruct Hin as [i Hn].
  pose proof (sumlen_firstn_le i frs f Hn) as Hle.
  pose proof (sumlen_nonneg (firstn i frs)) as H0.
  assert (Hsum : sumlen frs = len body) by (rewrite <- len_payloads; f_equal; apply HP).
  rewrite Hsum in Hle.
  destruct (POK_piece o body mtu frs i f HP Hn) as (Q1 & Q2 & Q3 & Q4 & Q5 & Q6).
  pose proof (plen_nonneg f) as Hp0.
  assert (Hpl : plen f = len (snd f)) by reflexivity.
  split; [|split; [exact Q3 | split; [|split; [exact Q1 | lia]]]].
  - unfold Valid. rewrite <- Hpl. unfold U16MAX in *. repeat split; lia.
  - destruct (Nat.eqb (S i) (length frs)).
    + rewrite Q6. reflexivity.
    + destruct Q6 as [Q6 _]. rewrite Q6. apply may_fragment_set_mf.
Qed.

Lemma refrag_all_ok : forall (frs : list (frag A)) m',
  Forall (fun f => Valid (fst f) (snd f) /\ MtuOk (fst f) m' /\ may_fragment (flags (fst f)) = true) frs ->
  exists rs pss, refrag_all m' frs = Ok rs /\ flatten rs = Some (concat pss) /\ Forall2 (Sub m') frs pss.
Proof.
  induction frs as [|[h p] frs IH]; intros m' Hall.
  - exists [], []. repeat split; constructor.
  - inversion Hall as [|f' frs' (Hv & Hm & Hdf) Hrest]; subst. cbn [fst snd] in *.
    destruct (fragment_pieces h p m' Hv Hm Hdf) as (r & ps & Hfr & Hps & Hpart).
    destruct (IH m' Hrest) as (rs & pss & Hrs & Hfl & HF2).
    exists (r :: rs), (ps :: pss). cbn [refrag_all]. rewrite Hfr. cbn [bind]. rewrite Hrs. cbn [bind].
    split; [reflexivity|]. split.
    + cbn [flatten concat]. rewrite Hps, Hfl. reflexivity.
    + constructor; assumption.
Qed.

Theorem refrag_step o (body : list A) m m' frs :
  POK o body m frs -> Valid o body -> MtuOk o m' -> may_fragment (flags o) = true ->
  exists rs frs', refrag_all m' frs = Ok rs /\ flatten rs = Some frs' /\ POK o body m' frs'.
Proof.
  intros HP Hv Hm Hdf.
  destruct (refrag_all_ok frs m') as (rs & pss & Hrs & Hfl & HF2).
  { apply Forall_forall. intros f Hin.
    destruct (POK_elem o body m frs f HP Hv Hin) as (Hvf & Hi & Hmf & _).
    split; [exact Hvf|]. split; [unfold MtuOk in *; rewrite Hi; exact Hm | congruence]. }
  exists rs, (concat pss). split; [exact Hrs|]. split; [exact Hfl|].
  apply (refragment_partition o body m m' frs pss); assumption.
Qed.

Theorem chain_ok : forall mtus o (body : list A) m0 m frs,
  POK o body m0 frs -> Valid o body -> may_fragment (flags o) = true ->
  Forall (MtuOk o) (mtus ++ [m]) ->
  exists frs', chain (mtus ++ [m]) frs = Ok (Some frs') /\ POK o body m frs'.
Proof.
  induction mtus as [|m1 ms IH]; intros o body m0 m frs HP Hv Hdf Hall.
  - inversion Hall as [|x l Hm _]; subst.
    destruct (refrag_step o body m0 m frs HP Hv Hm Hdf) as (rs & frs' & Hrs & Hfl & HP').
    exists frs'. cbn [app chain]. rewrite Hrs. cbn [bind]. rewrite Hfl. split; [reflexivity | exact HP'].
  - cbn [app] in Hall. inversion Hall as [|x l Hm Hrest]; subst.
    destruct (refrag_step o body m0 m1 frs HP Hv Hm Hdf) as (rs & frs1 & Hrs & Hfl & HP1).
    destruct (IH o body m1 m frs1 HP1 Hv Hdf Hrest) as (frs' & Hch & HP').
    exists frs'. cbn [app chain]. rewrite Hrs. cbn [bind]. rewrite Hfl. split; assumption.
Qed.

(* DF set: the datagram travels unchanged while it fits and is discarded at the first MTU it exceeds *)
Theorem chain_df : forall mtus o (body : list A),
  may_fragment (flags o) = false ->
  chain mtus [(o, body)] =
  Ok (if forallb (fun m => total_length o <=? m) mtus then Some [(o, body)] else None).
Proof.
  induction mtus as [|m ms IH]; intros o body Hdf; [reflexivity|].
  cbn [chain refrag_all forallb]. destruct (total_length o <=? m) eqn:E.
  - rewrite fragment_fits by lia. cbn [bind flatten pieces app andb]. apply IH, Hdf.
  - rewrite fragment_discard by (try assumption; lia). reflexivity.
Qed.

End Chain.
