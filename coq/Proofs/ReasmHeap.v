(* The model of std's BinaryHeap (Model/Reasm.v, Section BinaryHeap) is a
   priority queue: push/pop keep the multiset and the heap order, and draining
   pops in non-increasing order.  Generic in the element type and its order. *)
From Coq Require Import Permutation Sorted ZifyNat.
From Elvis Require Import Model.Base Model.Reasm Proofs.ListFacts.

(* positions in the implicit tree: c is a child of p *)
Definition child (p c : nat) : Prop := c = (2 * p + 1)%nat \/ c = (2 * p + 2)%nat.

Lemma parent_child : forall c, (0 < c)%nat -> child ((c - 1) / 2) c.
Proof.
  intros c H. unfold child. pose proof (Nat.div_mod (c - 1) 2 ltac:(lia)).
  pose proof (Nat.mod_upper_bound (c - 1) 2 ltac:(lia)). lia.
Qed.

Lemma child_parent : forall p c, child p c -> ((c - 1) / 2 = p)%nat.
Proof.
  intros p c [-> | ->].
  - replace (2 * p + 1 - 1)%nat with (p * 2)%nat by lia. apply Nat.div_mul. lia.
  - replace (2 * p + 2 - 1)%nat with (1 + p * 2)%nat by lia. rewrite Nat.div_add by lia. reflexivity.
Qed.

Section HeapFacts.
  Context {T : Type} (le : T -> T -> bool) (d : T).
  Variable le_total : forall x y, le x y = true \/ le y x = true.
  Variable le_trans : forall x y z, le x y = true -> le y z = true -> le x z = true.

  Lemma le_refl : forall x, le x x = true.
  Proof. intro x. destruct (le_total x x); assumption. Qed.

  Notation get := (hget d).

  Lemma length_hset : forall (a : list T) i v, length (hset a i v) = length a.
  Proof. intros a i v. apply (upd_length (fun i v a => hset a i v)); reflexivity. Qed.

  Lemma get_hset : forall (a : list T) i v j,
    get (hset a i v) j = if ((j =? i) && (i <? length a))%nat then v else get a j.
  Proof. intros a i v j. apply (upd_nth (fun i v a => hset a i v)); reflexivity. Qed.

  Lemma length_hswap : forall (a : list T) i j, length (hswap d a i j) = length a.
  Proof. intros. unfold hswap. now rewrite !length_hset. Qed.

  Lemma get_hswap : forall (a : list T) i j k, (i < length a)%nat -> (j < length a)%nat ->
    get (hswap d a i j) k =
      if (k =? j)%nat then get a i else if (k =? i)%nat then get a j else get a k.
  Proof.
    intros a i j k Hi Hj. unfold hswap. rewrite !get_hset, !length_hset.
    replace (j <? length a)%nat with true by (symmetry; apply Nat.ltb_lt; lia).
    replace (i <? length a)%nat with true by (symmetry; apply Nat.ltb_lt; lia).
    rewrite !andb_true_r. reflexivity.
  Qed.

  Lemma hswap_perm : forall (a : list T) i j, (i < length a)%nat -> (j < length a)%nat ->
    Permutation a (hswap d a i j).
  Proof.
    intros a i j Hi Hj. apply (Permutation_nth a (hswap d a i j) d). cbv zeta.
    split; [apply length_hswap|].
    exists (fun k => if (k =? j)%nat then i else if (k =? i)%nat then j else k).
    split; [|split].
    - intros k Hk. destruct (Nat.eqb_spec k j); [lia|]. destruct (Nat.eqb_spec k i); lia.
    - intros x y Hx Hy.
      destruct (Nat.eqb_spec x j); destruct (Nat.eqb_spec x i);
      destruct (Nat.eqb_spec y j); destruct (Nat.eqb_spec y i); lia.
    - intros k Hk. fold (get (hswap d a i j) k). rewrite get_hswap by assumption.
      destruct (Nat.eqb_spec k j); [reflexivity|]. destruct (Nat.eqb_spec k i); reflexivity.
  Qed.

  (* every element is <= its parent *)
  Definition heap_ok (a : list T) : Prop :=
    forall i, (0 < i < length a)%nat -> le (get a i) (get a ((i - 1) / 2)) = true.

  (* the same read from the parent's side: no division in the arithmetic below *)
  Definition hp (a : list T) : Prop :=
    forall p c, child p c -> (c < length a)%nat -> le (get a c) (get a p) = true.

  Lemma heap_ok_hp : forall a, heap_ok a <-> hp a.
  Proof.
    intros a. split.
    - intros H p c Hc Hl. rewrite <- (child_parent p c Hc). apply H. unfold child in Hc. lia.
    - intros H i Hi. apply H; [apply parent_child|]; lia.
  Qed.

  (* heap order everywhere except that a[pos] may exceed its parent; the children
     of pos are <= the parent of pos *)
  Definition up_inv (a : list T) (pos : nat) : Prop :=
    (pos < length a)%nat /\
    (forall p c, child p c -> (c < length a)%nat -> c <> pos -> le (get a c) (get a p) = true) /\
    (forall g c, child g pos -> child pos c -> (c < length a)%nat -> le (get a c) (get a g) = true).

  (* the hole is at pos: a[pos] is unrelated to its parent and to its children *)
  Definition down_inv (a : list T) (pos : nat) : Prop :=
    (pos < length a)%nat /\
    (forall p c, child p c -> (c < length a)%nat -> c <> pos -> p <> pos -> le (get a c) (get a p) = true) /\
    (forall g c, child g pos -> child pos c -> (c < length a)%nat -> le (get a c) (get a g) = true).

  Lemma le_of_not : forall x y, le x y = false -> le y x = true.
  Proof. intros x y H. destruct (le_total x y) as [E|E]; [congruence|assumption]. Qed.

  Lemma sift_up_ok : forall fuel (a : list T) pos, (pos <= fuel)%nat -> up_inv a pos ->
    hp (sift_up le d fuel a pos) /\ Permutation a (sift_up le d fuel a pos).
  Proof.
    induction fuel as [|f IH]; intros a pos Hf (Hp & Hall & Hgp).
    - cbn [sift_up]. split; [|apply Permutation_refl].
      intros p c Hc Hl. apply Hall; unfold child in *; lia.
    - cbn [sift_up]. destruct (Nat.eqb_spec pos 0) as [E0|N0].
      + split; [|apply Permutation_refl]. intros p c Hc Hl. apply Hall; unfold child in *; lia.
      + set (parent := ((pos - 1) / 2)%nat).
        assert (Hpar : child parent pos) by (apply parent_child; lia). clearbody parent.
        destruct (le (get a pos) (get a parent)) eqn:Ele.
        * split; [|apply Permutation_refl]. intros p c Hc Hl.
          destruct (Nat.eq_dec c pos) as [->|Ni]; [|apply Hall; assumption].
          replace p with parent by (unfold child in *; lia). exact Ele.
        * apply le_of_not in Ele. unfold child in Hpar.
          assert (Hsw : up_inv (hswap d a pos parent) parent).
          { unfold up_inv. rewrite length_hswap. split; [lia|]. split.
            - intros p c Hc Hl Ni. unfold child in Hc. rewrite !get_hswap by lia.
              destruct (Nat.eqb_spec c parent); [lia|].
              destruct (Nat.eqb_spec c pos) as [->|Nc].
              + replace p with parent by lia. rewrite Nat.eqb_refl. exact Ele.
              + destruct (Nat.eqb_spec p parent) as [->|Npar].
                * apply le_trans with (get a parent); [apply Hall; unfold child; lia | exact Ele].
                * destruct (Nat.eqb_spec p pos) as [->|Npos]; [apply (Hgp parent); unfold child; lia|].
                  apply Hall; unfold child; lia.
            - intros g c Hg Hc Hl. unfold child in Hg, Hc. rewrite !get_hswap by lia.
              destruct (Nat.eqb_spec g parent); [lia|]. destruct (Nat.eqb_spec g pos); [lia|].
              destruct (Nat.eqb_spec c parent); [lia|].
              destruct (Nat.eqb_spec c pos) as [->|Ncp]; [apply Hall; unfold child; lia|].
              apply le_trans with (get a parent); apply Hall; unfold child; lia. }
          destruct (IH (hswap d a pos parent) parent ltac:(lia) Hsw) as [H1 H2].
          split; [exact H1|].
          apply Permutation_trans with (hswap d a pos parent); [apply hswap_perm; lia|exact H2].
  Qed.

  Lemma heap_push_ok : forall (a : list T) x, heap_ok a ->
    heap_ok (heap_push le d a x) /\ Permutation (x :: a) (heap_push le d a x).
  Proof.
    intros a x Hok. apply heap_ok_hp in Hok. unfold heap_push.
    assert (Hinv : up_inv (a ++ [x]) (length a)).
    { unfold up_inv. rewrite app_length. cbn [length]. split; [lia|]. split.
      - intros p c Hc Hl Ni. unfold child in Hc. unfold hget. rewrite !app_nth1 by lia. apply Hok; unfold child; lia.
      - intros g c Hg Hc Hl. unfold child in *. lia. }
    destruct (sift_up_ok (length a) (a ++ [x]) (length a) (le_n _) Hinv) as [H1 H2].
    split; [apply heap_ok_hp; exact H1|].
    eapply Permutation_trans; [|exact H2]. apply Permutation_cons_append.
  Qed.

  Lemma sift_down_hole_ok : forall fuel (a : list T) pos,
    (length a <= fuel + pos)%nat -> down_inv a pos ->
    let '(a', p') := sift_down_hole le d fuel a pos in
    up_inv a' p' /\ Permutation a a'.
  Proof.
    induction fuel as [|f IH]; intros a pos Hf (Hp & Hall & Hgp).
    - lia.
    - cbn [sift_down_hole]. set (ch := (2 * pos + 1)%nat).
      destruct (Nat.leb_spec (ch + 2) (length a)) as [Htwo|Hnot].
      + set (c := if le (get a ch) (get a (ch + 1)) then (ch + 1)%nat else ch).
        assert (Hc : (c = ch \/ c = ch + 1)%nat) by (unfold c; destruct (le _ _); lia).
        assert (Hsib : forall s, (s = ch \/ s = ch + 1)%nat -> le (get a s) (get a c) = true).
        { intros s Hs. unfold c. destruct (le (get a ch) (get a (ch + 1))) eqn:E.
          - destruct Hs as [->| ->]; [exact E|apply le_refl].
          - destruct Hs as [->| ->]; [apply le_refl|apply le_of_not; exact E]. }
        clearbody c.
        assert (Hsw : down_inv (hswap d a pos c) c).
        { unfold down_inv. rewrite length_hswap. split; [lia|]. split.
          - intros p k Hk Hl Nk Np. unfold child in Hk. rewrite !get_hswap by lia.
            destruct (Nat.eqb_spec k c); [lia|]. destruct (Nat.eqb_spec p c); [lia|].
            destruct (Nat.eqb_spec k pos) as [->|Nkp].
            + destruct (Nat.eqb_spec p pos); [lia|]. apply (Hgp p); unfold child; lia.
            + destruct (Nat.eqb_spec p pos) as [->|Npp]; [apply Hsib; lia|]. apply Hall; unfold child; lia.
          - intros g k Hg Hk Hl. unfold child in Hg, Hk. replace g with pos by lia. rewrite !get_hswap by lia.
            destruct (Nat.eqb_spec k c); [lia|]. destruct (Nat.eqb_spec k pos); [lia|].
            destruct (Nat.eqb_spec pos c); [lia|]. rewrite Nat.eqb_refl. apply Hall; unfold child; lia. }
        specialize (IH (hswap d a pos c) c). rewrite length_hswap in IH.
        specialize (IH ltac:(lia) Hsw).
        destruct (sift_down_hole le d f (hswap d a pos c) c) as [a' p'].
        destruct IH as [H1 H2]. split; [exact H1|].
        apply Permutation_trans with (hswap d a pos c); [apply hswap_perm; lia|exact H2].
      + destruct (Nat.eqb_spec (ch + 1) (length a)) as [Eone|None].
        * (* a single child, the last element *)
          split; [|apply hswap_perm; lia].
          unfold up_inv. rewrite length_hswap. split; [lia|]. split.
          -- intros p k Hk Hl Nk. unfold child in Hk. rewrite !get_hswap by lia.
             destruct (Nat.eqb_spec k ch); [lia|]. destruct (Nat.eqb_spec p ch); [lia|].
             destruct (Nat.eqb_spec k pos) as [->|Nkp].
             ++ destruct (Nat.eqb_spec p pos); [lia|]. apply (Hgp p); unfold child; lia.
             ++ destruct (Nat.eqb_spec p pos); [lia|]. apply Hall; unfold child; lia.
          -- intros g k Hg Hk Hl. unfold child in *. lia.
        * (* no child *)
          split; [|apply Permutation_refl].
          unfold up_inv. split; [lia|]. split.
          -- intros p k Hk Hl Nk. apply Hall; unfold child in *; lia.
          -- intros g k Hg Hk Hl. unfold child in *. lia.
  Qed.

  Lemma heap_ok_root : forall (a : list T), heap_ok a ->
    forall i, (i < length a)%nat -> le (get a i) (get a 0) = true.
  Proof.
    intros a Hok i. induction i as [i IH] using lt_wf_ind. intro Hi.
    destruct (Nat.eq_dec i 0) as [->|N]; [apply le_refl|].
    apply le_trans with (get a ((i - 1) / 2)).
    - apply Hok; lia.
    - apply IH; lia.
  Qed.

  Lemma heap_ok_nil : heap_ok [].
  Proof. intros i Hi. cbn [length] in Hi. lia. Qed.

  Lemma heap_pop_ok : forall (a : list T), heap_ok a ->
    match heap_pop le d a with
    | None => a = []
    | Some (x, a') =>
      Permutation a (x :: a') /\ heap_ok a' /\ Forall (fun y => le y x = true) a'
    end.
  Proof.
    intros a Hok. unfold heap_pop. destruct a as [|a0 t]; [reflexivity|].
    set (a := a0 :: t) in *.
    assert (Hsplit : a = removelast a ++ [last a d]) by (apply app_removelast_last; discriminate).
    assert (Hlen : length a = S (length (removelast a))).
    { rewrite Hsplit at 1. rewrite app_length. cbn [length]. lia. }
    assert (Hroot : forall y, In y a -> le y (get a 0) = true).
    { intros y Hy. destruct (In_nth a y d Hy) as (i & Hi & <-). apply heap_ok_root; assumption. }
    destruct (removelast a) as [|top rest'] eqn:Erest.
    - (* one element *)
      split; [rewrite Hsplit at 1; apply Permutation_refl|]. split; [apply heap_ok_nil|constructor].
    - set (rest := top :: rest') in *.
      set (item := last a d) in *.
      assert (Hget : forall i, (i < length rest)%nat -> get a i = get rest i).
      { intros i Hi. unfold hget. rewrite Hsplit. now rewrite app_nth1. }
      assert (Htop : get a 0 = top) by (rewrite Hget; [reflexivity|cbn [rest length]; lia]).
      assert (Hdi : down_inv (hset rest 0 item) 0).
      { pose proof (proj1 (heap_ok_hp a) Hok) as Hhp.
        unfold down_inv. rewrite length_hset. split; [cbn [rest length]; lia|]. split.
        - intros p c Hc Hl Nc Np. unfold child in Hc. rewrite !get_hset.
          destruct (Nat.eqb_spec c 0); [lia|]. destruct (Nat.eqb_spec p 0); [lia|].
          cbn [andb]. rewrite <- !Hget by lia. apply Hhp; unfold child; lia.
        - intros g c Hg. unfold child in Hg. lia. }
      pose proof (sift_down_hole_ok (length (hset rest 0 item)) (hset rest 0 item) 0
                    ltac:(lia) Hdi) as Hsd.
      unfold sift_down_to_bottom.
      destruct (sift_down_hole le d (length (hset rest 0 item)) (hset rest 0 item) 0) as [a' p'].
      destruct Hsd as [Hup Hperm1].
      destruct (sift_up_ok p' a' p' (le_n _) Hup) as [Hok' Hperm2].
      assert (Hperm : Permutation (item :: rest') (sift_up le d p' a' p')).
      { eapply Permutation_trans; [|exact Hperm2]. exact Hperm1. }
      split; [|split].
      + rewrite Hsplit at 1. fold item.
        eapply Permutation_trans; [apply Permutation_sym, Permutation_cons_append|].
        cbn [rest]. eapply Permutation_trans; [apply perm_swap|]. apply perm_skip. exact Hperm.
      + apply heap_ok_hp. exact Hok'.
      + rewrite <- Htop. rewrite Forall_forall. intros y Hy. apply Hroot.
        apply (Permutation_in y (Permutation_sym Hperm)) in Hy.
        rewrite Hsplit. apply in_or_app. destruct Hy as [<-|Hy].
        * right. left. reflexivity.
        * left. right. exact Hy.
  Qed.

  Lemma heap_pop_length : forall (a : list T) x a', heap_ok a ->
    heap_pop le d a = Some (x, a') -> length a = S (length a').
  Proof.
    intros a x a' Hok E. pose proof (heap_pop_ok a Hok) as H. rewrite E in H.
    destruct H as [Hp _]. apply Permutation_length in Hp. exact Hp.
  Qed.

  Definition ge_sorted : list T -> Prop := StronglySorted (fun x y => le y x = true).

  Lemma heap_drain_ok : forall fuel (a : list T), heap_ok a -> (length a <= fuel)%nat ->
    Permutation a (heap_drain le d fuel a) /\ ge_sorted (heap_drain le d fuel a).
  Proof.
    induction fuel as [|f IH]; intros a Hok Hf.
    - destruct a; [|cbn [length] in Hf; lia]. cbn [heap_drain]. split; [constructor|constructor].
    - cbn [heap_drain]. pose proof (heap_pop_ok a Hok) as Hpop.
      destruct (heap_pop le d a) as [[x a']|] eqn:E.
      + destruct Hpop as (Hperm & Hok' & Hall).
        pose proof (heap_pop_length a x a' Hok E) as Hl.
        destruct (IH a' Hok' ltac:(lia)) as [Hp Hs].
        split.
        * eapply Permutation_trans; [exact Hperm|]. apply perm_skip. exact Hp.
        * constructor; [exact Hs|].
          rewrite Forall_forall in *. intros y Hy. apply Hall.
          apply (Permutation_in y (Permutation_sym Hp)). exact Hy.
      + subst a. split; constructor.
  Qed.
End HeapFacts.
