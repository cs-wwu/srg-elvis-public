(* NDL parser model: the nom combinators, the guarded slice/unwrap sites, and the
   pass over the parser stack (Section Stack) of which totality and, in NdlSound,
   well-formedness of what is accepted are instances. *)
From Elvis Require Import Model.Base Model.Ndl.
From Elvis Require Export Proofs.BaseFacts Proofs.ListFacts.
Local Open Scope N_scope.

(* an error, or a value satisfying G: neither a panic nor out of fuel *)
Definition okp {A} (G : A -> Prop) (r : result A) : Prop :=
  match r with Ok a => G a | Err _ => True | _ => False end.

Lemma okp_impl {A} (G G' : A -> Prop) r : (forall a, G a -> G' a) -> okp G r -> okp G' r.
Proof. intros H. destruct r; cbn [okp]; auto. Qed.

(* the way every parser of the stack passes on what a sub-parser returns *)
Lemma okp_match {A B} (G : A -> Prop) (G' : B -> Prop) r (f : A -> result B) (h : Z -> Z) :
  okp G r -> (forall a, G a -> okp G' (f a)) ->
  okp G' match r with Ok a => f a | Err e => Err (h e) | Panic p => Panic p | OutOfFuel => OutOfFuel end.
Proof. destruct r; cbn [okp]; auto. Qed.

Definition err_or_eq {A} (r1 r2 : result A) : Prop :=
  match r1, r2 with Err _, Err _ => True | _, _ => r1 = r2 end.

Lemma err_or_eq_okp {A} (G : A -> Prop) r1 r2 : err_or_eq r1 r2 -> okp G r2 -> okp G r1.
Proof. destruct r1, r2; cbn; intros H; try exact (fun x => x); try discriminate H. injection H as ->. auto. Qed.

Lemma err_or_eq_ok {A} (r1 r2 : result A) a : err_or_eq r1 r2 -> r1 = Ok a <-> r2 = Ok a.
Proof. destruct r1, r2; cbn; intros H; try (rewrite H; tauto); split; discriminate. Qed.

Lemma skipn_len {A} n (s : list A) : (length (skipn n s) <= length s)%nat.
Proof. rewrite skipn_length. lia. Qed.

(* membership in a concrete list is decided by evaluation *)
Lemma notin_forallb (c : N) l : forallb (fun x => negb (x =? c)) l = true -> ~ In c l.
Proof.
  intros H Hi. rewrite forallb_forall in H. specialize (H c Hi). rewrite N.eqb_refl in H. discriminate.
Qed.

Lemma app_nonnil {A} (a b : list A) : b <> [] -> a ++ b <> [].
Proof. destruct a; [auto|discriminate]. Qed.

Lemma text_eqb_spec a b : text_eqb a b = true <-> a = b.
Proof.
  revert b. induction a as [|x a IH]; intros [|y b]; cbn [text_eqb]; split; intros H;
    try reflexivity; try discriminate.
  - apply andb_prop in H. destruct H as [Hx Hr]. apply N.eqb_eq in Hx. apply IH in Hr. congruence.
  - injection H as -> ->. rewrite N.eqb_refl. apply IH. reflexivity.
Qed.

Lemma text_eqb_refl a : text_eqb a a = true.
Proof. apply text_eqb_spec. reflexivity. Qed.

Lemma text_eqb_neq a b : a <> b -> text_eqb a b = false.
Proof.
  intros H. destruct (text_eqb a b) eqn:E; [|reflexivity]. apply text_eqb_spec in E. contradiction.
Qed.

Lemma take_until_split p s a b : take_until p s = Some (a, b) ->
  s = a ++ b /\ (exists r, b = p :: r) /\ ~ In p a.
Proof.
  revert a b. induction s as [|c r IH]; intros a b H; cbn [take_until] in H; [discriminate|].
  destruct (c =? p) eqn:E.
  - injection H as <- <-. apply N.eqb_eq in E. subst. split; [reflexivity|]. split; [eauto|]. intros [].
  - destruct (take_until p r) as [[a' b']|] eqn:T; [|discriminate]. injection H as <- <-.
    destruct (IH _ _ eq_refl) as (-> & Hb & Hn). split; [reflexivity|]. split; [exact Hb|].
    intros [Hc|Hi]; [|exact (Hn Hi)]. subst. rewrite N.eqb_refl in E. discriminate.
Qed.

Lemma take_until_app p a r : ~ In p a -> take_until p (a ++ p :: r) = Some (a, p :: r).
Proof.
  induction a as [|c a IH]; intros Hn; cbn [app take_until].
  - rewrite N.eqb_refl. reflexivity.
  - destruct (c =? p) eqn:E.
    + apply N.eqb_eq in E. subst. exfalso. apply Hn. left. reflexivity.
    + rewrite IH; [reflexivity|]. intros Hi. apply Hn. right. exact Hi.
Qed.

Lemma section_len s c r : section s = Some (c, r) -> (length r < length s)%nat.
Proof.
  unfold section. destruct s as [|x s]; [discriminate|].
  destruct (x =? c_lbr); [|discriminate].
  destruct (take_until c_rbr s) as [[a b]|] eqn:T; [|discriminate].
  destruct b as [|y b]; [discriminate|]. intros H. injection H as <- <-.
  apply take_until_split in T. destruct T as (-> & _ & _).
  cbn [length]. rewrite app_length. cbn [length]. lia.
Qed.

Lemma span_ws_spec s a b : span_ws s = (a, b) ->
  s = a ++ b /\ match b with [] => True | c :: _ => is_ws c = false end.
Proof.
  revert a b. induction s as [|c r IH]; intros a b H; cbn [span_ws] in H.
  - injection H as <- <-. split; [reflexivity|exact I].
  - destruct (is_ws c) eqn:E.
    + destruct (span_ws r) as [a' b'] eqn:E2. injection H as <- <-.
      destruct (IH _ _ eq_refl) as [-> Hh]. split; [reflexivity|exact Hh].
    + injection H as <- <-. split; [reflexivity|exact E].
Qed.

Lemma escaped_app f i v r : escaped f i = Some (v, r) -> i = v ++ r.
Proof.
  remember (length i) as n eqn:Hn. revert f i v r Hn.
  induction n as [n IH] using lt_wf_ind. intros f i v r Hn H.
  destruct i as [|c i]; cbn [escaped] in H.
  - injection H as <- <-. reflexivity.
  - destruct (c =? c_bslash).
    + destruct i as [|d i]; [discriminate|].
      destruct (d =? c_quote); [|discriminate].
      destruct (escaped false i) as [[v' r']|] eqn:E; [|discriminate].
      injection H as <- <-. cbn [length] in Hn.
      rewrite (IH (length i) ltac:(lia) false i v' r' eq_refl E). reflexivity.
    + destruct (c =? c_quote).
      * destruct f; [discriminate|]. injection H as <- <-. reflexivity.
      * destruct (escaped false i) as [[v' r']|] eqn:E; [|discriminate].
        injection H as <- <-. cbn [length] in Hn.
        rewrite (IH (length i) ltac:(lia) false i v' r' eq_refl E). reflexivity.
Qed.

Lemma value_body_app i v r : value_body i = (v, r) -> i = v ++ r.
Proof.
  unfold value_body. destruct (escaped true i) as [[v' r']|] eqn:E; intros H; injection H as <- <-.
  - apply escaped_app in E. exact E.
  - reflexivity.
Qed.

Lemma arg1_len i kv r : arg1 i = Some (kv, r) -> (length r < length i)%nat.
Proof.
  unfold arg1. destruct (span_ws i) as [ws r0] eqn:HS. apply span_ws_spec in HS. destruct HS as [-> _].
  destruct ws as [|w ws]; [discriminate|].
  destruct (take_until c_eq r0) as [[key r2]|] eqn:T; [|discriminate].
  apply take_until_split in T. destruct T as (-> & _ & _).
  destruct r2 as [|e r3]; [discriminate|]. destruct r3 as [|q r4]; [discriminate|].
  destruct (q =? c_quote); [|discriminate].
  destruct (value_body r4) as [v r5] eqn:V. apply value_body_app in V. subst r4.
  destruct r5 as [|q2 r6]; [discriminate|]. destruct (q2 =? c_quote); [|discriminate].
  intros H. injection H as <- <-. repeat (rewrite app_length; cbn [length]). lia.
Qed.

Lemma arguments_total fuel i : (length i < fuel)%nat -> answers (arguments fuel i).
Proof.
  revert i. induction fuel as [|f IH]; intros i Hl; [lia|]. cbn [arguments].
  destruct (arg1 i) as [[kv r]|] eqn:A; [|exact I].
  destruct (Nat.eqb (length r) (length i)); [exact I|].
  apply arg1_len in A. specialize (IH r ltac:(lia)).
  destruct (arguments f r) as [[l r']| | |]; cbn in *; auto.
Qed.

(* the many0 no-progress branch is dead *)
Lemma arguments_no_err fuel i e : arguments fuel i <> Err e.
Proof.
  revert i. induction fuel as [|f IH]; intros i; cbn [arguments]; [discriminate|].
  destruct (arg1 i) as [[kv r]|] eqn:A; [|discriminate].
  apply arg1_len in A. destruct (Nat.eqb (length r) (length i)) eqn:E.
  - apply Nat.eqb_eq in E. lia.
  - specialize (IH r). destruct (arguments f r) as [[l r']| | |]; try discriminate. congruence.
Qed.

Lemma split_bytes_tabs n fuel s : (n <= count_leading c_tab s)%nat -> (n < fuel)%nat ->
  split_bytes fuel (N.of_nat n) s = Some (firstn n s, skipn n s).
Proof.
  revert fuel s. induction n as [|n IH]; intros fuel s Hc Hf.
  - destruct fuel; cbn; reflexivity.
  - destruct fuel as [|f]; [lia|]. destruct s as [|c r]; [cbn in Hc; lia|].
    cbn [count_leading] in Hc. destruct (c =? c_tab) eqn:E; [|lia].
    apply N.eqb_eq in E. subst c. cbn [split_bytes].
    replace (N.of_nat (S n) =? 0) with false by (symmetry; apply N.eqb_neq; lia).
    change (u8len c_tab) with 1.
    replace (1 <=? N.of_nat (S n)) with true by (symmetry; apply N.leb_le; lia).
    replace (N.of_nat (S n) - 1) with (N.of_nat n) by lia.
    rewrite IH by lia. reflexivity.
Qed.

Lemma str_from_tabs n s : (n <= count_leading c_tab s)%nat -> str_from n s = Ok (skipn n s).
Proof.
  intros H. unfold str_from. rewrite split_bytes_tabs by lia. reflexivity.
Qed.

Lemma dectype_eqb_eq a b : dectype_eqb a b = true -> a = b.
Proof. destruct a, b; intros H; try reflexivity; discriminate H. Qed.

Lemma dectype_eqb_neq a b : a <> b -> dectype_eqb a b = false.
Proof. destruct a, b; intros H; try reflexivity; contradiction H; reflexivity. Qed.

Lemma req_remove_some d req : req_contains d req = true -> exists r, req_remove d req = Some r.
Proof.
  induction req as [|x r IH]; cbn [req_contains req_remove]; [discriminate|].
  destruct (dectype_eqb x d); [eauto|]. cbn [orb]. intros H. destruct (IH H) as [r' ->]. eauto.
Qed.

Lemma req_contains_in d req : req_contains d req = true -> In d req.
Proof.
  induction req as [|y r IH]; cbn [req_contains]; [discriminate|]. intros H.
  apply orb_prop in H. destruct H as [H|H]; [left; exact (dectype_eqb_eq _ _ H)|right; exact (IH H)].
Qed.

Lemma req_remove_forall (R : dectype -> Prop) d req req' :
  req_remove d req = Some req' -> Forall R req -> Forall R req'.
Proof.
  revert req'. induction req as [|y r IH]; intros req' H Hall; cbn [req_remove] in H; [discriminate|].
  inversion Hall as [|? ? Hy Hr]. subst. destruct (dectype_eqb y d).
  - injection H as <-. exact Hr.
  - destruct (req_remove d r) as [r'|] eqn:E; [|discriminate]. injection H as <-.
    constructor; [exact Hy|exact (IH _ eq_refl Hr)].
Qed.

Lemma req_remove_other d req req' x : req_remove d req = Some req' -> x <> d ->
  req_contains x req' = false -> req_contains x req = false.
Proof.
  revert req'. induction req as [|y r IH]; intros req' H Hx Hc; cbn [req_remove] in H; [discriminate|].
  cbn [req_contains]. destruct (dectype_eqb y d) eqn:E.
  - injection H as <-. apply dectype_eqb_eq in E. subst y. rewrite Hc.
    rewrite dectype_eqb_neq by (intros Hq; apply Hx; symmetry; exact Hq). reflexivity.
  - destruct (req_remove d r) as [r'|] eqn:E2; [|discriminate]. injection H as <-.
    cbn [req_contains] in Hc. apply orb_false_elim in Hc. destruct Hc as [H1 H2].
    rewrite H1. cbn [orb]. exact (IH _ eq_refl Hx H2).
Qed.

Lemma has_id_in k m : has_id k m = true <-> In k (map fst m).
Proof.
  induction m as [|[k' n] m IH]; cbn [has_id map fst In].
  - split; [discriminate|intros []].
  - destruct (text_eqb k k') eqn:E; cbn [orb].
    + apply text_eqb_spec in E. subst. split; auto.
    + rewrite IH. split; [auto|]. intros [Hk|Hi]; [|exact Hi]. subst.
      rewrite text_eqb_refl in E. discriminate.
Qed.

Lemma has_id_fresh id n acc : NoDup (map fst acc) ->
  has_id id acc = false -> NoDup (map fst (acc ++ [(id, n)])).
Proof.
  intros Hnd Hh. rewrite map_app. cbn [map fst]. apply NoDup_snoc; [exact Hnd|].
  intros Hi. apply has_id_in in Hi. congruence.
Qed.

Lemma nodup_has_id id n acc l : NoDup (map fst (acc ++ (id, n) :: l)) -> has_id id acc = false.
Proof.
  intros Hnd. destruct (has_id id acc) eqn:E; [|reflexivity]. apply has_id_in in E.
  rewrite map_app in Hnd. apply NoDup_remove_2 in Hnd. exfalso. apply Hnd, in_or_app. left. exact E.
Qed.

Lemma get_type_alt_total tags i : answers (get_type_alt tags i).
Proof.
  induction tags as [|d ts IH]; cbn [get_type_alt]; [exact I|].
  destruct (kw (tag_name d) i); [exact I|exact IH].
Qed.

Lemma get_type_total i : answers (get_type i).
Proof. apply get_type_alt_total. Qed.

Local Open Scope Z_scope.

Lemma general_parser_good gt s ln : (forall i, answers (gt i)) ->
  okp (fun '(_, _, rem, _) => (length rem < length s)%nat) (general_parser gt s ln).
Proof.
  intros gt_total. unfold general_parser. destruct (section s) as [[content rem]|] eqn:HS; [|exact I].
  apply section_len in HS. specialize (gt_total content).
  destruct (gt content) as [[ty r]| | |]; try contradiction; [|exact I].
  pose proof (arguments_total (S (length r)) r ltac:(lia)) as Ha.
  destruct (arguments (S (length r)) r) as [[args r2]| | |]; try contradiction; [|exact I].
  destruct (negb (is_nil r2)); [exact I|].
  destruct (negb (dupcheck [] args)); [exact I|].
  pose proof (skipn_len (count_leading c_nl rem) rem). cbn. lia.
Qed.

(* [network_loop] is [items_loop] for IP lines, up to the line number in one error *)
Lemma network_loop_items gt f : forall nt l0 acc s ln,
  err_or_eq (network_loop gt f nt l0 acc s ln) (items_loop gt f IP nt l0 acc s ln).
Proof.
  induction f as [|f IH]; intros nt l0 acc s ln; cbn [network_loop items_loop]; [reflexivity|].
  destruct (is_nil s); [reflexivity|].
  destruct (str_from nt s) as [s1| | |]; [|exact I|reflexivity|reflexivity].
  destruct (general_parser gt s1 ln) as [[[[ty o] rem] ln1]| | |]; [|exact I|reflexivity|reflexivity].
  destruct (negb (dectype_eqb ty IP)); [exact I|].
  destruct (Nat.ltb (count_leading c_tab rem) nt); [reflexivity|].
  destruct (Nat.ltb nt (count_leading c_tab rem)); [exact I|]. apply IH.
Qed.

Lemma network_loop_of_items gt f nt l0 acc s ln x :
  items_loop gt f IP nt l0 acc s ln = Ok x -> network_loop gt f nt l0 acc s ln = Ok x.
Proof. apply err_or_eq_ok, network_loop_items. Qed.

Section Stack.
  Variable gt : text -> result (dectype * text).
  Variable P : text -> Prop.      (* known of the text still to be read *)
  Variable Q : params -> Prop.    (* known of the arguments of an accepted line *)

  Definition line_ok (s : text) : dectype * params * text * Z -> Prop :=
    fun '(_, args, rem, _) => P rem /\ (length rem < length s)%nat /\ Q args.

  Hypothesis P_skipn : forall n s, P s -> P (skipn n s).
  Hypothesis gp_ok : forall s ln, P s -> okp (line_ok s) (general_parser gt s ln).

  (* what a loop started on s returns: a value with G, and a rest no longer than s *)
  Definition rest_ok {A} (s : text) (G : A -> Prop) : A * text * Z -> Prop :=
    fun '(a, rem, _) => P rem /\ (length rem <= length s)%nat /\ G a.

  Lemma rest_ok_impl {A} (G G' : A -> Prop) s s' r : okp (rest_ok s' G') r ->
    (length s' <= length s)%nat -> (forall a, G' a -> G a) -> okp (rest_ok s G) r.
  Proof.
    intros Hr Hl H. revert Hr. apply okp_impl. intros [[a rem] ln] (Hp & Hr & Hg).
    split; [exact Hp|]. split; [lia|exact (H a Hg)].
  Qed.

  (* the head of every loop but core_loop: cut the indentation (the caller has
     counted the tabs), read one line, pass a line error on with its line number *)
  Lemma okp_line {B} (G : B -> Prop) nt l0 s ln (k : dectype * params * text * Z -> result B) :
    P s -> (nt <= count_leading c_tab s)%nat -> (forall x, line_ok s x -> okp G (k x)) ->
    okp G match str_from nt s with
          | Ok s1 => match general_parser gt s1 ln with
                     | Ok x => k x
                     | Err e => Err (wrapline l0 e) | Panic p => Panic p | OutOfFuel => OutOfFuel
                     end
          | Err e => Err e | Panic p => Panic p | OutOfFuel => OutOfFuel
          end.
  Proof.
    intros Hs Ht Hk. rewrite (str_from_tabs _ _ Ht).
    apply (okp_match _ _ _ _ _ (gp_ok _ ln (P_skipn nt s Hs))).
    intros [[[ty args] rem] ln1] (Hr & Hl & Hq). apply Hk.
    pose proof (skipn_len nt s). split; [exact Hr|]. split; [lia|exact Hq].
  Qed.

  (* pitem .. psim of NdlFile, with Q in the place of pargs *)
  Definition qitem (ty : dectype) (i : item) : Prop := it_ty i = ty /\ Q (it_opts i).
  Definition qnetwork (kn : text * network) : Prop :=
    net_ty (snd kn) = Network /\ Q (net_opts (snd kn)) /\
    lookup k_id (net_opts (snd kn)) = Some (fst kn) /\
    net_ips (snd kn) <> [] /\ Forall (qitem IP) (net_ips (snd kn)).
  Definition qmachine (m : machine) : Prop :=
    m_ty m = Machine /\ Q (m_opts m) /\
    m_nets m <> [] /\ Forall (qitem Network) (m_nets m) /\
    m_protos m <> [] /\ Forall (qitem Protocol) (m_protos m) /\
    m_apps m <> [] /\ Forall (qitem Application) (m_apps m).
  Definition qsim (s : sim) : Prop :=
    Forall qnetwork (s_networks s) /\ NoDup (map fst (s_networks s)) /\ Forall qmachine (s_machines s).

  Lemma items_loop_ok fuel expect nt l0 : forall acc s ln,
    (length s < fuel)%nat -> P s -> (s = [] \/ nt <= count_leading c_tab s)%nat ->
    Forall (qitem expect) acc ->
    okp (rest_ok s (fun l => Forall (qitem expect) l /\ (s <> [] \/ acc <> [] -> l <> [])))
        (items_loop gt fuel expect nt l0 acc s ln).
  Proof.
    induction fuel as [|f IH]; intros acc s ln Hf Hs Ht Hacc; [lia|]. cbn [items_loop].
    destruct (is_nil s) eqn:En.
    - destruct s; [|discriminate]. cbn. repeat split; auto. intros [H|H]; [contradiction|exact H].
    - destruct Ht as [->|Ht]; [discriminate|].
      apply okp_line; [exact Hs|exact Ht|]. intros [[[ty opts] rem] ln1] (Hr & Hl & Hq).
      destruct (negb (dectype_eqb ty expect)) eqn:Et; [exact I|].
      apply negb_false_iff, dectype_eqb_eq in Et. subst ty.
      assert (Hacc' : Forall (qitem expect) (acc ++ [{| it_ty := expect; it_opts := opts |}])).
      { apply Forall_app. split; [exact Hacc|]. repeat constructor. exact Hq. }
      destruct (Nat.ltb (count_leading c_tab rem) nt) eqn:E1.
      + cbn. repeat split; auto; [lia|]. intros _. apply app_nonnil. discriminate.
      + destruct (Nat.ltb nt (count_leading c_tab rem)); [exact I|]. apply Nat.ltb_ge in E1.
        eapply rest_ok_impl; [apply (IH _ rem ln1); [lia|exact Hr|right; exact E1|exact Hacc']|lia|].
        intros l [Hc Hd]. split; [exact Hc|]. intros _. apply Hd. right. apply app_nonnil. discriminate.
  Qed.

  Lemma network_loop_ok fuel nt l0 acc s ln :
    (length s < fuel)%nat -> P s -> (s = [] \/ nt <= count_leading c_tab s)%nat ->
    Forall (qitem IP) acc ->
    okp (rest_ok s (fun l => Forall (qitem IP) l /\ (s <> [] \/ acc <> [] -> l <> [])))
        (network_loop gt fuel nt l0 acc s ln).
  Proof.
    intros Hf Hs Ht Hacc. apply (err_or_eq_okp _ _ _ (network_loop_items gt fuel nt l0 acc s ln)).
    apply items_loop_ok; assumption.
  Qed.

  Lemma tabs_nonnil (s : text) nt : count_leading c_tab s = S nt -> s <> [].
  Proof. destruct s; discriminate. Qed.

  Lemma items_parser_ok expect s nt ln : P s ->
    okp (rest_ok s (fun l => Forall (qitem expect) l /\ l <> []))
        (items_parser gt expect s (S nt) ln).
  Proof.
    intros Hs. unfold items_parser.
    destruct (negb (Nat.eqb (count_leading c_tab s) (S nt))) eqn:E; [exact I|].
    apply negb_false_iff, Nat.eqb_eq in E.
    eapply rest_ok_impl; [apply (items_loop_ok _ expect (S nt) (ln - 1) [] s ln); [lia|exact Hs|right; lia|constructor]
                         |lia|].
    intros l [Hall Hne]. split; [exact Hall|]. apply Hne. left. exact (tabs_nonnil _ _ E).
  Qed.

  Lemma network_parser_ok opts s nt ln : P s ->
    okp (rest_ok s (fun net => forall id, Q opts -> lookup k_id opts = Some id -> qnetwork (id, net)))
        (network_parser gt Network opts s (S nt) ln).
  Proof.
    intros Hs. unfold network_parser.
    destruct (negb (Nat.eqb (count_leading c_tab s) (S nt))) eqn:E; [exact I|].
    apply negb_false_iff, Nat.eqb_eq in E.
    assert (Ht : (s = [] \/ S nt <= count_leading c_tab s)%nat) by (right; lia).
    apply (okp_match _ _ _ _ (fun e => e)
             (network_loop_ok _ (S nt) (ln - 1) [] s ln (Nat.lt_succ_diag_r _) Hs Ht (Forall_nil _))).
    intros [[ips rem] ln'] (Hr & Hl & Hall & Hne). split; [exact Hr|]. split; [exact Hl|].
    intros id Hq Hid. repeat split; auto. apply Hne. left. exact (tabs_nonnil _ _ E).
  Qed.

  Lemma networks_loop_ok fuel nt l0 : forall acc s ln,
    (length s < fuel)%nat -> P s -> Forall qnetwork acc -> NoDup (map fst acc) ->
    okp (rest_ok s (fun l => Forall qnetwork l /\ NoDup (map fst l)))
        (networks_loop gt fuel nt l0 acc s ln).
  Proof.
    induction fuel as [|f IH]; intros acc s ln Hf Hs Hacc Hnd; [lia|]. cbn [networks_loop].
    destruct (is_nil s); [cbn; auto|].
    destruct (Nat.ltb (count_leading c_tab s) nt) eqn:E1; [cbn; auto|].
    destruct (Nat.ltb nt (count_leading c_tab s)); [exact I|]. apply Nat.ltb_ge in E1.
    apply okp_line; [exact Hs|exact E1|]. intros [[[ty opts] rem] ln1] (Hr & Hl & Hq).
    destruct (dectype_eqb ty Network) eqn:Et; [|exact I]. apply dectype_eqb_eq in Et. subst ty.
    apply (okp_match _ _ _ _ (fun e => e) (network_parser_ok opts rem nt ln1 Hr)).
    intros [[net rem2] ln2] (Hr2 & Hl2 & Hnet).
    destruct (lookup k_id opts) as [id|] eqn:Hid; [|exact I].
    destruct (has_id id acc) eqn:Hh; [exact I|].
    eapply rest_ok_impl; [apply (IH (acc ++ [(id, net)]) rem2 ln2); [lia|exact Hr2| |]|lia|auto].
    - apply Forall_app. split; [exact Hacc|]. constructor; [exact (Hnet id Hq eq_refl)|constructor].
    - exact (has_id_fresh id net acc Hnd Hh).
  Qed.

  Definition three (d : dectype) : Prop := d = Networks \/ d = Protocols \/ d = Applications.

  (* the state of machine_loop: the lists of the sections already seen are
     non-empty and hold items of the right kind *)
  Definition minv : list dectype * list item * list item * list item -> Prop :=
    fun '(req, nets, protos, apps) =>
    Forall three req /\
    Forall (qitem Network) nets /\ Forall (qitem Protocol) protos /\ Forall (qitem Application) apps /\
    (req_contains Networks req = false -> nets <> []) /\
    (req_contains Protocols req = false -> protos <> []) /\
    (req_contains Applications req = false -> apps <> []).

  Lemma minv_step req req' n p a ty its :
    minv (req, n, p, a) -> req_contains ty req = true -> req_remove ty req = Some req' ->
    Forall (qitem (item_type_of ty)) its -> its <> [] ->
    minv (req', match ty with Networks => n ++ its | _ => n end,
                match ty with Protocols => p ++ its | _ => p end,
                match ty with Networks | Protocols => a | _ => a ++ its end).
  Proof.
    intros (H3 & Hn & Hp & Ha & Nn & Np & Na) Ec Er Hits Hne.
    assert (Hty : three ty) by (apply req_contains_in in Ec; rewrite Forall_forall in H3; exact (H3 _ Ec)).
    pose proof (req_remove_forall _ _ _ _ Er H3) as H3'.
    pose proof (fun x => req_remove_other _ _ _ x Er) as Ho.
    pose proof (fun l : list item => app_nonnil l its Hne) as Happ.
    destruct Hty as [->|[->| ->]]; cbn [item_type_of] in Hits; repeat split;
      try assumption; try (apply Forall_app; split; assumption); try (intros _; apply Happ).
    - intros Hc. apply Np, Ho; [discriminate|exact Hc].
    - intros Hc. apply Na, Ho; [discriminate|exact Hc].
    - intros Hc. apply Nn, Ho; [discriminate|exact Hc].
    - intros Hc. apply Na, Ho; [discriminate|exact Hc].
    - intros Hc. apply Nn, Ho; [discriminate|exact Hc].
    - intros Hc. apply Np, Ho; [discriminate|exact Hc].
  Qed.

  Lemma machine_loop_ok fuel nt l0 : forall req nets protos apps s ln,
    (length s < fuel)%nat -> P s -> minv (req, nets, protos, apps) ->
    okp (rest_ok s minv) (machine_loop gt fuel nt l0 req nets protos apps s ln).
  Proof.
    induction fuel as [|f IH]; intros req nets protos apps s ln Hf Hs Hinv; [lia|]. cbn [machine_loop].
    destruct (is_nil s); [cbn; auto|].
    destruct (Nat.ltb (count_leading c_tab s) nt) eqn:E1; [cbn; auto|].
    destruct (Nat.ltb nt (count_leading c_tab s)); [exact I|]. apply Nat.ltb_ge in E1.
    apply okp_line; [exact Hs|exact E1|]. intros [[[ty opts] rem] ln1] (Hr & Hl & _).
    destruct (req_contains ty req) eqn:Ec; [|exact I].
    destruct (req_remove_some _ _ Ec) as [req1 Er]. rewrite Er.
    apply (okp_match _ _ _ _ _ (items_parser_ok (item_type_of ty) rem nt ln1 Hr)).
    intros [[its rem2] ln2] (Hr2 & Hl2 & Hits & Hne).
    pose proof (minv_step _ _ _ _ _ _ _ Hinv Ec Er Hits Hne) as Hinv'.
    assert (K : forall a b c, minv (req1, a, b, c) ->
              okp (rest_ok s minv) (machine_loop gt f nt l0 req1 a b c rem2 ln2)).
    { intros a b c Hi. eapply rest_ok_impl; [apply IH; [lia|exact Hr2|exact Hi]|lia|auto]. }
    destruct ty; apply K; exact Hinv'.
  Qed.

  Lemma machine_parser_ok opts s nt ln : P s -> Q opts ->
    okp (rest_ok s qmachine) (machine_parser gt opts s nt ln).
  Proof.
    intros Hs Hq. unfold machine_parser.
    assert (Hi : minv ([Networks; Protocols; Applications], [], [], [])).
    { repeat split; try constructor; try discriminate; unfold three; auto. }
    apply (okp_match _ _ _ _ (fun e => e)
             (machine_loop_ok _ nt (ln - 1) _ _ _ _ s ln (Nat.lt_succ_diag_r _) Hs Hi)).
    intros [[[[[req n] p] a] rem] ln'] (Hr & Hl & (_ & Hn & Hp & Ha & Nn & Np & Na)).
    destruct req; [|exact I]. cbn. repeat split; auto.
  Qed.

  Lemma machines_loop_ok fuel nt l0 : forall acc s ln,
    (length s < fuel)%nat -> P s -> Forall qmachine acc ->
    okp (rest_ok s (Forall qmachine)) (machines_loop gt fuel nt l0 acc s ln).
  Proof.
    induction fuel as [|f IH]; intros acc s ln Hf Hs Hacc; [lia|]. cbn [machines_loop].
    destruct (is_nil s); [cbn; auto|].
    destruct (Nat.ltb (count_leading c_tab s) nt) eqn:E1; [cbn; auto|].
    destruct (Nat.ltb nt (count_leading c_tab s)); [exact I|]. apply Nat.ltb_ge in E1.
    apply okp_line; [exact Hs|exact E1|]. intros [[[ty opts] rem] ln1] (Hr & Hl & Hq).
    destruct (dectype_eqb ty Machine); [|exact I].
    apply (okp_match _ _ _ _ (fun e => e) (machine_parser_ok opts rem (S nt) ln1 Hr Hq)).
    intros [[m rem2] ln2] (Hr2 & Hl2 & Hm).
    eapply rest_ok_impl; [apply (IH (acc ++ [m]) rem2 ln2); [lia|exact Hr2|]|lia|auto].
    apply Forall_app. split; [exact Hacc|]. constructor; [exact Hm|constructor].
  Qed.

  Lemma merge_networks_ok new : forall acc res, merge_networks acc new = Some res ->
    Forall qnetwork acc -> NoDup (map fst acc) -> Forall qnetwork new ->
    Forall qnetwork res /\ NoDup (map fst res).
  Proof.
    induction new as [|[id n] new IH]; intros acc res H Hacc Hnd Hnew; cbn [merge_networks] in H.
    - injection H as <-. split; assumption.
    - destruct (has_id id acc) eqn:E; [discriminate|]. inversion Hnew as [|? ? Hx Hr]. subst.
      apply (IH _ _ H); [|exact (has_id_fresh id n acc Hnd E)|exact Hr].
      apply Forall_app. split; [exact Hacc|]. constructor; [exact Hx|constructor].
  Qed.

  Lemma core_loop_ok fuel : forall nets ms s ln,
    (length s < fuel)%nat -> P s ->
    Forall qnetwork nets -> NoDup (map fst nets) -> Forall qmachine ms ->
    okp qsim (core_loop gt fuel nets ms s ln).
  Proof.
    induction fuel as [|f IH]; intros nets ms s ln Hf Hs Hn Hnd Hm; [lia|]. cbn [core_loop].
    destruct (is_nil s); [repeat split; assumption|].
    apply (okp_match _ _ _ _ (fun e => e) (gp_ok s ln Hs)).
    intros [[[ty opts] rem] ln1] (Hr & Hl & _). destruct ty; try exact I.
    - apply IH; [lia|assumption..].
    - apply (okp_match _ _ _ _ (fun e => e)
               (networks_loop_ok _ 1 (ln1 - 1) [] rem ln1 (Nat.lt_succ_diag_r _) Hr (Forall_nil _) (NoDup_nil _))).
      intros [[new rem2] ln2] (Hr2 & Hl2 & Hnew & _).
      destruct (merge_networks nets new) as [nets'|] eqn:M; [|exact I].
      destruct (merge_networks_ok _ _ _ M Hn Hnd Hnew) as [Hn' Hnd'].
      apply IH; [lia|assumption..].
    - apply (okp_match _ _ _ _ (fun e => e)
               (machines_loop_ok _ 1 (ln1 - 1) [] rem ln1 (Nat.lt_succ_diag_r _) Hr (Forall_nil _))).
      intros [[new rem2] ln2] (Hr2 & Hl2 & Hnew).
      apply IH; [lia|assumption..|]. apply Forall_app. split; assumption.
  Qed.
End Stack.

Section Mono.
  Variables Q Q' : params -> Prop.
  Hypothesis HQ : forall a, Q a -> Q' a.

  Lemma qitem_impl ty i : qitem Q ty i -> qitem Q' ty i.
  Proof. intros [Ht Hq]. split; [exact Ht|exact (HQ _ Hq)]. Qed.

  Lemma qsim_impl s : qsim Q s -> qsim Q' s.
  Proof.
    pose proof (fun ty => Forall_impl _ (qitem_impl ty)) as Hi.
    intros (Hn & Hnd & Hm). split; [|split; [exact Hnd|]].
    - eapply Forall_impl; [|exact Hn]. intros kn (H1 & H2 & H3 & H4 & H5). repeat split; auto.
    - eapply Forall_impl; [|exact Hm]. intros m (H1 & H2 & H3 & H4 & H5 & H6 & H7 & H8).
      repeat split; auto.
  Qed.
End Mono.

Lemma core_parse_gen_total gt txt : (forall i, answers (gt i)) -> answers (core_parse_gen gt txt).
Proof.
  intros Hgt. unfold core_parse_gen.
  apply (okp_impl (qsim (fun _ => True)) _ _ (fun _ _ => I)).
  apply (core_loop_ok gt (fun _ => True) (fun _ => True)); [auto| |lia|exact I|constructor..].
  intros s ln _. generalize (general_parser_good gt s ln Hgt). apply okp_impl.
  intros [[[ty args] rem] ln1] H. cbn. auto.
Qed.

(* C14 (NDL part), repaired parser *)
Lemma core_parse_total txt : answers (core_parse txt).
Proof. apply core_parse_gen_total. exact get_type_total. Qed.

Lemma core_parse_never_out_of_fuel txt : core_parse txt <> OutOfFuel.
Proof. intros H. pose proof (core_parse_total txt) as T. rewrite H in T. exact T. Qed.

(* the unchanged tree: two independent panics *)
Local Open Scope N_scope.
Definition witness_iptype : text := [91; 73; 80; 116; 121; 112; 101; 93].           (* "[IPtype]" *)
Definition witness_kelvin : text := [91; 78; 101; 116; 119; 111; 114; 8490; 93].   (* "[Networ\u{212A}]" *)
