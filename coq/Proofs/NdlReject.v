(* NDL parser model: wf_sim (the descriptions that survive rendering and parsing), the round
   trip of core_parse over all renderings, and rejection of structural errors.  Each rejection lemma has one loop of the
   parser stack positioned at a line (any accumulated state, fuel, line number, tail);
   the *_peel lemmas of NdlFile bring the parser there behind a well-formed prefix. *)
From Elvis Require Import Model.Base Model.Ndl Proofs.NdlFacts Proofs.NdlRound Proofs.NdlFile
  Proofs.NdlRewrite.
Local Open Scope Z_scope.

Definition wf_sim (s : sim) : Prop := psim s /\ csim s.

Definition is_err {A} (r : result A) : Prop := exists e, r = Err e.

(* whatever makes general_parser fail on the line at the head (duplicate
   argument, unknown type word, broken brackets/quotes): every loop stops with Err *)
Section HeadFails.
  Variable s : text.
  Variable nt : nat.
  Variable ln e : Z.
  Hypothesis Hnil : is_nil s = false.
  Hypothesis Htabs : count_leading c_tab s = nt.
  Hypothesis Hgp : general_parser get_type (skipn nt s) ln = Err e.

  Lemma str_from_head : str_from nt s = Ok (skipn nt s).
  Proof. apply str_from_tabs. lia. Qed.

  Lemma items_loop_head_fails f expect l0 acc :
    items_loop get_type (S f) expect nt l0 acc s ln = Err (wrapline l0 e).
  Proof. cbn [items_loop]. rewrite Hnil, str_from_head, Hgp. reflexivity. Qed.

  Lemma network_loop_head_fails f l0 acc :
    network_loop get_type (S f) nt l0 acc s ln = Err (wrapline l0 e).
  Proof. cbn [network_loop]. rewrite Hnil, str_from_head, Hgp. reflexivity. Qed.

  Lemma networks_loop_head_fails f l0 acc :
    networks_loop get_type (S f) nt l0 acc s ln = Err (wrapline l0 e).
  Proof.
    cbn [networks_loop]. rewrite Hnil, Htabs, Nat.ltb_irrefl, str_from_head, Hgp. reflexivity.
  Qed.

  Lemma machines_loop_head_fails f l0 acc :
    machines_loop get_type (S f) nt l0 acc s ln = Err (wrapline l0 e).
  Proof.
    cbn [machines_loop]. rewrite Hnil, Htabs, Nat.ltb_irrefl, str_from_head, Hgp. reflexivity.
  Qed.

  Lemma machine_loop_head_fails f l0 req a b c :
    machine_loop get_type (S f) nt l0 req a b c s ln = Err (wrapline l0 e).
  Proof.
    cbn [machine_loop]. rewrite Hnil, Htabs, Nat.ltb_irrefl, str_from_head, Hgp. reflexivity.
  Qed.

End HeadFails.

Lemma core_loop_head_fails f nets ms s ln e :
  is_nil s = false -> general_parser get_type s ln = Err e ->
  core_loop get_type (S f) nets ms s ln = Err e.
Proof. intros Hn Hg. cbn [core_loop]. rewrite Hn, Hg. reflexivity. Qed.

Lemma tabs_deeper nt t : (nt < t)%nat -> Nat.ltb t nt = false /\ Nat.ltb nt t = true.
Proof. intros H. split; [apply Nat.ltb_ge; lia|apply Nat.ltb_lt; exact H]. Qed.

Lemma networks_loop_too_deep f nt l0 acc s ln :
  is_nil s = false -> (nt < count_leading c_tab s)%nat ->
  networks_loop get_type (S f) nt l0 acc s ln = Err (ecode E_TABCOUNT ln).
Proof.
  intros Hn Hc. apply tabs_deeper in Hc as [H1 H2]. cbn [networks_loop]. rewrite Hn, H1, H2. reflexivity.
Qed.

Lemma machines_loop_too_deep f nt l0 acc s ln :
  is_nil s = false -> (nt < count_leading c_tab s)%nat ->
  machines_loop get_type (S f) nt l0 acc s ln = Err (ecode E_TABCOUNT ln).
Proof.
  intros Hn Hc. apply tabs_deeper in Hc as [H1 H2]. cbn [machines_loop]. rewrite Hn, H1, H2. reflexivity.
Qed.

Lemma machine_loop_too_deep f nt l0 req a b c s ln :
  is_nil s = false -> (nt < count_leading c_tab s)%nat ->
  machine_loop get_type (S f) nt l0 req a b c s ln = Err (ecode E_TABCOUNT ln).
Proof.
  intros Hn Hc. apply tabs_deeper in Hc as [H1 H2]. cbn [machine_loop]. rewrite Hn, H1, H2. reflexivity.
Qed.

Lemma items_loop_child_too_deep f expect nt l0 acc i tail ln :
  pitem expect i -> not_nl_head tail -> (nt < count_leading c_tab tail)%nat ->
  items_loop get_type (S f) expect nt l0 acc (render_item nt i ++ tail) ln
  = Err (ecode E_TABCOUNT (ln + 1)).
Proof.
  intros Hi Ht Hc. apply tabs_deeper in Hc as [H1 H2].
  rewrite (items_loop_step f expect nt l0 acc i tail ln Hi Ht), H1, H2. reflexivity.
Qed.

Lemma network_loop_child_too_deep f nt l0 acc i tail ln :
  pitem IP i -> not_nl_head tail -> (nt < count_leading c_tab tail)%nat ->
  network_loop get_type (S f) nt l0 acc (render_item nt i ++ tail) ln
  = Err (ecode E_TABCOUNT (ln + 1)).
Proof.
  intros Hi Ht Hc. apply tabs_deeper in Hc as [H1 H2].
  rewrite (network_loop_step f nt l0 acc i tail ln Hi Ht), H1, H2. reflexivity.
Qed.

Lemma items_parser_empty expect s nt ln :
  count_leading c_tab s <> nt -> items_parser get_type expect s nt ln = Err (ecode E_FORMAT (-1)).
Proof.
  intros H. unfold items_parser. apply Nat.eqb_neq in H. rewrite H. reflexivity.
Qed.

Lemma network_parser_empty dec args s nt ln :
  count_leading c_tab s <> nt -> network_parser get_type dec args s nt ln = Err (ecode E_TABSGOT ln).
Proof.
  intros H. unfold network_parser. apply Nat.eqb_neq in H. rewrite H. reflexivity.
Qed.

Lemma networks_loop_wrong_type f l0 acc n d a tail ln :
  d <> Network -> pargs a -> not_nl_head tail ->
  networks_loop get_type (S f) n l0 acc (render_line n d a ++ tail) ln = Err (ecode E_EXPECTED (ln + 1)).
Proof.
  intros Hd Ha Ht. cbn [networks_loop].
  rewrite line_is_nil, line_count, Nat.ltb_irrefl, line_str_from, (gp_line _ _ _ _ Ha Ht).
  rewrite (dectype_eqb_neq _ _ Hd). reflexivity.
Qed.

Lemma machines_loop_wrong_type f l0 acc n d a tail ln :
  d <> Machine -> pargs a -> not_nl_head tail ->
  machines_loop get_type (S f) n l0 acc (render_line n d a ++ tail) ln = Err (ecode E_EXPECTED (ln + 1)).
Proof.
  intros Hd Ha Ht. cbn [machines_loop].
  rewrite line_is_nil, line_count, Nat.ltb_irrefl, line_str_from, (gp_line _ _ _ _ Ha Ht).
  rewrite (dectype_eqb_neq _ _ Hd). reflexivity.
Qed.

Lemma network_loop_wrong_type f l0 acc n d a tail ln :
  d <> IP -> pargs a -> not_nl_head tail ->
  network_loop get_type (S f) n l0 acc (render_line n d a ++ tail) ln = Err (ecode E_EXPECTED ln).
Proof.
  intros Hd Ha Ht. cbn [network_loop].
  rewrite line_is_nil, line_str_from, (gp_line _ _ _ _ Ha Ht).
  rewrite (dectype_eqb_neq _ _ Hd). reflexivity.
Qed.

Lemma items_loop_wrong_type f expect l0 acc n d a tail ln :
  d <> expect -> pargs a -> not_nl_head tail ->
  items_loop get_type (S f) expect n l0 acc (render_line n d a ++ tail) ln = Err (ecode E_EXPECTED ln).
Proof.
  intros Hd Ha Ht. cbn [items_loop].
  rewrite line_is_nil, line_str_from, (gp_line _ _ _ _ Ha Ht).
  rewrite (dectype_eqb_neq _ _ Hd). cbn [negb]. f_equal. f_equal. lia.
Qed.

(* in a machine: a line that is not one of the still-missing sections
   (a second [Protocols], an item without its section header, ...) *)
Lemma machine_loop_unexpected f l0 req x y z n d a tail ln :
  req_contains d req = false -> pargs a -> not_nl_head tail ->
  machine_loop get_type (S f) n l0 req x y z (render_line n d a ++ tail) ln
  = Err (ecode E_UNEXPECTED ln).
Proof.
  intros Hd Ha Ht. cbn [machine_loop].
  rewrite line_is_nil, line_count, Nat.ltb_irrefl, line_str_from, (gp_line _ _ _ _ Ha Ht), Hd.
  f_equal. f_equal. lia.
Qed.

Lemma core_loop_cannot_declare f nets ms d a tail ln :
  d <> Template -> d <> Networks -> d <> Machines -> pargs a -> not_nl_head tail ->
  core_loop get_type (S f) nets ms (render_line 0 d a ++ tail) ln = Err (ecode E_CANNOT ln).
Proof.
  intros H1 H2 H3 Ha Ht. cbn [core_loop].
  rewrite line_is_nil, render_line0, (gp_line _ _ _ _ Ha Ht).
  destruct d; try contradiction; f_equal; f_equal; lia.
Qed.

Lemma machine_parser_missing args s ln req x y z rem ln' :
  machine_loop get_type (S (length s)) 2 (ln - 1) [Networks; Protocols; Applications] [] [] [] s ln
    = Ok (req, x, y, z, rem, ln') ->
  req <> [] -> machine_parser get_type args s 2 ln = Err (ecode E_REQUIRED (ln - 1)).
Proof.
  intros H Hr. unfold machine_parser. rewrite H. destruct req; [contradiction|]. reflexivity.
Qed.

(* canonical instances: a machine body with one of the three sections left out, followed by
   anything shallower *)
Definition msec (sec : dectype) (its : list item) : text :=
  render_line 2 sec [] ++ flat_map (render_item 3) its.

Lemma machine_missing_one args sec1 its1 sec2 its2 rest ln :
  (sec1, sec2) = (Networks, Protocols) \/ (sec1, sec2) = (Networks, Applications) \/
  (sec1, sec2) = (Protocols, Applications) ->
  its1 <> [] -> Forall (pitem (item_type_of sec1)) its1 ->
  its2 <> [] -> Forall (pitem (item_type_of sec2)) its2 ->
  (count_leading c_tab rest < 2)%nat -> not_nl_head rest ->
  machine_parser get_type args (msec sec1 its1 ++ msec sec2 its2 ++ rest) 2 ln
  = Err (ecode E_REQUIRED (ln - 1)).
Proof.
  intros Hs N1 F1 N2 F2 Hc Ht.
  (* the bookkeeping of the required sections: one of them is left *)
  assert (E : exists r1 r2, r2 <> [] /\ three sec1 /\ three sec2 /\
            req_contains sec1 [Networks; Protocols; Applications] = true /\
            req_remove sec1 [Networks; Protocols; Applications] = Some r1 /\
            req_contains sec2 r1 = true /\ req_remove sec2 r1 = Some r2).
  { unfold three. destruct Hs as [Hs|[Hs|Hs]]; injection Hs as -> ->;
      [exists [Protocols; Applications], [Applications]|exists [Protocols; Applications], [Protocols]
      |exists [Networks; Applications], [Networks]]; repeat split; auto; discriminate. }
  destruct E as (r1 & r2 & Hne & T1 & T2 & C1 & R1 & C2 & R2).
  unfold machine_parser, msec. repeat rewrite <- app_assoc.
  set (fuel := S (length _)).
  assert (Hfuel : (3 <= fuel)%nat).
  { unfold fuel. repeat rewrite app_length.
    pose proof (line_len 2 sec1 []). pose proof (line_len 2 sec2 []). lia. }
  destruct fuel as [|[|[|f]]]; try lia.
  set (t2 := render_line 2 sec2 [] ++ (flat_map (render_item 3) its2 ++ rest)).
  assert (C2' : (count_leading c_tab t2 < 3)%nat) by (unfold t2; rewrite line_count; lia).
  rewrite (machine_loop_step _ (ln - 1) _ r1 [] [] [] sec1 its1 t2 ln T1 C1 R1 N1 F1 C2' (line_not_nl _ _ _ _)).
  unfold t2.
  rewrite (machine_loop_step _ (ln - 1) r1 r2 _ _ _ sec2 its2 rest _ T2 C2 R2 N2 F2 ltac:(lia) Ht).
  rewrite machine_loop_exit by (try exact Hc; lia). destruct r2; [contradiction|reflexivity].
Qed.

Lemma machine_missing_all args rest ln : (count_leading c_tab rest < 2)%nat ->
  machine_parser get_type args rest 2 ln = Err (ecode E_REQUIRED (ln - 1)).
Proof.
  intros Hc. unfold machine_parser. rewrite machine_loop_exit by (try exact Hc; lia). reflexivity.
Qed.

(* the parser sees a text only through [rewrite] *)
Lemma core_parse_rewritten t s : psim s -> rewrite t = render s -> core_parse t = Ok s.
Proof.
  intros Hp Hr. unfold core_parse, core_parse_gen. rewrite Hr.
  apply core_loop_render; [exact Hp|].
  unfold render. repeat rewrite app_length.
  pose proof (line_len 0 Networks []). pose proof (line_len 0 Machines []). lia.
Qed.

Lemma core_parse_crlf t : core_parse (crlf t) = core_parse t.
Proof.
  unfold core_parse, core_parse_gen. rewrite rewrite_crlf. reflexivity.
Qed.

Lemma core_parse_renderings s : wf_sim s ->
  core_parse (render s) = Ok s /\ core_parse (render4 s) = Ok s /\
  core_parse (crlf (render s)) = Ok s /\ core_parse (crlf (render4 s)) = Ok s.
Proof.
  intros H. repeat rewrite core_parse_crlf.
  pose proof (core_parse_rewritten _ s (proj1 H) (rewrite_render s (proj2 H))).
  pose proof (core_parse_rewritten _ s (proj1 H) (rewrite_render4 s (proj2 H))). auto.
Qed.
