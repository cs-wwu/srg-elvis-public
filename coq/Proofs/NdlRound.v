(* NDL parser model: well-formedness of descriptions, parsing a rendered line (C19_line),
   the duplicate-argument and unknown-type rejections at line level. *)
From Elvis Require Import Model.Base Model.Ndl Proofs.NdlFacts.
Local Open Scope N_scope.

(* a value in the only form the argument grammar can carry: ordinary characters,
   and the two-character sequence backslash quote (which is stored as is: the
   parser never removes the backslash) *)
Inductive wf_val : text -> Prop :=
| wfv_nil : wf_val []
| wfv_normal c r : c <> c_bslash -> c <> c_quote -> wf_val r -> wf_val (c :: r)
| wfv_esc r : wf_val r -> wf_val (c_bslash :: c_quote :: r).

Definition head_not_ws (k : text) : Prop :=
  match k with [] => True | c :: _ => is_ws c = false end.

(* what parsing needs *)
Definition pkey (k : text) : Prop := ~ In c_eq k /\ ~ In c_rbr k /\ head_not_ws k.
Definition pval (v : text) : Prop := wf_val v /\ ~ In c_rbr v.
Definition parg (kv : text * text) : Prop := pkey (fst kv) /\ pval (snd kv).

(* what the global rewrites need: no CR, no run of four spaces *)
Fixpoint norun4 (k : nat) (s : text) : bool :=
  match s with
  | [] => true
  | c :: r => if c =? c_sp then Nat.ltb k 3 && norun4 (S k) r else norun4 0 r
  end.
Definition clean (s : text) : Prop := ~ In c_cr s /\ norun4 0 s = true.
Definition carg (kv : text * text) : Prop := clean (fst kv) /\ clean (snd kv).

Definition wf_args (a : params) : Prop :=
  Forall parg a /\ Forall carg a /\ NoDup (map fst a).

Lemma count_leading_repeat p k rest :
  match rest with [] => True | c :: _ => c <> p end -> count_leading p (repeat p k ++ rest) = k.
Proof.
  intros H. induction k as [|k IH]; cbn [repeat app count_leading].
  - destruct rest as [|c r]; [reflexivity|].
    cbn [count_leading]. destruct (c =? p) eqn:E; [|reflexivity]. apply N.eqb_eq in E. contradiction.
  - rewrite N.eqb_refl, IH. reflexivity.
Qed.

Lemma skipn_repeat (p : N) k rest : skipn k (repeat p k ++ rest) = rest.
Proof. induction k as [|k IH]; cbn [repeat app skipn]; [reflexivity|exact IH]. Qed.

Lemma get_type_render d rest :
  (rest = [] \/ exists r, rest = c_sp :: r) -> get_type (render_name d ++ rest) = Ok (d, rest).
Proof.
  intros [->|[r ->]]; destruct d; reflexivity.
Qed.

Lemma span_ws_head c r : is_ws c = false -> span_ws (c :: r) = ([], c :: r).
Proof. intros H. cbn [span_ws]. rewrite H. reflexivity. Qed.

Lemma escaped_wf v : wf_val v -> forall f rest, (v <> [] \/ f = false) ->
  escaped f (v ++ c_quote :: rest) = Some (v, c_quote :: rest).
Proof.
  induction 1 as [|c r Hb Hq Hr IH|r Hr IH]; intros f rest Hf.
  - destruct Hf as [Hf| ->]; [contradiction|]. reflexivity.
  - cbn [app escaped]. apply N.eqb_neq in Hb, Hq. rewrite Hb, Hq.
    rewrite IH by (right; reflexivity). reflexivity.
  - cbn [app escaped]. change (c_bslash =? c_bslash) with true. change (c_quote =? c_quote) with true.
    cbn iota. rewrite IH by (right; reflexivity). reflexivity.
Qed.

Lemma value_body_wf v rest : wf_val v -> value_body (v ++ c_quote :: rest) = (v, c_quote :: rest).
Proof.
  intros H. unfold value_body. destruct v as [|c r].
  - reflexivity.
  - rewrite escaped_wf; [reflexivity|exact H|left; discriminate].
Qed.

Lemma render_arg_app k v rest :
  render_arg (k, v) ++ rest = c_sp :: k ++ c_eq :: c_quote :: v ++ c_quote :: rest.
Proof.
  unfold render_arg. cbn [fst snd]. cbn [app]. f_equal.
  rewrite <- app_assoc. cbn [app]. rewrite <- app_assoc. reflexivity.
Qed.

Lemma arg1_render k v rest : pkey k -> pval v ->
  arg1 (render_arg (k, v) ++ rest) = Some ((k, v), rest).
Proof.
  intros (Heq & _ & Hws) (Hv & _). rewrite render_arg_app. unfold arg1.
  cbn [span_ws]. change (is_ws c_sp) with true. cbn iota.
  assert (Hs : span_ws (k ++ c_eq :: c_quote :: v ++ c_quote :: rest)
               = ([], k ++ c_eq :: c_quote :: v ++ c_quote :: rest)).
  { destruct k as [|c k']; cbn [app]; apply span_ws_head; [reflexivity|exact Hws]. }
  rewrite Hs.
  rewrite (take_until_app c_eq k _ Heq).
  change (c_quote =? c_quote) with true. cbn iota.
  rewrite (value_body_wf v rest Hv). change (c_quote =? c_quote) with true. reflexivity.
Qed.

Lemma render_arg_len kv : (1 <= length (render_arg kv))%nat.
Proof. unfold render_arg. cbn [length]. lia. Qed.

Lemma render_args_len a : (length a <= length (render_args a))%nat.
Proof.
  induction a as [|kv a IH]; [cbn; lia|]. unfold render_args. cbn [flat_map]. fold (render_args a).
  rewrite app_length. pose proof (render_arg_len kv). cbn [length]. lia.
Qed.

Lemma arguments_render a : Forall parg a -> forall fuel, (length a < fuel)%nat ->
  arguments fuel (render_args a) = Ok (a, []).
Proof.
  induction 1 as [|[k v] a [Hk Hv] Ha IH]; intros fuel Hf; (destruct fuel as [|f]; [lia|]).
  - reflexivity.
  - unfold render_args. cbn [flat_map arguments]. fold (render_args a).
    rewrite (arg1_render k v (render_args a) Hk Hv).
    replace (Nat.eqb (length (render_args a)) (length (render_arg (k, v) ++ render_args a))) with false.
    + cbn [length] in Hf. rewrite IH by lia. reflexivity.
    + symmetry. apply Nat.eqb_neq. rewrite app_length. pose proof (render_arg_len (k, v)). lia.
Qed.

Lemma has_key_in k m : has_key k m = true <-> In k (map fst m).
Proof.
  unfold has_key. induction m as [|[k' v] m IH]; cbn [lookup map fst In].
  - split; [discriminate|intros []].
  - destruct (text_eqb k k') eqn:E.
    + apply text_eqb_spec in E. subst. split; auto.
    + rewrite IH. split; [auto|]. intros [Hk|Hi]; [|exact Hi]. subst.
      rewrite text_eqb_refl in E. discriminate.
Qed.

Lemma dupcheck_spec l : forall seen,
  dupcheck seen l = true <->
  (NoDup (map fst l) /\ forall k, In k (map fst l) -> ~ In k (map fst seen)).
Proof.
  induction l as [|[k v] l IH]; intros seen; cbn [dupcheck map fst].
  - split; [|reflexivity]. intros _. split; [constructor|intros k []].
  - destruct (has_key k seen) eqn:E.
    + split; [discriminate|]. intros [_ Hs]. apply has_key_in in E.
      exfalso. apply (Hs k); [left; reflexivity|exact E].
    + rewrite IH. cbn [map fst]. split.
      * intros [Hn Hs]. split.
        -- constructor; [|exact Hn]. intros Hi. apply (Hs k Hi). left. reflexivity.
        -- intros k0 [<-|Hi] Hin.
           ++ apply has_key_in in Hin. congruence.
           ++ apply (Hs k0 Hi). right. exact Hin.
      * intros [Hn Hs]. inversion Hn as [|? ? Hk Hn']. subst. split; [exact Hn'|].
        intros k0 Hi [<-|Hin]; [contradiction|]. apply (Hs k0); [right; exact Hi|exact Hin].
Qed.

Lemma dupcheck_nodup l : dupcheck [] l = true <-> NoDup (map fst l).
Proof. rewrite dupcheck_spec. split; [intros [H _]; exact H|]. intros H. split; [exact H|]. intros k _ []. Qed.

Lemma render_name_no_rbr d : ~ In c_rbr (render_name d).
Proof. destruct d; apply notin_forallb; reflexivity. Qed.

Lemma render_args_notin c a : c <> c_sp -> c <> c_eq -> c <> c_quote ->
  Forall (fun kv => ~ In c (fst kv) /\ ~ In c (snd kv)) a -> ~ In c (render_args a).
Proof.
  intros H1 H2 H3. induction 1 as [|[k v] a [Hk Hv] Ha IH]; [intros []|].
  unfold render_args. cbn [flat_map]. fold (render_args a). apply not_in_app; [|exact IH].
  unfold render_arg. cbn [fst snd] in *.
  change (~ In c ([c_sp] ++ k ++ [c_eq; c_quote] ++ v ++ [c_quote])).
  repeat apply not_in_app; try assumption; intros H; repeat (destruct H as [H|H]; [congruence|]); exact H.
Qed.

Lemma render_args_no_rbr a : Forall parg a -> ~ In c_rbr (render_args a).
Proof.
  intros H. apply render_args_notin; try discriminate. eapply Forall_impl; [|exact H].
  intros kv [(_ & Hk & _) (_ & Hv)]. split; assumption.
Qed.

Lemma section_render d a rem : Forall parg a ->
  section (render_sec d a ++ rem) = Some (render_name d ++ render_args a, rem).
Proof.
  intros Ha. unfold render_sec, section. cbn [app]. change (c_lbr =? c_lbr) with true. cbn iota.
  replace ((render_name d ++ render_args a ++ [c_rbr]) ++ rem)
    with ((render_name d ++ render_args a) ++ c_rbr :: rem)
    by (repeat rewrite <- app_assoc; reflexivity).
  rewrite take_until_app; [reflexivity|].
  apply not_in_app; [apply render_name_no_rbr|apply render_args_no_rbr; exact Ha].
Qed.

Lemma render_args_head a : render_args a = [] \/ exists r, render_args a = c_sp :: r.
Proof. destruct a as [|kv a]; [left; reflexivity|right]. unfold render_args. cbn [flat_map render_arg app]. eauto. Qed.

Local Open Scope Z_scope.

Definition not_nl_head (rest : text) : Prop :=
  match rest with [] => True | c :: _ => c <> c_nl end.

(* a rendered section, whatever follows: only the duplicate check is left open *)
Lemma general_parser_render_sec d a rem ln : Forall parg a ->
  general_parser get_type (render_sec d a ++ rem) ln =
  if dupcheck [] a
  then Ok (d, a, skipn (count_leading c_nl rem) rem, ln + Z.of_nat (count_leading c_nl rem))
  else Err (ecode E_DUPARG ln).
Proof.
  intros Ha. unfold general_parser. rewrite (section_render d a _ Ha).
  rewrite (get_type_render d _ (render_args_head a)).
  rewrite (arguments_render a Ha) by (pose proof (render_args_len a); lia).
  cbn [is_nil negb]. destruct (dupcheck [] a); reflexivity.
Qed.

Lemma general_parser_render d a k rest ln :
  Forall parg a -> NoDup (map fst a) -> not_nl_head rest ->
  general_parser get_type (render_sec d a ++ repeat c_nl k ++ rest) ln
  = Ok (d, a, rest, ln + Z.of_nat k).
Proof.
  intros Ha Hn Hr. rewrite (general_parser_render_sec d a _ ln Ha).
  apply dupcheck_nodup in Hn. rewrite Hn.
  rewrite (count_leading_repeat c_nl k rest Hr), skipn_repeat. reflexivity.
Qed.

(* a section whose content starts with no known type word *)
Definition unknown_type (content : text) : Prop := forall d, kw (tag_name d) content = None.

Lemma get_type_unknown content : unknown_type content -> get_type content = Err E_DECTYPE.
Proof.
  intros H. unfold get_type, tags_fixed. cbn [get_type_alt].
  rewrite (H Template), (H Networks), (H Network), (H IP), (H Machines), (H Machine),
    (H Protocols), (H Protocol), (H Applications), (H Application). reflexivity.
Qed.

Lemma general_parser_unknown content rem ln : ~ In c_rbr content -> unknown_type content ->
  general_parser get_type (c_lbr :: content ++ c_rbr :: rem) ln = Err (ecode E_DECTYPE (-1)).
Proof.
  intros Hn Hu. unfold general_parser, section. change (c_lbr =? c_lbr)%N with true. cbn iota.
  rewrite take_until_app by exact Hn. rewrite (get_type_unknown _ Hu). reflexivity.
Qed.
