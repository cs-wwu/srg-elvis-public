(* C17: what arbitrary well-formed segments can and cannot do to one endpoint of
   Model/Tcb.v.  Single-endpoint no-crash lives in TcbInv.v (apply_op_ok, run_ops_rule); this
   file has the inertness of unacceptable segments, the reading of is_seq_ok as an interval
   test, the send-window bound of segments(), the second invariant InvR (what is in flight
   stays inside the window) with one lemma per operation, the no-crash theorem of the closed
   two-endpoint system under forged segments, and the witnesses of the remarks. *)
From Elvis Require Import Model.Base Model.U32 Model.Tcb Model.TcpNet Proofs.U32Facts Proofs.ListFacts Proofs.TcbSafetyBase Proofs.TcpNetStep Proofs.TcbEdges Proofs.TcbInv.
From Coq Require Import Relations Permutation.
Local Open Scope Z_scope.

(* the two classes of the property text.  (Until fix commit bbbdf8a3 CLOSING had
   to be left out of the first one: the code skipped the sequence check there.) *)
Definition unacceptable (t : tcb) (s : segment) : Prop :=
  (st t <> SynSent /\
   is_seq_ok t (zlen (s_text s)) (h_seq (s_hdr s)) (c_syn (h_ctl (s_hdr s))) (c_fin (h_ctl (s_hdr s))) = false)
  \/ (st t = SynSent /\ c_syn (h_ctl (s_hdr s)) = false /\ c_rst (h_ctl (s_hdr s)) = false).

(* the only trace an unacceptable segment leaves: at most one text-less reply
   (the ACK of RFC 9293 3.10.7.4 first / the RST of 3.10.7.3 first) in the
   one-shot output queue *)
Definition reply_only (t : tcb) (s : segment) (t' : tcb) : Prop :=
  t' = t \/ t' = set_oneshot t (oneshot t ++ [ack_hdr t]) \/
  t' = set_oneshot t (oneshot t ++ [rst_hdr t (h_ack (s_hdr s))]).

Lemma process_segment_unacceptable t s : unacceptable t s ->
  exists t' r, process_segment t s = Ok (t', r) /\ should_delete r = false /\ reply_only t s t'.
Proof.
  unfold unacceptable, reply_only. intros [(Hn1 & Hbad)|(Est & Hsyn & Hrst)].
  - unfold process_segment. rewrite Hbad. cbn [negb].
    exists (enqueue t (ack_hdr t)), PDiscard.
    split; [destruct (st t); try reflexivity; congruence|].
    split; [reflexivity|]. right. left. apply enqueue_plain; reflexivity.
  - rewrite (process_segment_synsent _ _ Est).
    assert (Hps : forall t2, st t2 = SynSent ->
       exists t' r, ps_tail t2 s = Ok (t', r) /\ should_delete r = false /\ t' = t2).
    { intros t2 E2. unfold ps_tail, ps_rst. rewrite Hrst. cbn [negb].
      rewrite (ps_syn_nosyn _ _ Hsyn), E2. cbn [state_eqb]. eauto. }
    unfold ps_ack. rewrite Est.
    destruct (c_ack (h_ctl (s_hdr s))); cbn [negb].
    2:{ destruct (Hps t Est) as (t' & r & -> & Hd & ->). eauto 6. }
    destruct (mod_bounded (snd_nxt t) _ _ _ _).
    { rewrite Hrst. do 2 eexists. split; [reflexivity|]. split; [reflexivity|].
      right. right. apply enqueue_plain; reflexivity. }
    destruct (mod_bounded (snd_una t) _ _ _ _).
    + rewrite Hsyn. destruct (Hps t Est) as (t' & r & -> & Hd & ->). eauto 6.
    + do 2 eexists. split; [reflexivity|]. split; [reflexivity|].
      right. right. apply enqueue_plain; reflexivity.
Qed.

(* what reply_only keeps: everything but the one-shot queue *)
Definition same_but_oneshot (t t' : tcb) : Prop :=
  st t' = st t /\ in_text t' = in_text t /\ rcv_nxt t' = rcv_nxt t /\ rcv_irs t' = rcv_irs t /\
  rcv_wnd t' = rcv_wnd t /\ snd_una t' = snd_una t /\ snd_nxt t' = snd_nxt t /\ snd_wnd t' = snd_wnd t /\
  snd_wl1 t' = snd_wl1 t /\ snd_wl2 t' = snd_wl2 t /\ snd_iss t' = snd_iss t /\
  out_text t' = out_text t /\ retx t' = retx t /\ fin_pending t' = fin_pending t /\
  rto t' = rto t /\ time_wait t' = time_wait t /\ mtu t' = mtu t.

Lemma reply_only_same t s t' : reply_only t s t' -> same_but_oneshot t t' /\ in_segs t' = in_segs t.
Proof. intros [ -> | [ -> | -> ] ]; unfold same_but_oneshot; tsimpl; repeat split. Qed.

(* ... and for segment_arrives when nothing is waiting in the heap: the segment
   is either answered at once or (if it lies ahead of RCV.NXT) left in the heap;
   the connection is never closed *)
Lemma unacceptable_inert_arrives t s : in_segs t = [] -> unacceptable t s ->
  exists t', segment_arrives t s = Ok (t', AOk) /\ same_but_oneshot t t' /\
    ((in_segs t' = [] /\ reply_only t s t') \/ (t' = set_in_segs t [s] /\ st t <> SynSent /\
       mod_gt (h_seq (s_hdr s)) (rcv_nxt t) = true)).
Proof.
  intros He Hu. rewrite (segment_arrives_empty_heap _ _ He).
  destruct (negb (state_eqb (st t) SynSent) && mod_gt (h_seq (s_hdr s)) (rcv_nxt t)) eqn:Eq.
  - eexists. split; [reflexivity|]. split; [unfold same_but_oneshot; tsimpl; repeat split|].
    right. apply andb_true_iff in Eq. destruct Eq as [E1 E2]. repeat split; auto.
    intros C. rewrite C in E1. discriminate E1.
  - destruct (process_segment_unacceptable t s Hu) as (t' & r & -> & Hd & Hr).
    cbn [lift_ps]. rewrite Hd. eexists. split; [reflexivity|].
    destruct (reply_only_same _ _ _ Hr) as [H1 H2]. split; [assumption|].
    left. split; [congruence|assumption].
Qed.

(* CLOSING.  Before fix commit bbbdf8a3 the code skipped the sequence check in
   CLOSING (RFC 9293 3.10.7.4 applies it there): a segment entirely outside the
   receive window that acknowledged our FIN moved CLOSING to TIME-WAIT, and a RST
   with any sequence number deleted the TCB.  The former witness (ISS 100, peer's
   RCV.NXT 501, our FIN seq 101 in flight, forged segments at seq = RCV.NXT + 2^31)
   is kept, now as an instance of the inertness theorem. *)
Definition closing_tcb : tcb :=
  mkTcb 1000 80 1500 false Closing 101 102 65535 500 101 100 500 502 DEFAULT_WND
        [] [mkTx (mkSeg (hb_wnd (hb_ack (hb_fin (mkHdr 1000 80 101 0 ctl0 0 0)) 501) DEFAULT_WND) []) false]
        [] false [] [] RTO None.
Definition far_ack : segment :=
  mkSeg (mkHdr 80 1000 (502 + H31) 102 (mkCtl false true false false false false) 65535 0) [].
Definition far_rst : segment :=
  mkSeg (mkHdr 80 1000 (502 + H31) 0 (mkCtl false false false true false false) 0 0) [].

Lemma closing_witness_wf : Inv closing_tcb /\ wf_seg far_ack /\ wf_seg far_rst.
Proof.
  split.
  { constructor; cbn; unfold u16, u32, M32, SPACE_FOR_HEADERS, DEFAULT_WND, RTO, tw_ok; try lia;
      repeat constructor; cbn; unfold u16, u32, M32, MAXTEXT, zlen; cbn; lia. }
  split; repeat split; cbn; unfold u16, u32, M32, H31, MAXTEXT, zlen; cbn; lia.
Qed.

Lemma closing_far_unacceptable : unacceptable closing_tcb far_ack /\ unacceptable closing_tcb far_rst.
Proof. split; left; (split; [discriminate|]); vm_compute; reflexivity. Qed.

(* ... and, computed: the state stays CLOSING, nothing is deleted *)
Lemma closing_now_inert :
  match segment_arrives closing_tcb far_ack, segment_arrives closing_tcb far_rst with
  | Ok (t1, AOk), Ok (t2, AOk) => st t1 = Closing /\ st t2 = Closing
  | _, _ => False
  end.
Proof. vm_compute. split; reflexivity. Qed.

(* is_seq_ok = false  <->  the segment lies entirely outside
   [RCV.NXT-1, RCV.NXT+RCV.WND)   (lower bound relaxed by one as in the
   seq-validation revision cited at tcb.rs l.757; in_window in TcbInv.v).
   A segment of length L occupies L sequence numbers; an empty segment is
   tested on its own seq (RFC 9293 Table 6) *)
Definition entirely_outside (t : tcb) (seq L : Z) : Prop :=
  forall k, 0 <= k < Z.max 1 L -> ~ in_window t (wadd seq k).

Lemma in_window_bool t n : u32 n -> 0 <= rcv_wnd t <= 65535 ->
  is_in_rcv_window t n = true <-> in_window t n.
Proof.
  intros Hn Hw. rewrite is_in_rcv_window_spec by assumption. unfold in_window. lia.
Qed.

Lemma outside_not_ok t len seq syn fin : 0 < rcv_wnd t <= 65535 -> u32 seq -> 0 <= len ->
  entirely_outside t seq (len + b2z fin + b2z syn) -> is_seq_ok t len seq syn fin = false.
Proof.
  intros Hw Hs Hl Hout. unfold is_seq_ok.
  set (L := len + b2z fin + b2z syn) in *.
  assert (HL : 0 <= L) by (subst L; destruct fin, syn; cbn [b2z]; lia).
  assert (E1 : (rcv_wnd t =? 0) = false) by lia. rewrite E1.
  assert (H0 : is_in_rcv_window t seq = false).
  { destruct (is_in_rcv_window t seq) eqn:E; [|reflexivity].
    exfalso. apply (Hout 0); [lia|]. rewrite wadd_0_u32 by assumption.
    apply in_window_bool; [assumption|lia|assumption]. }
  destruct (L =? 0) eqn:E0; [exact H0|]. rewrite H0. cbn [orb].
  destruct (is_in_rcv_window t (wsub (wadd seq L) 1)) eqn:E; [|reflexivity].
  exfalso. apply (Hout (L - 1)); [lia|].
  apply in_window_bool in E; [|apply wsub_u32|lia].
  replace (wadd seq (L - 1)) with (wsub (wadd seq L) 1) by (u32_unfold; lia). exact E.
Qed.

(* the converse needs the segment not to be longer than the window (it cannot
   straddle it); true of every well-formed segment, MAXTEXT + 2 <= 65536 *)
Lemma not_ok_outside t len seq syn fin : 0 < rcv_wnd t <= 65535 -> u32 seq -> 0 <= len ->
  len + b2z fin + b2z syn <= rcv_wnd t + 1 ->
  is_seq_ok t len seq syn fin = false -> entirely_outside t seq (len + b2z fin + b2z syn).
Proof.
  intros Hw Hs Hl. unfold is_seq_ok.
  set (L := len + b2z fin + b2z syn) in *.
  assert (HL : 0 <= L) by (subst L; destruct fin, syn; cbn [b2z]; lia).
  intros HLw.
  assert (E1 : (rcv_wnd t =? 0) = false) by lia. rewrite E1.
  rewrite !is_in_rcv_window_spec by (try assumption; try apply wsub_u32; lia).
  unfold entirely_outside, in_window.
  destruct (L =? 0) eqn:E0.
  - intros H k Hk. assert (k = 0) by lia. subst k. rewrite wadd_0_u32 by assumption. lia.
  - intros H k Hk. apply orb_false_iff in H. destruct H as [Ha Hb].
    clearbody L. clear E0 E1. revert Ha Hb. u32_unfold. intros Ha Hb. lia.
Qed.

(* the segment ends at or before the right edge of the window in force *)
Definition within_snd_window (una wnd : Z) (s : segment) : Prop :=
  wsub (wadd (h_seq (s_hdr s)) (zlen (s_text s))) una <= wnd.

(* the retransmission queue only grows at its end, by segments that need transmission and,
   if they carry text, end inside the send window in force *)
Definition grows_in_window (a b : tcb) : Prop :=
  snd_una b = snd_una a /\ snd_wnd b = snd_wnd a /\
  exists news, retx b = retx a ++ news /\
    Forall (fun tx => t_needs tx = true /\
       (s_text (t_seg tx) <> [] -> within_snd_window (snd_una a) (snd_wnd a) (t_seg tx))) news.

Lemma seg_mid_window t0 t1 : seg_mid t0 = Ok t1 -> grows_in_window t0 t1.
Proof.
  apply (seg_mid_ind grows_in_window).
  - intros a. repeat split. exists []. rewrite app_nil_r. split; [reflexivity|constructor].
  - intros a b c (U1 & U2 & n1 & E1 & F1) (V1 & V2 & n2 & E2 & F2).
    repeat split; [congruence|congruence|]. exists (n1 ++ n2).
    split; [rewrite E2, E1, app_assoc; reflexivity|].
    apply Forall_app. split; [exact F1|]. rewrite U1, U2 in F2. exact F2.
  - intros t mss Hmss Hpos _. unfold seg_step. cbv zeta. repeat split. tsimpl.
    eexists. split; [reflexivity|]. constructor; [|constructor]. tsimpl. split; [reflexivity|]. intros _.
    unfold within_snd_window. tsimpl.
    pose proof (zlen_firstn_le (seg_bytes t mss) (out_text t)) as Hlen.
    pose proof (zlen_nonneg (firstn (Z.to_nat (seg_bytes t mss)) (out_text t))) as Hlen0.
    set (len := zlen (firstn (Z.to_nat (seg_bytes t mss)) (out_text t))) in *.
    assert (Hb : 0 < seg_bytes t mss <= snd_wnd t - wsub (snd_nxt t) (snd_una t)) by (unfold seg_bytes in *; lia).
    set (bytes := seg_bytes t mss) in *. clearbody len bytes. revert Hb. u32_unfold. intros Hb. lia.
  - intros t. unfold queue_pending_fin. destruct (_ && _).
    2:{ repeat split. exists []. rewrite app_nil_r. split; [reflexivity|constructor]. }
    tsimpl.
    match goal with |- context [enqueue ?a ?hh] => destruct (enqueue_same_snd a hh) as (F1 & F2 & _) end.
    unfold grows_in_window. tsimpl. rewrite F1, F2. repeat split.
    unfold enqueue. tsimpl. eexists. split; [reflexivity|]. constructor; [|constructor]. tsimpl.
    split; [reflexivity|]. intros C. exfalso. apply C. reflexivity.
Qed.

(* what segments() emits: the one-shot headers, the retransmissions that were
   already due, then the segments formed by this very call - and every one of
   the latter that carries text ends inside the send window *)
Lemma tcb_segments_window t t' segs : tcb_segments t = Ok (t', segs) ->
  snd_una t' = snd_una t /\ snd_wnd t' = snd_wnd t /\
  exists news,
    segs = map (fun h => mkSeg h []) (oneshot t) ++ map t_seg (filter t_needs (retx t)) ++ news /\
    Forall (fun s => s_text s <> [] -> within_snd_window (snd_una t') (snd_wnd t') s) news.
Proof.
  rewrite tcb_segments_unfold.
  destruct (seg_mid (set_oneshot t [])) as [t1| | |] eqn:E1; try discriminate. intros [= <- <-].
  destruct (seg_mid_window _ _ E1) as (U1 & U2 & news & U4 & HF). tsimpl.
  assert (G : snd_una (seg_finish t1) = snd_una t1 /\ snd_wnd (seg_finish t1) = snd_wnd t1)
    by (apply (seg_finish_cases (fun a b => snd_una b = snd_una a /\ snd_wnd b = snd_wnd a)); split; reflexivity).
  destruct G as [G1 G2]. rewrite G1, G2, U1, U2. repeat split.
  exists (map t_seg news). split.
  - rewrite U4, filter_app, map_app. rewrite (filter_all t_needs news); [reflexivity|].
    intros tx Hin. apply (proj1 (Forall_forall _ _) HF tx Hin).
  - clear U4. induction HF as [|tx l [A B] _ IH]; cbn [map]; constructor; auto.
Qed.

(* the reading asked for by the property: "new" = carries text and starts at or
   after the SND.NXT the call found.  It needs that nothing already queued for
   retransmission starts at or after SND.NXT: *)
Definition old_behind (t : tcb) : Prop :=
  Forall (fun tx => s_text (t_seg tx) <> [] -> mod_geq (h_seq (s_hdr (t_seg tx))) (snd_nxt t) = false) (retx t).

Lemma tcb_segments_window_seq t t' segs : old_behind t ->
  tcb_segments t = Ok (t', segs) ->
  forall s, In s segs -> s_text s <> [] -> mod_geq (h_seq (s_hdr s)) (snd_nxt t) = true ->
    within_snd_window (snd_una t') (snd_wnd t') s.
Proof.
  intros Hold H s Hin Htext Hgeq.
  destruct (tcb_segments_window _ _ _ H) as (_ & _ & news & -> & HF).
  apply in_app_or in Hin. destruct Hin as [Hin|Hin].
  { apply in_map_iff in Hin. destruct Hin as (h & <- & _). exfalso. apply Htext. reflexivity. }
  apply in_app_or in Hin. destruct Hin as [Hin|Hin].
  - apply in_map_iff in Hin. destruct Hin as (tx & <- & Hin).
    apply filter_In in Hin. destruct Hin as [Hin _].
    unfold old_behind in Hold. rewrite Forall_forall in Hold.
    rewrite (Hold tx Hin Htext) in Hgeq. discriminate Hgeq.
  - rewrite Forall_forall in HF. apply HF; assumption.
Qed.

(* old_behind is an invariant: InvR.  It says where the retransmission queue
   lies relative to SND.UNA / SND.NXT and survives arbitrary segments.       *)
Definition pre_fin (s : state) : bool :=
  match s with SynSent | SynReceived | Established | CloseWait => true | _ => false end.
Definition flight (t : tcb) : Z := wsub (snd_nxt t) (snd_una t).
(* our FIN not yet in the sequence space *)
Definition fin_unsent (t : tcb) : bool := pre_fin (st t) || fin_pending t.
Definition data_bound (t : tcb) : Z := if fin_unsent t then 65535 else 65536.

(* a queued segment ends in (SND.UNA, SND.NXT]; while text is queued the flight
   is at most the largest window (+1 for our FIN) *)
Definition tx_ok (t : tcb) (tx : transmit) : Prop :=
  let s := t_seg tx in
  0 < wsub (wadd (h_seq (s_hdr s)) (seg_len s)) (snd_una t) <= flight t /\
  (s_text s <> [] -> flight t <= data_bound t).

Record RCore (t : tcb) : Prop := mkRCore {
  r_inv : Inv t;
  r_retx : Forall (tx_ok t) (retx t);
  (* an ACK exactly 2^31 ahead of SND.UNA = SND.NXT is taken as valid
     (ack_antipode below), hence 2^31 and not 65536 *)
  r_flight : flight t <= H31 + (if fin_unsent t then 0 else 1);
  r_finp : fin_pending t = true -> pre_fin (st t) = false }.
Definition RSyn (t : tcb) : Prop :=
  st t = SynSent -> snd_una t = snd_iss t /\ 0 < flight t <= 65535.
Definition InvR (t : tcb) : Prop := RCore t /\ RSyn t.

(* RCore looks only at these *)
Lemma RCore_frame t t' : RCore t -> Inv t' ->
  retx t' = retx t -> snd_una t' = snd_una t -> snd_nxt t' = snd_nxt t ->
  pre_fin (st t') = pre_fin (st t) -> fin_pending t' = fin_pending t -> RCore t'.
Proof.
  intros [H1 H2 H3 H4] HI Er Eu En Es Ef.
  assert (Efl : flight t' = flight t) by (unfold flight; rewrite Eu, En; reflexivity).
  assert (Efu : fin_unsent t' = fin_unsent t) by (unfold fin_unsent; rewrite Es, Ef; reflexivity).
  constructor; [assumption| | |].
  - rewrite Er. eapply Forall_impl; [|exact H2]. intros tx. unfold tx_ok, data_bound.
    rewrite Efl, Efu, Eu. auto.
  - rewrite Efl, Efu. assumption.
  - rewrite Ef, Es. assumption.
Qed.

Lemma ack_accept una nxt ack : u32 una -> u32 nxt -> u32 ack ->
  mod_leq ack una = false -> mod_gt ack nxt = false ->
  (0 < wsub ack una <= wsub nxt una /\ wsub nxt ack = wsub nxt una - wsub ack una) \/
  (wsub nxt una = 0 /\ wsub ack una = H31 /\ wsub nxt ack = H31).
Proof. u32_unfold. intros Hu Hn Ha H1 H2. lia. Qed.

Lemma ack_entry una nxt ack e : u32 una -> u32 nxt -> u32 ack -> u32 e ->
  0 < wsub ack una <= wsub nxt una -> wsub ack una <= H31 ->
  0 < wsub e una <= wsub nxt una -> mod_lt ack e = true ->
  0 < wsub e ack <= wsub nxt una - wsub ack una.
Proof. u32_unfold. intros Hu Hn Ha He H1 H1' H2 H3. lia. Qed.

Lemma ack_accept_le una ack : mod_leq ack una = false -> wsub ack una <= H31.
Proof. u32_unfold. intros H. lia. Qed.

(* SND.UNA := ack, acknowledged segments leave the queue *)
Lemma advance_una t ack : RCore t -> u32 ack ->
  ((0 < wsub ack (snd_una t) <= flight t /\ wsub ack (snd_una t) <= H31 /\
    wsub (snd_nxt t) ack = flight t - wsub ack (snd_una t)) \/
   (flight t = 0 /\ wsub (snd_nxt t) ack = H31)) ->
  RCore (remove_acked (set_snd_una t ack) ack).
Proof.
  intros [H1 H2 H3 H4] Ha Hcase.
  assert (HI : Inv (remove_acked (set_snd_una t ack) ack))
    by (apply remove_acked_inv, Inv_set_snd_una; assumption).
  constructor; [assumption| | |]; unfold remove_acked, flight, fin_unsent, data_bound in *; tsimpl.
  - destruct Hcase as [(Ha1 & Ha2 & Ha3)|(Hd & _)].
    + pose proof (i_retx _ H1) as Hwf. clear HI.
      revert Hwf H2. generalize (retx t) as l.
      induction l as [|tx l IH]; intros Hwf H2; cbn [filter]; [constructor|].
      inversion Hwf; subst. inversion H2 as [|? ? Htx H2']; subst.
      destruct (mod_lt ack _) eqn:Ek; [|apply IH; assumption].
      constructor; [|apply IH; assumption].
      destruct Htx as [Hb1 Hb2]. unfold tx_ok, flight, data_bound, fin_unsent in *. tsimpl.
      rewrite Ha3. split.
      * apply ack_entry; try assumption; try apply wadd_u32; try apply H1.
      * intros Ht. specialize (Hb2 Ht). lia.
    + (* nothing can be queued when the flight is empty *)
      destruct H2 as [|tx l Htx _]; [constructor|].
      destruct Htx as [Hb1 _]. unfold flight in *. lia.
  - destruct Hcase as [(Ha1 & Ha2 & Ha3)|(Hd & Ha3)]; rewrite Ha3.
    + destruct (pre_fin (st t) || fin_pending t); lia.
    + destruct (pre_fin (st t) || fin_pending t); lia.
  - assumption.
Qed.

Lemma enqueue_plain_RCore t h : RCore t -> wf_hdr h ->
  c_syn (h_ctl h) = false -> c_fin (h_ctl h) = false -> RCore (enqueue t h).
Proof.
  intros HR Hh Hs Hf. eapply RCore_frame; [exact HR|apply enqueue_inv; [apply HR|assumption]|..];
    rewrite enqueue_plain by assumption; reflexivity.
Qed.

Lemma RCore_set_snd_window t w a b : RCore t -> u16 w -> u32 a -> u32 b -> RCore (set_snd_window t w a b).
Proof.
  intros HR ? ? ?. eapply RCore_frame; [exact HR|apply Inv_set_snd_window; try assumption; apply HR|..]; reflexivity.
Qed.

Lemma pre_fin_ack_edge a b : ack_edge a b = true -> pre_fin b = pre_fin a.
Proof. destruct a, b; cbn; intros H; try reflexivity; discriminate H. Qed.
Lemma pre_fin_fin_edge a b : fin_edge a b = true -> pre_fin b = pre_fin a.
Proof. destruct a, b; cbn; intros H; try reflexivity; discriminate H. Qed.

Lemma RCore_set_st t v : RCore t -> pre_fin v = pre_fin (st t) -> RCore (set_st t v).
Proof. intros HR E. eapply RCore_frame; [exact HR|apply Inv_set_st, HR|..]; try reflexivity. exact E. Qed.
Lemma RCore_set_time_wait t v : RCore t -> tw_ok v -> RCore (set_time_wait t v).
Proof. intros HR E. eapply RCore_frame; [exact HR|apply Inv_set_time_wait; [apply HR|exact E]|..]; reflexivity. Qed.
Lemma RCore_set_rto t v : RCore t -> 0 <= v <= RTO -> RCore (set_rto t v).
Proof. intros HR E. eapply RCore_frame; [exact HR|apply Inv_set_rto; [apply HR|exact E]|..]; reflexivity. Qed.
Lemma RCore_set_rcv_nxt t v : RCore t -> u32 v -> RCore (set_rcv_nxt t v).
Proof. intros HR E. eapply RCore_frame; [exact HR|apply Inv_set_rcv_nxt; [apply HR|exact E]|..]; reflexivity. Qed.
Lemma RCore_set_rcv_irs t v : RCore t -> u32 v -> RCore (set_rcv_irs t v).
Proof. intros HR E. eapply RCore_frame; [exact HR|apply Inv_set_rcv_irs; [apply HR|exact E]|..]; reflexivity. Qed.
Lemma RCore_set_in_segs t v : RCore t -> Forall wf_seg v -> RCore (set_in_segs t v).
Proof. intros HR E. eapply RCore_frame; [exact HR|apply Inv_set_in_segs; [apply HR|exact E]|..]; reflexivity. Qed.

Lemma ack_step_RCore h a b : wf_hdr h -> ack_step h a b ->
  RCore a /\ st a <> SynSent -> RCore b /\ st b <> SynSent.
Proof.
  intros Hh Hs [HR Hn]. pose proof Hh as (Hsp & Hdp & Hseq & Hack & Hwnd & Hurg).
  pose proof (r_inv _ HR) as HI.
  split; [|apply ack_step_st in Hs; destruct (st a); try congruence; destruct (st b); discriminate].
  destruct Hs as [t|t|t|t [[E1 E2]|Es]|t|t s Hs|t].
  - apply enqueue_plain_RCore; [assumption|apply ack_hdr_wf; assumption|reflexivity|reflexivity].
  - apply enqueue_plain_RCore; [assumption|apply rst_hdr_wf; assumption|reflexivity|reflexivity].
  - apply enqueue_plain_RCore; [assumption| |reflexivity|reflexivity].
    apply hb_wnd_wf; [|apply rcv_wnd_u16; assumption].
    apply hb_ack_wf; [|apply wadd_u32]. apply hb_wf; [assumption|apply HI].
  - apply advance_una; [assumption|assumption|].
    destruct (ack_accept _ _ _ (i_una _ HI) (i_nxt _ HI) Hack E1 E2) as [(A1 & A2)|(A1 & A2 & A3)].
    + left. unfold flight. repeat split; try lia. apply ack_accept_le; assumption.
    + right. unfold flight. auto.
  - congruence.
  - apply RCore_set_snd_window; assumption.
  - apply RCore_set_st; [assumption|apply pre_fin_ack_edge; assumption].
  - apply RCore_set_time_wait; [assumption|apply tw_ok_msl2].
Qed.

Lemma ps_ack_RCore t h : RCore t -> wf_hdr h -> st t <> SynSent -> RCore (fst (ps_ack t h)).
Proof.
  intros HR Hh Hn.
  apply (ack_steps_pres h (fun a => RCore a /\ st a <> SynSent)) with (a := t); [|apply ps_ack_steps|auto].
  intros a b. apply ack_step_RCore. exact Hh.
Qed.

Lemma ps_syn_RCore t h : RCore t -> wf_hdr h -> st t <> SynSent -> RCore (fst (ps_syn t h)).
Proof.
  intros HR Hh Hn. unfold ps_syn. destruct (negb _); [exact HR|].
  assert (Ho : RCore (enqueue t (ack_hdr t)))
    by (apply enqueue_plain_RCore; [assumption|apply ack_hdr_wf, HR|reflexivity|reflexivity]).
  destruct (st t); cbn [fst]; try exact Ho. congruence.
Qed.

Lemma ps_text_RCore t h text t' : RCore t -> ps_text t h text = Ok t' -> RCore t'.
Proof.
  intros HR H. pose proof (ps_text_inv _ _ _ _ (r_inv _ HR) H) as HI.
  destruct (ps_text_cases _ _ _ _ H) as [->|(n & piece & _ & ->)]; [exact HR|].
  cbv zeta in *. rewrite enqueue_plain in * by reflexivity.
  eapply RCore_frame; [exact HR|exact HI|..]; reflexivity.
Qed.

Lemma ps_fin_RCore t h n : RCore t -> RCore (ps_fin t h n).
Proof.
  intros HR. unfold ps_fin. destruct (negb _); [exact HR|].
  match goal with |- context [match st ?x with _ => _ end] => set (t1 := x) end.
  assert (H1 : RCore t1 /\ st t1 = st t).
  { subst t1. repeat break_if; try (split; [exact HR|reflexivity]).
    assert (H2 : RCore (set_rcv_nxt t (wadd (wadd (h_seq h) n) 1)))
      by (apply RCore_set_rcv_nxt; [assumption|apply wadd_u32]).
    split; [|rewrite enqueue_st; reflexivity].
    apply enqueue_plain_RCore; [exact H2|apply ack_hdr_wf, H2|reflexivity|reflexivity]. }
  destruct H1 as [H1 E1].
  destruct (st t1) eqn:Et1; try destruct (is_fin_acked t1);
    repeat first [assumption | apply RCore_set_rto | apply RCore_set_time_wait | apply RCore_set_st
                 | apply tw_ok_msl2 | apply rto_ok_RTO | rewrite Et1; reflexivity].
Qed.

Lemma synsent_ack_arith una nxt ack : u32 una -> u32 nxt -> u32 ack ->
  0 < wsub nxt una <= 65535 ->
  mod_bounded una CLt ack CLeq nxt = true ->
  0 < wsub ack una <= wsub nxt una /\ wsub ack una <= H31 /\
  wsub nxt ack = wsub nxt una - wsub ack una /\ mod_gt ack una = true.
Proof.
  intros Hu Hn Ha Hd. rewrite mod_bounded_arc by (try assumption; unfold H31; lia).
  u32_unfold. intros H. lia.
Qed.

Lemma tx_ok_synack t h : RCore t -> st t = SynSent -> snd_una t = snd_iss t -> 0 < flight t ->
  c_syn (h_ctl h) = true -> c_fin (h_ctl h) = false -> h_seq h = snd_iss t -> wf_hdr h ->
  RCore (enqueue (set_st t SynReceived) h).
Proof.
  intros [H1 H2 H3 H4] Est Eu Hd Hs Hf Hseq Hh.
  assert (HI : Inv (enqueue (set_st t SynReceived) h)) by (apply enqueue_inv; [apply Inv_set_st|]; assumption).
  unfold enqueue in *. rewrite Hs in *. cbn [orb] in *.
  constructor; [assumption| | |]; unfold flight, fin_unsent, data_bound in *; tsimpl.
  - apply Forall_app. split.
    + eapply Forall_impl; [|exact H2]. intros tx. unfold tx_ok, flight, data_bound, fin_unsent. tsimpl.
      rewrite Est. cbn [pre_fin]. auto.
    + constructor; [|constructor]. unfold tx_ok, flight, data_bound, fin_unsent, seg_len. tsimpl.
      rewrite Hs, Hf, Hseq, <- Eu. cbn [b2z]. unfold zlen. cbn [length]. split.
      * pose proof (i_una _ H1). revert Hd. u32_unfold. intros Hd. lia.
      * intros C. exfalso. apply C. reflexivity.
  - rewrite Est in H3. exact H3.
  - intros Hp. specialize (H4 Hp). rewrite Est in H4. discriminate H4.
Qed.

Lemma process_segment_synsent_InvR t s t' r : InvR t -> wf_seg s -> st t = SynSent ->
  process_segment t s = Ok (t', r) -> should_delete r = false -> InvR t'.
Proof.
  intros [HR HS] [Hh Hl] Est H Hd. pose proof Hh as (Hsp & Hdp & Hseq & Hack & Hwnd & Hurg).
  pose proof (r_inv _ HR) as HI. destruct (HS Est) as [Eu Hfl].
  assert (Hreply : forall hh, wf_hdr hh -> c_syn (h_ctl hh) = false -> c_fin (h_ctl hh) = false ->
                   InvR (enqueue t hh)).
  { intros hh W A B. split; [apply enqueue_plain_RCore; assumption|].
    rewrite enqueue_plain by assumption. exact HS. }
  revert H. rewrite (process_segment_synsent _ _ Est).
  unfold ps_ack. rewrite Est.
  assert (Hrest : forall t2, RCore t2 -> st t2 = SynSent -> snd_iss t2 = snd_iss t ->
            ((snd_una t2 = snd_iss t /\ 0 < flight t2 <= 65535) \/
             (c_syn (h_ctl (s_hdr s)) = true /\ mod_gt (snd_una t2) (snd_iss t) = true)) ->
            (c_syn (h_ctl (s_hdr s)) = false -> InvR t2) ->
            ps_tail t2 s = Ok (t', r) -> InvR t').
  { intros t2 HR2 E2 Ei Hmid Hnosyn. unfold ps_tail.
    destruct (ps_rst t2 (s_hdr s)) as [r3|] eqn:Er.
    { intros H; inversion H; subst. apply ps_rst_some in Er. destruct Er as [_ Er]. congruence. }
    destruct (c_syn (h_ctl (s_hdr s))) eqn:Esyn.
    2:{ rewrite (ps_syn_nosyn _ _ Esyn), E2. cbn [state_eqb].
        intros H; inversion H; subst. apply Hnosyn. reflexivity. }
    unfold ps_syn. rewrite Esyn, E2. cbn [negb]. cbv zeta.
    set (t1 := set_snd_window _ _ _ _).
    assert (HR1 : RCore t1).
    { subst t1. apply RCore_set_snd_window; try assumption.
      apply RCore_set_rcv_nxt; [|apply wadd_u32]. apply RCore_set_rcv_irs; assumption. }
    assert (Eu1 : snd_una t1 = snd_una t2) by reflexivity.
    assert (Ei1 : snd_iss t1 = snd_iss t2) by reflexivity.
    rewrite Eu1, Ei1, Ei.
    destruct (mod_gt (snd_una t2) (snd_iss t)) eqn:Eg.
    - (* ESTABLISHED, then text and FIN *)
      assert (HR4 : RCore (enqueue (set_st t1 Established) (ack_hdr (set_st t1 Established)))).
      { apply enqueue_plain_RCore; [apply RCore_set_st; [assumption|subst t1; tsimpl; rewrite E2; reflexivity]
                                   | |reflexivity|reflexivity].
        apply ack_hdr_wf, Inv_set_st, HR1. }
      rewrite enqueue_st. tsimpl. cbn [state_eqb].
      destruct (ps_text _ (s_hdr s) (s_text s)) as [t6| | |] eqn:Et; try discriminate.
      intros H; inversion H; subst.
      assert (HR6 : RCore t6) by (eapply ps_text_RCore; eassumption).
      assert (E6 : st t6 = Established).
      { rewrite (ps_text_st _ _ _ _ Et), enqueue_st. reflexivity. }
      split; [apply ps_fin_RCore; assumption|].
      intros C. pose proof (ps_fin_st t6 (s_hdr s) (zlen (s_text s))) as Ee.
      rewrite E6, C in Ee. discriminate Ee.
    - (* SYN-RECEIVED: our SYN goes out again, with an ACK *)
      destruct Hmid as [[Eu2 Hd2]|[_ Hc]]; [|congruence].
      match goal with |- Ok (enqueue _ ?hh, _) = _ -> _ => assert (Hwf : wf_hdr hh) end.
      { assert (H2 : Inv (set_st t1 SynReceived)) by (apply Inv_set_st, HR1).
        apply hb_wnd_wf; [|apply rcv_wnd_u16; assumption].
        apply hb_ack_wf; [|apply H2]. apply hb_flag_wf. apply hb_wf; [assumption|apply H2]. }
      intros H; inversion H; subst.
      split; [|intros C; rewrite enqueue_st in C; discriminate C].
      apply tx_ok_synack; try assumption; try reflexivity; try lia.
      unfold flight in *. exact (proj1 Hd2). }
  destruct (c_ack (h_ctl (s_hdr s))); cbn [negb].
  2:{ apply Hrest; auto. intros _. split; assumption. }
  destruct (mod_bounded (snd_nxt t) _ _ _ _).
  { destruct (c_rst (h_ctl (s_hdr s))); intros H; inversion H; subst.
    - split; assumption.
    - apply Hreply; [apply rst_hdr_wf; assumption|reflexivity|reflexivity]. }
  destruct (mod_bounded (snd_una t) _ _ _ _) eqn:Eb.
  2:{ intros H; inversion H; subst. apply Hreply; [apply rst_hdr_wf; assumption|reflexivity|reflexivity]. }
  destruct (c_syn (h_ctl (s_hdr s))) eqn:Esyn.
  2:{ apply Hrest; auto. intros _. split; assumption. }
  destruct (synsent_ack_arith _ _ _ (i_una _ HI) (i_nxt _ HI) Hack Hfl Eb) as (A1 & A2 & A3 & A4).
  apply Hrest.
  - apply advance_una; [assumption|assumption|]. left. unfold flight in *. auto.
  - unfold remove_acked. tsimpl. exact Est.
  - reflexivity.
  - right. split; [reflexivity|]. unfold remove_acked. tsimpl. rewrite <- Eu. exact A4.
  - discriminate.
Qed.

Lemma not_synsent_after a b : rfc_edge a b = true -> a <> SynSent -> b <> SynSent.
Proof. destruct a, b; cbn; intros H Hn; congruence. Qed.

Lemma process_segment_InvR t s t' r : InvR t -> wf_seg s ->
  process_segment t s = Ok (t', r) -> should_delete r = false -> InvR t'.
Proof.
  intros HRS Hs H Hd.
  destruct (state_eqb (st t) SynSent) eqn:Est.
  { apply state_eqb_eq in Est. eapply process_segment_synsent_InvR; eassumption. }
  assert (Hn : st t <> SynSent) by (intros C; rewrite C in Est; discriminate Est).
  destruct HRS as [HR HS]. destruct Hs as [Hh Hl].
  split.
  2:{ intros C. exfalso. revert C. eapply not_synsent_after; [|exact Hn].
      eapply process_segment_edge; eassumption. }
  pose proof (ps_ack_RCore t (s_hdr s) HR Hh Hn) as H2.
  pose proof (ps_ack_st t (s_hdr s)) as E2.
  assert (Hn2 : st (fst (ps_ack t (s_hdr s))) <> SynSent).
  { destruct (st t); try congruence; destruct (st (fst (ps_ack t (s_hdr s)))); discriminate. }
  pose proof (ps_syn_RCore _ (s_hdr s) H2 Hh Hn2) as H4.
  destruct (process_segment_cases _ _ _ _ H); subst; try assumption.
  - apply enqueue_plain_RCore; [assumption|apply ack_hdr_wf, HR|reflexivity|reflexivity].
  - apply ps_fin_RCore. eapply ps_text_RCore; eassumption.
Qed.

Lemma InvR_frame t t' : InvR t -> Inv t' ->
  retx t' = retx t -> snd_una t' = snd_una t -> snd_nxt t' = snd_nxt t -> snd_iss t' = snd_iss t ->
  st t' = st t -> fin_pending t' = fin_pending t -> InvR t'.
Proof.
  intros [HR HS] HI Er Eu En Ei Es Ef. split.
  - eapply RCore_frame; try eassumption. rewrite Es. reflexivity.
  - unfold RSyn, flight in *. rewrite Es, Eu, En, Ei. exact HS.
Qed.

Lemma tx_ok_map t (f : transmit -> transmit) l : (forall tx, t_seg (f tx) = t_seg tx) ->
  Forall (tx_ok t) l -> Forall (tx_ok t) (map f l).
Proof.
  intros Hf H. induction H as [|tx l Htx _ IH]; cbn [map]; constructor; [|exact IH].
  unfold tx_ok in *. rewrite Hf. exact Htx.
Qed.

Lemma InvR_retx_map t (f : transmit -> transmit) : (forall tx, t_seg (f tx) = t_seg tx) ->
  InvR t -> InvR (set_retx t (map f (retx t))).
Proof.
  intros Hf [[H1 H2 H3 H4] HS]. split; [|exact HS].
  constructor; try assumption.
  - apply Inv_set_retx; [assumption|]. apply Forall_map_tx; [assumption|apply H1].
  - tsimpl. apply (tx_ok_map t f _ Hf) in H2.
    eapply Forall_impl; [|exact H2]. intros tx. unfold tx_ok, flight, data_bound, fin_unsent. tsimpl. auto.
Qed.

Lemma segment_arrives_InvR t s t' : InvR t -> wf_seg s ->
  segment_arrives t s = Ok (t', AOk) -> InvR t'.
Proof.
  intros HR Hs H. pose proof (r_inv _ (proj1 HR)) as HI.
  refine (arrives_loop_ind (fun t t' r => InvR t -> r = AOk -> InvR t') _ _ _ _ _ _ _ H _ eq_refl).
  - intros t0 H0 _. exact H0.
  - intros t0 s0 rest t1 r1 _ _ _ _ Er. discriminate Er.
  - intros t0 s0 rest t1 r1 t2 r Epop Ep Ed IH H0 Er. apply IH; [|exact Er].
    pose proof (r_inv _ (proj1 H0)) as HI0.
    destruct (heap_pop_Forall wf_seg _ _ _ (i_insegs _ HI0) Epop) as (Hs0 & Hrest).
    eapply process_segment_InvR; [|exact Hs0|exact Ep|exact Ed].
    eapply InvR_frame; [exact H0|apply Inv_set_in_segs; assumption|..]; reflexivity.
  - eapply InvR_frame; [exact HR| |..]; try reflexivity.
    apply Inv_set_in_segs; [assumption|]. apply heap_push_Forall; [apply HI|assumption].
Qed.

Lemma tcb_send_InvR t b : InvR t -> InvR (tcb_send t b).
Proof.
  intros HR. unfold tcb_send. destruct (accepts_send _); [|assumption].
  eapply InvR_frame; [exact HR|apply Inv_set_out_text, HR|..]; reflexivity.
Qed.
Lemma tcb_receive_InvR t : InvR t -> InvR (fst (tcb_receive t)).
Proof.
  intros HR. eapply InvR_frame; [exact HR|apply tcb_receive_inv, HR|..]; reflexivity.
Qed.

Lemma wadd1_flight una nxt : u32 una -> u32 nxt -> wsub nxt una <= H31 ->
  wsub (wadd nxt 1) una = wsub nxt una + 1.
Proof. u32_unfold. intros. lia. Qed.

Lemma queue_pending_fin_InvR t : InvR t -> InvR (queue_pending_fin t).
Proof.
  intros HRS. pose proof (queue_pending_fin_inv t (r_inv _ (proj1 HRS))) as HI'.
  pose proof HRS as HRS0.
  destruct HRS as [[H1 H2 H3 H4] HS].
  revert HI'. unfold queue_pending_fin.
  destruct (fin_pending t) eqn:Efp; cbn [andb]; [|intros _; exact HRS0].
  destruct (out_text t); [|intros _; exact HRS0].
  specialize (H4 eq_refl). intros HI'.
  unfold enqueue in *. tsimpl.
  assert (Efl : wsub (wadd (snd_nxt t) 1) (snd_una t) = flight t + 1).
  { unfold flight, fin_unsent in *. rewrite Efp, orb_true_r in H3.
    apply wadd1_flight; [apply H1|apply H1|lia]. }
  split.
  - constructor; [assumption| | |]; unfold flight, fin_unsent, data_bound in *; tsimpl.
    + apply Forall_app. split.
      * eapply Forall_impl; [|exact H2]. intros tx.
        unfold tx_ok, flight, data_bound, fin_unsent. tsimpl.
        rewrite Efl, Efp, H4, orb_true_r. cbn [orb]. intros [A B]. split; [lia|].
        intros C. specialize (B C). lia.
      * constructor; [|constructor]. unfold tx_ok, flight, data_bound, fin_unsent, seg_len. tsimpl.
        unfold zlen. cbn [length b2z].
        match goal with |- context [wadd (snd_nxt t) ?x] => replace x with 1 by reflexivity end.
        rewrite Efl. split.
        -- pose proof (wsub_u32 (snd_nxt t) (snd_una t)) as Hu. unfold u32 in Hu. lia.
        -- intros C. exfalso. apply C. reflexivity.
    + rewrite Efl, H4. cbn [orb]. rewrite Efp, orb_true_r in H3. lia.
    + discriminate.
  - unfold RSyn. tsimpl. intros C. rewrite C in H4. discriminate H4.
Qed.

Lemma tcb_close_InvR t : InvR t -> InvR (fst (tcb_close t)).
Proof.
  intros HRS. unfold tcb_close.
  assert (Hgo : forall v, pre_fin (st t) = true -> st t <> SynSent -> pre_fin v = false -> v <> SynSent ->
                InvR (queue_pending_fin (set_st (set_fin_pending t true) v))).
  { intros v Hp Hn Hv Hv'. apply queue_pending_fin_InvR.
    destruct HRS as [[H1 H2 H3 H4] HS]. split.
    - constructor; unfold flight, fin_unsent, data_bound in *; tsimpl.
      + apply Inv_set_st, Inv_set_fin_pending, H1.
      + eapply Forall_impl; [|exact H2]. intros tx.
        unfold tx_ok, flight, data_bound, fin_unsent. tsimpl. rewrite Hp, orb_true_r. auto.
      + rewrite orb_true_r. rewrite Hp in H3. exact H3.
      + intros _. exact Hv.
    - unfold RSyn. tsimpl. congruence. }
  destruct (st t) eqn:Est; cbn [fst]; try assumption;
    apply Hgo; try reflexivity; congruence.
Qed.

Lemma advance_time_InvR t dt : InvR t -> 0 <= dt -> InvR (fst (advance_time t dt)).
Proof.
  intros HR Hdt. pose proof (advance_time_inv t dt (r_inv _ (proj1 HR)) Hdt) as HI.
  revert HI. unfold advance_time.
  set (t1 := if rto t <? dt then _ else _).
  assert (H1 : InvR t1).
  { subst t1. destruct (rto t <? dt) eqn:Erto.
    - apply (InvR_retx_map (set_rto t RTO) (fun tx => mkTx (t_seg tx) true)); [reflexivity|].
      eapply InvR_frame; [exact HR|apply Inv_set_rto; [apply HR|apply rto_ok_RTO]|..]; reflexivity.
    - eapply InvR_frame; [exact HR| |..]; try reflexivity.
      apply Inv_set_rto; [apply HR|]. pose proof (i_rto _ (r_inv _ (proj1 HR))). lia. }
  destruct (time_wait t1) as [tw|]; [|intros _; exact H1].
  destruct (tw <? dt); cbn [fst]; [intros _; exact H1|].
  intros HI. eapply InvR_frame; [exact H1|exact HI|..]; reflexivity.
Qed.

Lemma seg_step_InvR t mss : InvR t -> 0 <= mss <= 65535 - SPACE_FOR_HEADERS -> 0 < seg_bytes t mss ->
  InvR (seg_step t (seg_bytes t mss)).
Proof.
  intros HRS Hmss Hpos.
  pose proof (seg_step_inv t mss (r_inv _ (proj1 HRS)) Hmss Hpos) as HI3.
  pose proof (zlen_nonneg (out_text t)) as Hz.
  assert (Hb : 0 < seg_bytes t mss <= mss /\ seg_bytes t mss <= zlen (out_text t) /\
               seg_bytes t mss <= snd_wnd t - flight t) by (unfold flight, seg_bytes in *; lia).
  set (bytes := seg_bytes t mss) in *. clearbody bytes.
  destruct HRS as [[H1 H2 H3 H4] HS].
  assert (Hlen : zlen (firstn (Z.to_nat bytes) (out_text t)) = bytes).
  { unfold zlen in *. rewrite firstn_length. lia. }
  assert (Hwnd : snd_wnd t <= 65535) by (apply H1).
  assert (Efl : wsub (wadd (snd_nxt t) bytes) (snd_una t) = flight t + bytes).
  { pose proof (wsub_u32 (snd_nxt t) (snd_una t)) as Hu. unfold flight in *.
    revert Hu Hb. u32_unfold. intros Hu Hb. lia. }
  pose proof (wsub_u32 (snd_nxt t) (snd_una t)) as Hfu. fold (flight t) in Hfu. unfold u32 in Hfu.
  unfold seg_step in *. cbv zeta in *.
  split.
  - constructor; [exact HI3| | |]; unfold flight, fin_unsent, data_bound in *; tsimpl.
    + apply Forall_app. split.
      * eapply Forall_impl; [|exact H2]. intros tx.
        unfold tx_ok, flight, data_bound, fin_unsent. tsimpl. rewrite Efl.
        intros [A B]. split; [lia|]. intros _. destruct (pre_fin (st t) || fin_pending t); lia.
      * constructor; [|constructor]. unfold tx_ok, flight, data_bound, fin_unsent, seg_len. tsimpl.
        rewrite Hlen, Efl. cbn [b2z]. replace (bytes + 0 + 0) with bytes by lia. rewrite Efl.
        split; [lia|]. intros _. destruct (pre_fin (st t) || fin_pending t); lia.
    + rewrite Efl. unfold H31. destruct (pre_fin (st t) || fin_pending t); lia.
    + assumption.
  - unfold RSyn, flight in *. tsimpl. rewrite Efl. intros C. destruct (HS C) as [A B]. split; [exact A|lia].
Qed.

Lemma tcb_segments_InvR t t' segs : InvR t -> tcb_segments t = Ok (t', segs) -> InvR t'.
Proof.
  intros HR. rewrite tcb_segments_unfold.
  destruct (seg_mid_total InvR) with (t0 := set_oneshot t []) as (t1 & -> & H1).
  - intros t0 H0. apply i_mtu, H0.
  - intros t0 mss H0 Hmss Hb. apply seg_step_InvR; assumption.
  - apply queue_pending_fin_InvR.
  - eapply InvR_frame; [exact HR|apply Inv_set_oneshot; [apply HR|constructor]|..]; reflexivity.
  - intros [= <- _].
    assert (H2 : InvR (set_retx t1 (map (fun tx => mkTx (t_seg tx) false) (retx t1))))
      by (apply InvR_retx_map; [reflexivity|assumption]).
    apply (seg_finish_cases (fun _ b => InvR b)); [exact H2|].
    eapply InvR_frame; [exact H2|apply Inv_set_rto; [apply H2|apply rto_ok_RTO]|..]; reflexivity.
Qed.

Lemma tcb_open_InvR lp rp iss mtu0 : u16 lp -> u16 rp -> u32 iss ->
  SPACE_FOR_HEADERS <= mtu0 <= 65535 -> InvR (tcb_open lp rp iss mtu0).
Proof.
  intros Hl Hr Hi Hm. pose proof (tcb_open_inv lp rp iss mtu0 Hl Hr Hi Hm) as HI.
  revert HI. unfold tcb_open. cbv zeta. unfold enqueue. tsimpl. intros HI.
  assert (E : wsub (wadd iss 1) iss = 1) by (revert Hi; u32_unfold; intros; lia).
  split.
  - constructor; [exact HI| | |]; unfold flight, fin_unsent, data_bound; tsimpl.
    + constructor; [|constructor]. unfold tx_ok, flight, seg_len. tsimpl. unfold zlen. cbn [length b2z].
      match goal with |- context [wadd iss ?x] => replace x with 1 by reflexivity end.
      rewrite E. split; [lia|].
      intros C. exfalso. apply C. reflexivity.
    + rewrite E. unfold H31. cbn. lia.
    + discriminate.
  - unfold RSyn, flight. tsimpl. rewrite E. intros _. split; [reflexivity|lia].
Qed.

Lemma arrives_listen_InvR s iss mtu0 t : wf_seg s -> u32 iss ->
  SPACE_FOR_HEADERS <= mtu0 <= 65535 -> arrives_listen s iss mtu0 = LTcb t -> InvR t.
Proof.
  intros Hs Hi Hm H. pose proof (arrives_listen_inv s iss mtu0 t Hs Hi Hm H) as HI.
  revert H HI. unfold arrives_listen. repeat break_if; try discriminate.
  intros H; inversion H; subst; clear H. unfold enqueue. tsimpl. intros HI.
  assert (E : wsub (wadd iss 1) iss = 1) by (revert Hi; u32_unfold; intros; lia).
  split.
  - constructor; [exact HI| | |]; unfold flight, fin_unsent, data_bound; tsimpl.
    + constructor; [|constructor]. unfold tx_ok, flight, seg_len. tsimpl. unfold zlen. cbn [length b2z].
      match goal with |- context [wadd iss ?x] => replace x with 1 by reflexivity end.
      rewrite E. split; [lia|].
      intros C. exfalso. apply C. reflexivity.
    + rewrite E. unfold H31. cbn. lia.
    + discriminate.
  - unfold RSyn. tsimpl. discriminate.
Qed.

Definition InvR_opt (o : option tcb) : Prop := match o with Some t => InvR t | None => True end.

Lemma apply_op_InvR t o : InvR t -> wf_op o -> exists r, apply_op t o = Ok r /\ InvR_opt r.
Proof.
  intros HR Ho. pose proof (r_inv _ (proj1 HR)) as HI.
  destruct o; cbn [apply_op wf_op] in *.
  - destruct (segment_arrives_ok t s HI Ho) as (t' & r & E & H').
    pose proof (segment_arrives_InvR t s t' HR Ho) as HR'. rewrite E in *.
    destruct r; eexists; split; eauto; [exact (HR' eq_refl)|exact I].
  - eexists; split; [reflexivity|]. apply tcb_send_InvR; assumption.
  - eexists; split; [reflexivity|]. apply tcb_receive_InvR; assumption.
  - eexists; split; [reflexivity|]. apply tcb_close_InvR; assumption.
  - pose proof (advance_time_InvR t dt HR Ho) as H'.
    destruct (advance_time t dt) as [t' []]; eexists; split; eauto; exact I.
  - destruct (tcb_segments_ok t HI) as (t' & segs & E & H' & _).
    pose proof (tcb_segments_InvR t t' segs HR E). rewrite E. eexists; split; eauto.
Qed.

Lemma old_behind_arith una nxt seq len : u32 una -> u32 nxt -> u32 seq -> 1 <= len <= 65536 + 2 ->
  0 < wsub (wadd seq len) una <= wsub nxt una -> wsub nxt una <= 65536 ->
  mod_geq seq nxt = false.
Proof. unfold mod_geq. u32_unfold. intros Hu Hn Hs Hl He Hd. lia. Qed.

Lemma InvR_old_behind t : InvR t -> old_behind t.
Proof.
  intros [[H1 H2 H3 H4] _]. unfold old_behind.
  pose proof (i_retx _ H1) as Hwf. revert Hwf H2. generalize (retx t) as l.
  induction l as [|tx l IH]; intros Hwf H2; constructor.
  - inversion Hwf as [|? ? [Hh Hl] _]; subst. inversion H2 as [|? ? [A B] _]; subst.
    intros Ht. specialize (B Ht).
    pose proof (zlen_nonneg (s_text (t_seg tx))) as Hz.
    assert (Hz1 : 1 <= zlen (s_text (t_seg tx))).
    { destruct (s_text (t_seg tx)); [congruence|]. unfold zlen. cbn [length]. lia. }
    eapply (old_behind_arith (snd_una t) (snd_nxt t) _ (seg_len (t_seg tx)));
      try apply H1; try apply Hh; try exact A.
    + unfold seg_len, MAXTEXT in *.
      destruct (c_syn _), (c_fin _); cbn [b2z]; lia.
    + unfold flight, data_bound in B. destruct (fin_unsent t); lia.
  - inversion Hwf; subst. inversion H2; subst. apply IH; assumption.
Qed.

(* finding: an ACK exactly 2^31 ahead of SND.UNA = SND.NXT is taken as a
   valid acknowledgment (mod_leq and mod_gt are both false at the antipode):
   SND.UNA jumps 2^31 past SND.NXT and nothing can be sent until the next
   legitimate ACK pulls it back.  No crash, the window bound still holds. *)
Definition idle_tcb : tcb :=
  mkTcb 1000 80 1500 false Established 101 101 65535 500 101 100 500 501 DEFAULT_WND
        [] [] [] false [] [] RTO None.
Definition antipode_ack : segment :=
  mkSeg (mkHdr 80 1000 501 (101 + H31) (mkCtl false true false false false false) 65535 0) [].
Lemma ack_antipode :
  InvR idle_tcb /\ wf_seg antipode_ack /\
  match segment_arrives idle_tcb antipode_ack with
  | Ok (t', AOk) => snd_una t' = 101 + H31 /\ snd_nxt t' = 101 /\ flight t' = H31
  | _ => False
  end.
Proof.
  split.
  { split.
    - constructor.
      + constructor; cbn; unfold u16, u32, M32, SPACE_FOR_HEADERS, DEFAULT_WND, RTO, tw_ok, zlen; cbn;
          try lia; constructor.
      + constructor.
      + vm_compute. discriminate.
      + cbn. discriminate.
    - unfold RSyn. cbn. discriminate. }
  split. { repeat split; cbn; unfold u16, u32, M32, H31, MAXTEXT, zlen; cbn; lia. }
  vm_compute. repeat split.
Qed.

(* deletion through segment_arrives with a non-empty heap: the closing result
   comes from ONE process_segment call on the new segment or a queued one *)
Lemma arrives_loop_close fuel t t' : arrives_loop fuel t = Ok (t', AClose) ->
  exists t0 s0 r, In s0 (in_segs t) /\ rfc_path (st t) (st t0) /\
    process_segment t0 s0 = Ok (t', r) /\ should_delete r = true.
Proof.
  intros H.
  refine (arrives_loop_ind (fun t t' r => r = AClose -> exists t0 s0 r0, In s0 (in_segs t) /\
            rfc_path (st t) (st t0) /\ process_segment t0 s0 = Ok (t', r0) /\ should_delete r0 = true)
            _ _ _ _ _ _ _ H eq_refl).
  - discriminate.
  - intros t1 s rest t2 r1 Epop Ep Ed _.
    exists (set_in_segs t1 rest), s, r1. repeat split; auto; [|apply rt_refl].
    apply heap_pop_perm in Epop. apply (Permutation_in _ (Permutation_sym Epop)). left. reflexivity.
  - intros t1 s rest t2 r1 t3 r Epop Ep Ed IH Er.
    destruct (IH Er) as (t0 & s0 & r0 & Hin & Hpath & Hp & Hd).
    exists t0, s0, r0. repeat split; auto.
    + rewrite (process_segment_in_segs _ _ _ _ Ep) in Hin. tsimpl.
      apply heap_pop_perm in Epop. apply (Permutation_in _ (Permutation_sym Epop)). right. exact Hin.
    + eapply rt_trans; [|exact Hpath]. apply rt_step.
      apply process_segment_edge in Ep. exact Ep.
Qed.

Lemma segment_arrives_close t s t' : segment_arrives t s = Ok (t', AClose) ->
  exists t0 s0 r, (s0 = s \/ In s0 (in_segs t)) /\ rfc_path (st t) (st t0) /\
    process_segment t0 s0 = Ok (t', r) /\ should_delete r = true /\ delete_cause t0 s0 t' r.
Proof.
  unfold segment_arrives. intros H. apply arrives_loop_close in H.
  destruct H as (t0 & s0 & r & Hin & Hpath & Hp & Hd). tsimpl.
  exists t0, s0, r. repeat split; auto.
  - apply heap_push_In. exact Hin.
  - eapply process_segment_deleted; eassumption.
Qed.

(* the closed two-endpoint system of Model/TcpNet.v with forged segments
   injected at will: the panicked flag is never raised *)

Definition wf_cfg (c : config) : Prop :=
  u16 (portA c) /\ u16 (portB c) /\ u32 (issA c) /\ u32 (issB c) /\
  SPACE_FOR_HEADERS <= mtuA c <= 65535 /\ SPACE_FOR_HEADERS <= mtuB c <= 65535.
Definition wf_label (l : label) : Prop :=
  match l with
  | LTick _ ms => 0 <= ms | LFairT _ ms _ => 0 <= ms | LInject _ seg => wf_seg seg
  | _ => True
  end.

Definition end_ok (e : endpoint) : Prop := match e with ELive t => Inv t | _ => True end.
Record SysInv (s : sys) : Prop := mkSysInv {
  si_np : panicked s = false;
  si_A : end_ok (endA s); si_B : end_ok (endB s);
  si_nA : Forall wf_seg (netA s); si_nB : Forall wf_seg (netB s) }.

Lemma SysInv_end s x : SysInv s -> end_ok (end_of s x).
Proof. intros []. destruct x; assumption. Qed.
Lemma SysInv_net s x : SysInv s -> Forall wf_seg (net_of s x).
Proof. intros []. destruct x; assumption. Qed.
Lemma SysInv_set_end s x e : SysInv s -> end_ok e -> SysInv (set_end s x e).
Proof. intros [] He. destruct x; constructor; cbn; assumption. Qed.
Lemma SysInv_set_net s x n : SysInv s -> Forall wf_seg n -> SysInv (set_net s x n).
Proof. intros [] He. destruct x; constructor; cbn; assumption. Qed.
Lemma SysInv_set_sub s x v : SysInv s -> SysInv (set_sub s x v).
Proof. intros []. destruct x; constructor; cbn; assumption. Qed.
Lemma SysInv_set_del s x v : SysInv s -> SysInv (set_del s x v).
Proof. intros []. destruct x; constructor; cbn; assumption. Qed.
Lemma SysInv_final_read s x t : SysInv s -> SysInv (final_read s x t).
Proof. intros H. unfold final_read. destruct (in_text t); [assumption|apply SysInv_set_del; assumption]. Qed.

Lemma wf_cfg_side c x : wf_cfg c ->
  u16 (port_of c x) /\ u32 (iss_of c x) /\ SPACE_FOR_HEADERS <= mtu_of c x <= 65535.
Proof. intros (A & B & C & D & E & F). destruct x; cbn; auto. Qed.

Lemma rst_reply_wf (h : header) : wf_hdr h ->
  wf_hdr (hb_rst (mkHdr (h_dport h) (h_sport h) (h_ack h) 0 ctl0 0 0)).
Proof.
  intros (Hsp & Hdp & Hseq & Hack & Hwnd & Hurg). apply hb_flag_wf.
  unfold wf_hdr, u16, u32, M32 in *; cbn. repeat split; try assumption; lia.
Qed.

Lemma arrive_inv c s r seg : wf_cfg c -> SysInv s -> wf_seg seg -> SysInv (fst (arrive c s r seg)).
Proof.
  intros Hc Hs Hseg. unfold arrive.
  pose proof (SysInv_end s r Hs) as He. destruct (end_of s r) as [| |t|]; cbn [fst]; try assumption.
  - (* closed *)
    unfold arrives_closed. destruct Hseg as [Hh Hl]. pose proof Hh as (Hsp & Hdp & Hseq & Hack & Hwnd & Hurg).
    repeat break_if; cbn [fst]; try assumption; apply SysInv_set_net; try assumption;
      (apply Forall_snoc; [apply SysInv_net; assumption|apply wf_seg_nil]).
    + apply rst_reply_wf; assumption.
    + apply hb_ack_wf; [|apply wadd_u32]. apply hb_flag_wf.
      unfold wf_hdr, u16, u32, M32 in *; cbn. repeat split; try assumption; lia.
  - (* listen *)
    destruct (wf_cfg_side c r Hc) as (_ & Hi & Hm).
    destruct (arrives_listen seg (iss_of c r) (mtu_of c r)) as [|h|t] eqn:El; cbn [fst]; try assumption.
    + apply SysInv_set_net; [assumption|]. apply Forall_snoc; [apply SysInv_net; assumption|].
      apply wf_seg_nil. revert El. unfold arrives_listen. repeat break_if; try discriminate.
      intros H; inversion H; subst. apply rst_reply_wf, Hseg.
    + apply SysInv_set_end; [assumption|]. cbn. eapply arrives_listen_inv; eassumption.
  - (* live *)
    cbn in He. destruct (segment_arrives_ok t seg He Hseg) as (t' & ar & -> & H').
    destruct ar; cbn [fst].
    + apply SysInv_set_end; assumption.
    + apply SysInv_set_end; [apply SysInv_final_read; assumption|exact I].
Qed.

Lemma emit_inv s x : SysInv s -> SysInv (fst (fst (emit s x))) /\ snd (emit s x) = false.
Proof.
  intros Hs. unfold emit. pose proof (SysInv_end s x Hs) as He.
  destruct (end_of s x) as [| |t|]; cbn [fst snd]; auto.
  cbn in He. destruct (tcb_segments_ok t He) as (t' & segs & -> & H' & Hsegs). cbn [fst snd].
  split; [|reflexivity]. apply SysInv_set_net.
  - apply SysInv_set_end; assumption.
  - apply Forall_app. split; [apply SysInv_net; assumption|assumption].
Qed.

Lemma end_of_set_end s x e : end_of (set_end s x e) x = e.
Proof. destruct x; reflexivity. Qed.

Lemma recv_inv s x : SysInv s -> SysInv (fst (recv s x)).
Proof.
  intros Hs. unfold recv. pose proof (SysInv_end s x Hs) as He.
  destruct (end_of s x) as [| |t|]; cbn [fst]; try assumption.
  cbn in He. cbn [tcb_receive]. pose proof (tcb_receive_inv t He) as H'. cbn [tcb_receive fst] in H'.
  destruct (in_text t); cbn [fst].
  - apply SysInv_set_end; assumption.
  - apply SysInv_set_del, SysInv_set_end; assumption.
Qed.

Lemma net_of_set_net s x n : net_of (set_net s x n) x = n.
Proof. destruct x; reflexivity. Qed.

Lemma sys_step_inv c s l : wf_cfg c -> wf_label l -> SysInv s -> SysInv (fst (sys_step c s l)).
Proof.
  intros Hc Hl Hs.
  (* wf_label is label_ok for these three predicates *)
  apply (sys_step_rule c SysInv (fun _ _ _ => True) (fun ms => 0 <= ms) wf_seg); [..|exact Hs|exact Hl].
  - lia.
  - intros s0 x H0 _. apply SysInv_set_end; [assumption|]. cbn.
    destruct (wf_cfg_side c x Hc) as (A & B & C). destruct (wf_cfg_side c (other x) Hc) as (A' & _).
    apply tcb_open_inv; assumption.
  - intros s0 x t b H0 El _. pose proof (SysInv_end s0 x H0) as He. rewrite El in He.
    apply SysInv_set_end; [destruct (accepts_send (st t)); [apply SysInv_set_sub|]; assumption|].
    cbn. apply tcb_send_inv. exact He.
  - apply recv_inv.
  - intros s0 x t H0 El. pose proof (SysInv_end s0 x H0) as He. rewrite El in He.
    apply SysInv_set_end; [assumption|]. cbn. apply tcb_close_inv. exact He.
  - intros s0 x H0. apply emit_inv. exact H0.
  - intros s0 x t ms H0 El Hms. pose proof (SysInv_end s0 x H0) as He. rewrite El in He.
    pose proof (advance_time_inv t ms He Hms) as H'.
    destruct (advance_time t ms) as [t1 []]; cbn [fst] in H'.
    + apply SysInv_set_end; assumption.
    + apply SysInv_set_end; [apply SysInv_final_read; assumption|exact I].
  - intros s0 x l0 H0 Hi. apply SysInv_set_net; [assumption|].
    eapply incl_Forall; [exact Hi|apply SysInv_net; assumption].
  - intros s0 x seg l0 H0 Hin Hi. pose proof (SysInv_net s0 x H0) as Hn. apply arrive_inv; [assumption| |].
    + apply SysInv_set_net; [assumption|]. eapply incl_Forall; eassumption.
    + rewrite Forall_forall in Hn. apply Hn, Hin.
  - intros s0 x seg H0 Hseg. apply arrive_inv; assumption.
Qed.

Lemma run_inv c ls : wf_cfg c -> Forall wf_label ls -> forall s, SysInv s -> SysInv (run c s ls).
Proof.
  intros Hc Hls. unfold run. induction Hls as [|l ls Hl _ IH]; intros s Hs; cbn [fold_left]; [assumption|].
  apply IH. apply sys_step_inv; assumption.
Qed.

Lemma init_sys_inv b : SysInv (init_sys b).
Proof. constructor; cbn; try constructor. destruct b; exact I. Qed.

(* MTU below SPACE_FOR_HEADERS: segments() underflows a u16 (tcb.rs l.300) *)
Lemma small_mtu_panics : tcb_segments (tcb_open 1000 80 0 49) = Panic 5.
Proof. vm_compute. reflexivity. Qed.

(* a text longer than RCV.WND + 1 (which no TCP header can announce: the
   parser and the builder both refuse 20 + len > 65535) can start two below the
   window, end inside it and still fail the assert! of l.597 *)
Definition oversized_seg : segment :=
  mkSeg (mkHdr 80 1000 499 101 (mkCtl false true false false false false) 65535 0) (repeat 0 (Z.to_nat 65537)).
Lemma oversized_text_panics : segment_arrives idle_tcb oversized_seg = Panic 2.
Proof. vm_compute. reflexivity. Qed.

(* the hypotheses of the inertness theorem are satisfiable: a RST 2^31 away in ESTABLISHED *)
Example unacceptable_example : Inv idle_tcb /\ wf_seg far_rst /\ unacceptable idle_tcb far_rst.
Proof.
  split; [exact (r_inv _ (proj1 (proj1 ack_antipode)))|].
  split; [exact (proj2 (proj2 closing_witness_wf))|].
  left. split; [discriminate|]. vm_compute. reflexivity.
Qed.
