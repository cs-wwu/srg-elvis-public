(* C03 (a): every move of one endpoint of Model/Tcb.v lies on the RFC 9293
   Figure 5 diagram (closed under the composite moves one segment arrival may
   make).  No invariant is needed: the statements hold for EVERY tcb value and
   EVERY segment.  The file is also the base the one-run proofs build on: the frame lemmas
   (which fields a stage of process_segment leaves alone), the arrival loop and the loop of
   segments() as induction principles, the ACK stage as elementary updates, process_segment
   by cases. *)
From Elvis Require Import Model.Base Model.U32 Model.Tcb Proofs.HeapPerm.
From Elvis Require Export Proofs.U32Facts.
From Coq Require Import Relations.
Local Open Scope Z_scope.

Ltac tsimpl :=
  cbn [lport rport mtu listen_init st snd_una snd_nxt snd_wnd snd_wl1 snd_wl2 snd_iss
       rcv_irs rcv_nxt rcv_wnd out_text retx oneshot fin_pending in_segs in_text rto time_wait
       set_st set_snd_una set_snd_nxt set_snd_window set_rcv_irs set_rcv_nxt set_out_text
       set_retx set_oneshot set_fin_pending set_in_segs set_in_text set_rto set_time_wait
       h_sport h_dport h_seq h_ack h_ctl h_wnd h_urg s_hdr s_text t_seg t_needs
       c_urg c_ack c_psh c_rst c_syn c_fin ctl0
       hb hb_ack hb_wnd hb_flag hb_rst hb_syn hb_fin ack_hdr rst_hdr
       fst snd orb andb negb] in *.

Ltac break_if :=
  match goal with
  | |- context [if ?c then _ else _] => destruct c eqn:?
  | |- context [match st ?t with _ => _ end] => destruct (st t) eqn:?
  end.

Lemma is_in_rcv_window_spec t n : u32 n -> 0 <= rcv_wnd t <= 65535 ->
  is_in_rcv_window t n = (wsub n (wsub (rcv_nxt t) 1) <=? rcv_wnd t).
Proof.
  intros Hn Hw. unfold is_in_rcv_window.
  rewrite mod_bounded_spec by (try assumption; try apply wsub_u32; apply wadd_u32).
  unfold on_arc. cbn [cmp_offset]. u32_unfold.
  match goal with |- ?L = ?R => destruct L eqn:EL; destruct R eqn:ER; try reflexivity; exfalso; lia end.
Qed.

(* an acceptable text-bearing segment without SYN passes the assert! of stage 6 *)
Lemma seq_ok_assert t seq len fin : rcv_wnd t = DEFAULT_WND -> u32 seq -> 0 < len <= 65536 ->
  is_seq_ok t len seq false fin = true ->
  is_in_rcv_window t seq || is_in_rcv_window t (wadd seq len) = true.
Proof.
  intros Hw Hs Hl. unfold is_seq_ok.
  assert (Hw' : 0 <= rcv_wnd t <= 65535) by (rewrite Hw; unfold DEFAULT_WND; lia).
  rewrite !is_in_rcv_window_spec by (try assumption; try apply wsub_u32; apply wadd_u32).
  destruct (len + b2z fin + b2z false =? 0) eqn:E0; [destruct fin; cbn [b2z] in E0; lia|].
  destruct (rcv_wnd t =? 0) eqn:E1; [discriminate|].
  rewrite Hw. unfold DEFAULT_WND. clear E0 E1.
  destruct fin; cbn [b2z]; u32_unfold; intros H; lia.
Qed.

Lemma is_in_rcv_window_ext t t' n : rcv_nxt t' = rcv_nxt t -> rcv_wnd t' = rcv_wnd t ->
  is_in_rcv_window t' n = is_in_rcv_window t n.
Proof. unfold is_in_rcv_window. intros -> ->. reflexivity. Qed.

(* the fields a function does not touch, as one conjunction *)
Definition same_rcv (t t' : tcb) : Prop :=
  rcv_irs t' = rcv_irs t /\ rcv_nxt t' = rcv_nxt t /\ rcv_wnd t' = rcv_wnd t /\ in_text t' = in_text t.
Definition same_cfg (t t' : tcb) : Prop :=
  lport t' = lport t /\ rport t' = rport t /\ mtu t' = mtu t /\ listen_init t' = listen_init t /\
  snd_iss t' = snd_iss t /\ in_segs t' = in_segs t /\ out_text t' = out_text t /\
  fin_pending t' = fin_pending t /\ snd_nxt t' = snd_nxt t.
Definition same_snd (t t' : tcb) : Prop :=
  snd_una t' = snd_una t /\ snd_wnd t' = snd_wnd t /\ snd_wl1 t' = snd_wl1 t /\ snd_wl2 t' = snd_wl2 t.
Definition same_timers (t t' : tcb) : Prop := rto t' = rto t /\ time_wait t' = time_wait t.

Lemma same_rcv_refl t : same_rcv t t. Proof. repeat split. Qed.
Lemma same_cfg_refl t : same_cfg t t. Proof. repeat split. Qed.
Lemma same_snd_refl t : same_snd t t. Proof. repeat split. Qed.
Lemma same_timers_refl t : same_timers t t. Proof. repeat split. Qed.
Lemma same_rcv_trans a b c : same_rcv a b -> same_rcv b c -> same_rcv a c.
Proof. unfold same_rcv. intuition congruence. Qed.
Lemma same_cfg_trans a b c : same_cfg a b -> same_cfg b c -> same_cfg a c.
Proof. unfold same_cfg. intuition congruence. Qed.
Lemma same_snd_trans a b c : same_snd a b -> same_snd b c -> same_snd a c.
Proof. unfold same_snd. intuition congruence. Qed.
Lemma same_timers_trans a b c : same_timers a b -> same_timers b c -> same_timers a c.
Proof. unfold same_timers. intuition congruence. Qed.

Lemma enqueue_st t h : st (enqueue t h) = st t.
Proof. unfold enqueue. destruct (_ || _); reflexivity. Qed.
Lemma enqueue_same_rcv t h : same_rcv t (enqueue t h).
Proof. unfold enqueue. destruct (_ || _); repeat split. Qed.
Lemma enqueue_same_cfg t h : same_cfg t (enqueue t h).
Proof. unfold enqueue. destruct (_ || _); repeat split. Qed.
Lemma enqueue_same_snd t h : same_snd t (enqueue t h).
Proof. unfold enqueue. destruct (_ || _); repeat split. Qed.
Lemma enqueue_same_timers t h : same_timers t (enqueue t h).
Proof. unfold enqueue. destruct (_ || _); repeat split. Qed.
(* a header without SYN and FIN goes to the one-shot queue *)
Lemma enqueue_plain t h : c_syn (h_ctl h) = false -> c_fin (h_ctl h) = false ->
  enqueue t h = set_oneshot t (oneshot t ++ [h]).
Proof. unfold enqueue. intros -> ->. reflexivity. Qed.

Lemma ack_est_st t h : st (fst (ack_est t h)) = st t.
Proof. unfold ack_est, remove_acked. repeat break_if; tsimpl; rewrite ?enqueue_st; reflexivity. Qed.
Lemma ack_est_same_rcv t h : same_rcv t (fst (ack_est t h)).
Proof.
  unfold ack_est, remove_acked. repeat break_if; tsimpl;
    try apply enqueue_same_rcv; repeat split.
Qed.
Lemma ack_est_same_cfg t h : same_cfg t (fst (ack_est t h)).
Proof.
  unfold ack_est, remove_acked. repeat break_if; tsimpl;
    try apply enqueue_same_cfg; repeat split.
Qed.
Lemma ack_est_same_timers t h : same_timers t (fst (ack_est t h)).
Proof.
  unfold ack_est, remove_acked. repeat break_if; tsimpl;
    try apply enqueue_same_timers; repeat split.
Qed.
Lemma ack_est_result t h : snd (ack_est t h) = PSuccess \/ snd (ack_est t h) = PInvalidAck.
Proof. unfold ack_est. repeat break_if; tsimpl; auto. Qed.

Definition ack_edge (a b : state) : bool :=
  state_eqb a b ||
  match a, b with
  | SynReceived, Established | FinWait1, FinWait2 | Closing, TimeWait => true
  | _, _ => false
  end.
Definition syn_edge (a b : state) : bool :=
  state_eqb a b ||
  match a, b with SynSent, Established | SynSent, SynReceived => true | _, _ => false end.
Definition fin_edge (a b : state) : bool :=
  state_eqb a b ||
  match a, b with
  | SynReceived, CloseWait | Established, CloseWait
  | FinWait1, TimeWait | FinWait1, Closing | FinWait2, TimeWait => true
  | _, _ => false
  end.

(* RFC 9293 Figure 5 + stay + the composite moves of one segment arrival.
   SynSent=1 SynReceived=2 Established=3 FinWait1=4 FinWait2=5 CloseWait=6
   Closing=7 LastAck=8 TimeWait=9:
   (1,2) (1,3) (2,3) (2,4) (3,4) (3,6) (2,6) (4,5) (4,7) (4,9) (5,9) (6,8) (7,9) (1,6) *)
Definition rfc_edge (a b : state) : bool :=
  state_eqb a b ||
  match a, b with
  | SynSent, SynReceived | SynSent, Established
  | SynReceived, Established | SynReceived, FinWait1
  | Established, FinWait1 | Established, CloseWait
  | SynReceived, CloseWait
  | FinWait1, FinWait2 | FinWait1, Closing | FinWait1, TimeWait
  | FinWait2, TimeWait
  | CloseWait, LastAck
  | Closing, TimeWait
  | SynSent, CloseWait => true
  | _, _ => false
  end.

Lemma state_eqb_refl a : state_eqb a a = true.
Proof. destruct a; reflexivity. Qed.
Lemma state_eqb_eq a b : state_eqb a b = true <-> a = b.
Proof. destruct a, b; cbn; split; intros H; try reflexivity; discriminate H. Qed.
Lemma rfc_edge_refl a : rfc_edge a a = true.
Proof. unfold rfc_edge. rewrite state_eqb_refl. reflexivity. Qed.
Lemma ack_edge_refl a : ack_edge a a = true.
Proof. unfold ack_edge. rewrite state_eqb_refl. reflexivity. Qed.
Lemma syn_edge_refl a : syn_edge a a = true.
Proof. unfold syn_edge. rewrite state_eqb_refl. reflexivity. Qed.
Lemma fin_edge_refl a : fin_edge a a = true.
Proof. unfold fin_edge. rewrite state_eqb_refl. reflexivity. Qed.

Lemma ack_edge_rfc a b : ack_edge a b = true -> rfc_edge a b = true.
Proof. destruct a, b; cbn; intros H; try reflexivity; discriminate H. Qed.

(* what the three stages may compose to.  A SYN moves only out of SynSent,
   the ACK stage never moves out of SynSent *)
Lemma compose_ack_fin a b c :
  ack_edge a b = true -> fin_edge b c = true -> rfc_edge a c = true.
Proof. destruct a, b; cbn; intros H; try discriminate H; destruct c; cbn; intros H2; try reflexivity; discriminate H2. Qed.
Lemma compose_syn_fin b c :
  syn_edge SynSent b = true -> b <> SynReceived -> fin_edge b c = true -> rfc_edge SynSent c = true.
Proof.
  destruct b; cbn; intros H Hn; try discriminate H; try (exfalso; apply Hn; reflexivity);
    destruct c; cbn; intros H2; try reflexivity; discriminate H2.
Qed.

(* Everything ack_established_processing and stage 2 do to the TCB is a sequence of these
   updates (h is the header being processed).  A property of the TCB after stage 2 is
   proved by showing that each of them keeps it (ack_steps_rel). *)
Inductive ack_step (h : header) : tcb -> tcb -> Prop :=
| as_ack t : ack_step h t (enqueue t (ack_hdr t))
| as_rst t : ack_step h t (enqueue t (rst_hdr t (h_ack h)))
| as_twack t :
    ack_step h t (enqueue t (hb_wnd (hb_ack (hb t (snd_nxt t)) (wadd (h_seq h) 1)) (rcv_wnd t)))
| as_una t :
    (mod_leq (h_ack h) (snd_una t) = false /\ mod_gt (h_ack h) (snd_nxt t) = false) \/ st t = SynSent ->
    ack_step h t (remove_acked (set_snd_una t (h_ack h)) (h_ack h))
| as_wnd t : ack_step h t (set_snd_window t (h_wnd h) (h_seq h) (h_ack h))
| as_st t s : ack_edge (st t) s = true -> ack_step h t (set_st t s)
| as_tw t : ack_step h t (set_time_wait t (Some MSL2)).

Definition ack_steps (h : header) : tcb -> tcb -> Prop := clos_refl_trans tcb (ack_step h).

Lemma ack_steps_rel h (R : tcb -> tcb -> Prop) :
  (forall t, R t t) -> (forall a b c, R a b -> R b c -> R a c) ->
  (forall a b, ack_step h a b -> R a b) -> forall a b, ack_steps h a b -> R a b.
Proof. intros Hr Ht Hs a b H. induction H; eauto. Qed.

Lemma ack_steps_pres h (I : tcb -> Prop) :
  (forall a b, ack_step h a b -> I a -> I b) -> forall a b, ack_steps h a b -> I a -> I b.
Proof. intros Hs. apply (ack_steps_rel h (fun a b => I a -> I b)); auto. Qed.

Lemma ack_steps_cons h a b c : ack_step h a b -> ack_steps h b c -> ack_steps h a c.
Proof. intros H1 H2. eapply rt_trans; [apply rt_step; exact H1|exact H2]. Qed.

Lemma ack_est_steps t h : ack_steps h t (fst (ack_est t h)).
Proof.
  unfold ack_est. destruct (mod_leq _ _) eqn:E1; [apply rt_refl|].
  destruct (mod_gt _ _) eqn:E2; cbn [fst]; [apply rt_step, as_ack|].
  eapply ack_steps_cons; [apply as_una; left; split; assumption|].
  destruct (_ || _); [apply rt_step, as_wnd|apply rt_refl].
Qed.

Lemma ps_ack_steps t h : ack_steps h t (fst (ps_ack t h)).
Proof.
  unfold ps_ack. destruct (negb (c_ack (h_ctl h))); [apply rt_refl|].
  pose proof (ack_est_steps t h) as Hs. pose proof (ack_est_st t h) as Hst.
  destruct (ack_est t h) as [t2 r]. cbn [fst] in Hs, Hst.
  destruct (st t) eqn:Est.
  - (* SynSent *)
    destruct (mod_bounded _ _ _ _ _).
    { destruct (c_rst _); cbn [fst]; [apply rt_refl|apply rt_step, as_rst]. }
    destruct (mod_bounded _ _ _ _ _); [|apply rt_step, as_rst].
    destruct (c_syn _); cbn [fst]; [|apply rt_refl]. apply rt_step, as_una. right. exact Est.
  - (* SynReceived *)
    destruct (mod_bounded _ _ _ _ _); [|apply rt_step, as_rst].
    set (t1 := set_snd_window _ _ _ _).
    assert (H : ack_steps h t (fst (ack_est t1 h))).
    { eapply ack_steps_cons; [apply (as_st h t Established); rewrite Est; reflexivity|].
      eapply ack_steps_cons; [apply as_wnd|]. apply ack_est_steps. }
    destruct (ack_est t1 h) as [t3 r3]. destruct r3; exact H.
  - destruct r; exact Hs.
  - (* FinWait1 *)
    assert (H : ack_steps h t (if is_fin_acked t2 then set_st t2 FinWait2 else t2)).
    { destruct (is_fin_acked t2); [|exact Hs]. eapply rt_trans; [exact Hs|].
      apply rt_step, as_st; rewrite Hst; reflexivity. }
    destruct r; exact H.
  - destruct r; exact Hs.
  - destruct r; exact Hs.
  - (* Closing *)
    assert (H : ack_steps h t (if is_fin_acked t2 then set_time_wait (set_st t2 TimeWait) (Some MSL2) else t2)).
    { destruct (is_fin_acked t2); [|exact Hs]. eapply rt_trans; [exact Hs|].
      eapply ack_steps_cons; [apply (as_st h t2 TimeWait); rewrite Hst; reflexivity|].
      apply rt_step, as_tw. }
    destruct r; exact H.
  - (* LastAck *)
    destruct (is_fin_acked t2); [|destruct r]; exact Hs.
  - (* TimeWait *)
    destruct (c_fin (h_ctl h)); cbn [fst]; [|apply rt_refl].
    eapply ack_steps_cons; [apply as_twack|apply rt_step, as_tw].
Qed.

Lemma ack_edge_trans a b c : ack_edge a b = true -> ack_edge b c = true -> ack_edge a c = true.
Proof. destruct a, b; cbn; intros H; try discriminate H; destruct c; cbn; intros H2; try reflexivity; discriminate H2. Qed.

Lemma ack_step_st h a b : ack_step h a b -> ack_edge (st a) (st b) = true.
Proof.
  intros []; tsimpl; unfold remove_acked; tsimpl; rewrite ?enqueue_st; try apply ack_edge_refl. assumption.
Qed.

Lemma ps_ack_st t h : ack_edge (st t) (st (fst (ps_ack t h))) = true.
Proof.
  apply (ack_steps_rel h (fun a b => ack_edge (st a) (st b) = true)); [| | |apply ps_ack_steps].
  - intros a. apply ack_edge_refl.
  - intros a b c. apply ack_edge_trans.
  - apply ack_step_st.
Qed.

Lemma ps_ack_same_rcv t h : same_rcv t (fst (ps_ack t h)).
Proof.
  apply (ack_steps_rel h same_rcv); [apply same_rcv_refl|apply same_rcv_trans| |apply ps_ack_steps].
  intros a b []; try apply enqueue_same_rcv; repeat split.
Qed.

Lemma ps_ack_same_cfg t h : same_cfg t (fst (ps_ack t h)).
Proof.
  apply (ack_steps_rel h same_cfg); [apply same_cfg_refl|apply same_cfg_trans| |apply ps_ack_steps].
  intros a b []; try apply enqueue_same_cfg; repeat split.
Qed.

Lemma ps_ack_result t h r : snd (ps_ack t h) = Some r ->
  r = PDiscard \/ r = PInvalidAck \/ (r = PFinalizeClose /\ st t = LastAck /\ c_ack (h_ctl h) = true /\
                                      is_fin_acked (fst (ps_ack t h)) = true /\ st (fst (ps_ack t h)) = LastAck).
Proof.
  unfold ps_ack.
  destruct (c_ack (h_ctl h)) eqn:Eack; cbn [negb]; [|discriminate].
  destruct (st t) eqn:Est;
    try (match goal with |- context [ack_est t h] => idtac end;
         destruct (ack_est t h) as [t2 r2] eqn:Ea;
         destruct (ack_est_result t h) as [R|R]; rewrite Ea in R; cbn [snd] in R; subst r2;
         repeat break_if; tsimpl; intros H; inversion H; auto; fail).
  - repeat break_if; tsimpl; intros H; inversion H; auto.
  - destruct (mod_bounded _ _ _ _ _); [|tsimpl; discriminate].
    destruct (ack_est _ h) as [t2 r2] eqn:Ea.
    match type of Ea with ack_est ?tt _ = _ => destruct (ack_est_result tt h) as [R|R]; rewrite Ea in R end;
      cbn [snd] in R; subst r2; tsimpl; intros H; inversion H; auto.
  - destruct (ack_est t h) as [t2 r2] eqn:Ea.
    assert (E2 : st t2 = LastAck) by (change t2 with (fst (t2, r2)); rewrite <- Ea, ack_est_st; exact Est).
    destruct (ack_est_result t h) as [R|R]; rewrite Ea in R; cbn [snd] in R; subst r2;
      destruct (is_fin_acked t2) eqn:Ef; tsimpl; intros H; inversion H; auto 10.
  - destruct (c_fin (h_ctl h)); tsimpl; discriminate.
Qed.

Lemma ps_rst_some t h r : ps_rst t h = Some r -> c_rst (h_ctl h) = true /\ should_delete r = true.
Proof.
  unfold ps_rst. destruct (c_rst (h_ctl h)); cbn [negb]; [|discriminate].
  repeat break_if; intros H; inversion H; auto.
Qed.
Lemma ps_rst_none t h : ps_rst t h = None -> c_rst (h_ctl h) = false.
Proof.
  unfold ps_rst. destruct (c_rst (h_ctl h)); cbn [negb]; [|reflexivity].
  repeat break_if; discriminate.
Qed.

Lemma ps_syn_nosyn t h : c_syn (h_ctl h) = false -> ps_syn t h = (t, None).
Proof. unfold ps_syn. intros ->. reflexivity. Qed.
Lemma ps_syn_st t h : syn_edge (st t) (st (fst (ps_syn t h))) = true.
Proof.
  unfold ps_syn. destruct (negb (c_syn (h_ctl h))); [apply syn_edge_refl|].
  destruct (st t) eqn:Est; tsimpl; rewrite ?enqueue_st, ?Est; try reflexivity.
  destruct (mod_gt _ _); tsimpl; rewrite enqueue_st; reflexivity.
Qed.
(* a SYN either ends the processing or moves SynSent to Established *)
Lemma ps_syn_continue t h : c_syn (h_ctl h) = true -> snd (ps_syn t h) = None ->
  st t = SynSent /\ st (fst (ps_syn t h)) = Established /\
  rcv_nxt (fst (ps_syn t h)) = wadd (h_seq h) 1 /\ rcv_wnd (fst (ps_syn t h)) = rcv_wnd t /\
  in_text (fst (ps_syn t h)) = in_text t.
Proof.
  unfold ps_syn. intros ->. cbn [negb].
  destruct (st t) eqn:Est; tsimpl; try discriminate.
  destruct (mod_gt _ _); tsimpl; [|discriminate].
  intros _. rewrite enqueue_st.
  match goal with |- context [enqueue ?a ?b] => destruct (enqueue_same_rcv a b) as (_ & E1 & E2 & E3) end.
  rewrite E1, E2, E3. tsimpl. auto.
Qed.
Lemma ps_syn_result t h r : snd (ps_syn t h) = Some r ->
  c_syn (h_ctl h) = true /\
  ((r = PSuccess /\ st t = SynSent /\ st (fst (ps_syn t h)) = SynReceived) \/
   (r = PDiscard /\ st t <> SynSent /\ st (fst (ps_syn t h)) = st t)).
Proof.
  unfold ps_syn. destruct (c_syn (h_ctl h)); cbn [negb]; [|discriminate].
  destruct (st t) eqn:Est; tsimpl; rewrite ?enqueue_st, ?Est;
    try (intros H; inversion H; split; [reflexivity|right; repeat split; congruence]).
  destruct (mod_gt _ _); tsimpl; [discriminate|].
  rewrite enqueue_st. tsimpl. intros H; inversion H. auto.
Qed.
Lemma ps_syn_same_cfg t h : same_cfg t (fst (ps_syn t h)).
Proof.
  unfold ps_syn. destruct (negb (c_syn (h_ctl h))); [apply same_cfg_refl|].
  destruct (st t); tsimpl; try apply enqueue_same_cfg.
  destruct (mod_gt _ _); tsimpl;
    (eapply same_cfg_trans; [|apply enqueue_same_cfg]); repeat split.
Qed.

Definition text_core (t : tcb) (h : header) (text : list Z) : result tcb :=
  let text_len := zlen text in
  if negb (is_in_rcv_window t (h_seq h) || is_in_rcv_window t (wadd (h_seq h) text_len)) then Panic 2
  else
    let already := Z.min (wsub (wsub (rcv_nxt t) (h_seq h)) (b2z (c_syn (h_ctl h)))) text_len in
    let unreceived := text_len - already in
    if rcv_wnd t <? zlen (in_text t) then Panic 3
    else
      let space := rcv_wnd t - zlen (in_text t) in
      let accept := Z.min unreceived space in
      let t1 := set_rcv_nxt t (wadd (rcv_nxt t) accept) in
      let piece := firstn (Z.to_nat accept) (skipn (Z.to_nat already) text) in
      let t2 := set_in_text t1 (in_text t1 ++ piece) in
      Ok (enqueue t2 (ack_hdr t2)).

Lemma ps_text_unfold t h text : ps_text t h text =
  if zlen text =? 0 then Ok t else
  match st t with
  | Established | SynSent | SynReceived | FinWait1 | FinWait2 => text_core t h text
  | _ => Ok t
  end.
Proof. reflexivity. Qed.

Lemma ps_text_nil t h : ps_text t h [] = Ok t.
Proof. reflexivity. Qed.

(* when stage 6 does anything: RCV.NXT advances, a piece of the text that fits the window is
   buffered, an ACK is queued *)
Lemma ps_text_cases t h text t' : ps_text t h text = Ok t' ->
  t' = t \/
  exists n piece, zlen (in_text t) + zlen piece <= rcv_wnd t /\
    let t2 := set_in_text (set_rcv_nxt t (wadd (rcv_nxt t) n)) (in_text t ++ piece) in
    t' = enqueue t2 (ack_hdr t2).
Proof.
  rewrite ps_text_unfold. destruct (zlen text =? 0); [intros [= <-]; left; reflexivity|].
  assert (Hcore : text_core t h text = Ok t' -> t' = t \/
            exists n piece, zlen (in_text t) + zlen piece <= rcv_wnd t /\
              let t2 := set_in_text (set_rcv_nxt t (wadd (rcv_nxt t) n)) (in_text t ++ piece) in
              t' = enqueue t2 (ack_hdr t2)).
  { unfold text_core. destruct (negb _); [discriminate|].
    destruct (rcv_wnd t <? zlen (in_text t)) eqn:E; [discriminate|]. cbv zeta. intros [= <-].
    right. do 2 eexists. split; [|reflexivity]. unfold zlen at 2. rewrite firstn_length. lia. }
  destruct (st t); try exact Hcore; intros [= <-]; left; reflexivity.
Qed.

Lemma ps_text_st t h text t' : ps_text t h text = Ok t' -> st t' = st t.
Proof.
  intros H. destruct (ps_text_cases _ _ _ _ H) as [->|(n & piece & _ & ->)]; [reflexivity|].
  cbv zeta. rewrite enqueue_st. reflexivity.
Qed.
Lemma ps_text_same_cfg t h text t' : ps_text t h text = Ok t' -> same_cfg t t'.
Proof.
  intros H. destruct (ps_text_cases _ _ _ _ H) as [->|(n & piece & _ & ->)]; [apply same_cfg_refl|].
  cbv zeta. eapply same_cfg_trans; [|apply enqueue_same_cfg]. repeat split.
Qed.

Lemma ps_fin_st t h n : fin_edge (st t) (st (ps_fin t h n)) = true.
Proof.
  unfold ps_fin. destruct (negb (c_fin (h_ctl h))); [apply fin_edge_refl|].
  match goal with |- context [match st ?x with _ => _ end] => set (t1 := x) end.
  assert (E1 : st t1 = st t).
  { subst t1. repeat break_if; tsimpl; rewrite ?enqueue_st; reflexivity. }
  destruct (st t1) eqn:Et1; rewrite <- E1; try (destruct (is_fin_acked t1)); tsimpl; rewrite ?Et1; reflexivity.
Qed.
Lemma ps_fin_same_cfg t h n : same_cfg t (ps_fin t h n).
Proof.
  unfold ps_fin. destruct (negb (c_fin (h_ctl h))); [apply same_cfg_refl|].
  match goal with |- context [match st ?x with _ => _ end] => set (t1 := x) end.
  assert (E1 : same_cfg t t1).
  { subst t1. repeat break_if; tsimpl; try apply same_cfg_refl.
    eapply same_cfg_trans; [|apply enqueue_same_cfg]. repeat split. }
  destruct (st t1); try (destruct (is_fin_acked t1)); tsimpl; exact E1.
Qed.

(* process_segment after stage 2 *)
Definition ps_tail (t2 : tcb) (s : segment) : result (tcb * psr) :=
  match ps_rst t2 (s_hdr s) with
  | Some r => Ok (t2, r)
  | None =>
    let '(t4, r4) := ps_syn t2 (s_hdr s) in
    match r4 with
    | Some r => Ok (t4, r)
    | None =>
      if state_eqb (st t4) SynSent then Ok (t4, PDiscard) else
      match ps_text t4 (s_hdr s) (s_text s) with
      | Ok t6 => Ok (ps_fin t6 (s_hdr s) (zlen (s_text s)), PSuccess)
      | Err e => Err e | Panic p => Panic p | OutOfFuel => OutOfFuel
      end
    end
  end.

Lemma process_segment_synsent t s : st t = SynSent ->
  process_segment t s =
    let '(t2, r2) := ps_ack t (s_hdr s) in
    match r2 with Some r => Ok (t2, r) | None => ps_tail t2 s end.
Proof. intros E. unfold process_segment. rewrite E. reflexivity. Qed.

Inductive ps_outcome (t : tcb) (s : segment) (t' : tcb) (r : psr) : Prop :=
| PO_seq :                       (* stage 1: unacceptable sequence number *)
    st t <> SynSent ->
    is_seq_ok t (zlen (s_text s)) (h_seq (s_hdr s)) (c_syn (h_ctl (s_hdr s))) (c_fin (h_ctl (s_hdr s))) = false ->
    t' = enqueue t (ack_hdr t) -> r = PDiscard -> ps_outcome t s t' r
| PO_ack :                       (* stage 2 returned *)
    t' = fst (ps_ack t (s_hdr s)) -> snd (ps_ack t (s_hdr s)) = Some r -> ps_outcome t s t' r
| PO_rst :                       (* stage 3 returned *)
    t' = fst (ps_ack t (s_hdr s)) -> snd (ps_ack t (s_hdr s)) = None ->
    ps_rst t' (s_hdr s) = Some r -> ps_outcome t s t' r
| PO_syn :                       (* stage 4 returned *)
    snd (ps_ack t (s_hdr s)) = None -> ps_rst (fst (ps_ack t (s_hdr s))) (s_hdr s) = None ->
    t' = fst (ps_syn (fst (ps_ack t (s_hdr s))) (s_hdr s)) ->
    snd (ps_syn (fst (ps_ack t (s_hdr s))) (s_hdr s)) = Some r -> ps_outcome t s t' r
| PO_synsent :                   (* 3.10.7.3 fifth: neither SYN nor RST in SYN-SENT *)
    snd (ps_ack t (s_hdr s)) = None -> ps_rst (fst (ps_ack t (s_hdr s))) (s_hdr s) = None ->
    t' = fst (ps_syn (fst (ps_ack t (s_hdr s))) (s_hdr s)) ->
    snd (ps_syn (fst (ps_ack t (s_hdr s))) (s_hdr s)) = None ->
    st t' = SynSent -> r = PDiscard -> ps_outcome t s t' r
| PO_full t4 t6 :                (* stages 6 and 7 *)
    snd (ps_ack t (s_hdr s)) = None -> ps_rst (fst (ps_ack t (s_hdr s))) (s_hdr s) = None ->
    t4 = fst (ps_syn (fst (ps_ack t (s_hdr s))) (s_hdr s)) ->
    snd (ps_syn (fst (ps_ack t (s_hdr s))) (s_hdr s)) = None ->
    st t4 <> SynSent ->
    ps_text t4 (s_hdr s) (s_text s) = Ok t6 ->
    t' = ps_fin t6 (s_hdr s) (zlen (s_text s)) -> r = PSuccess -> ps_outcome t s t' r.

Definition seq_checked (t : tcb) : bool :=
  match st t with SynSent => false | _ => true end.

Lemma process_segment_cases t s t' r :
  process_segment t s = Ok (t', r) -> ps_outcome t s t' r.
Proof.
  unfold process_segment.
  match goal with |- context [if ?c then _ else _] => destruct c eqn:Ebad end.
  - intros H; inversion H; subst.
    destruct (st t) eqn:Est; try discriminate Ebad;
      apply negb_true_iff in Ebad; apply PO_seq; auto; congruence.
  - destruct (ps_ack t (s_hdr s)) as [t2 r2] eqn:Ea. destruct r2 as [r2|].
    { intros H; inversion H; subst. apply PO_ack; rewrite Ea; reflexivity. }
    destruct (ps_rst t2 (s_hdr s)) as [r3|] eqn:Er.
    { intros H; inversion H; subst. apply PO_rst; rewrite ?Ea; cbn [fst snd]; auto. }
    destruct (ps_syn t2 (s_hdr s)) as [t4 r4] eqn:Es. destruct r4 as [r4|].
    { intros H; inversion H; subst. apply PO_syn; rewrite ?Ea; cbn [fst snd]; rewrite ?Es; auto. }
    destruct (state_eqb (st t4) SynSent) eqn:E4.
    { intros H; inversion H; subst. apply state_eqb_eq in E4.
      apply PO_synsent; rewrite ?Ea; cbn [fst snd]; rewrite ?Es; auto. }
    destruct (ps_text t4 (s_hdr s) (s_text s)) as [t6| | |] eqn:Et; try discriminate.
    intros H; inversion H; subst.
    apply PO_full with (t4 := t4) (t6 := t6); rewrite ?Ea; cbn [fst snd]; rewrite ?Es; auto.
    intros C. apply state_eqb_eq in C. congruence.
Qed.

(* in_segs is never touched by process_segment *)
Lemma process_segment_same_cfg t s t' r : process_segment t s = Ok (t', r) -> same_cfg t t'.
Proof.
  intros H. destruct (process_segment_cases _ _ _ _ H); subst.
  - apply enqueue_same_cfg.
  - apply ps_ack_same_cfg.
  - apply ps_ack_same_cfg.
  - eapply same_cfg_trans; [apply ps_ack_same_cfg|apply ps_syn_same_cfg].
  - eapply same_cfg_trans; [apply ps_ack_same_cfg|apply ps_syn_same_cfg].
  - eapply same_cfg_trans; [apply ps_ack_same_cfg|].
    eapply same_cfg_trans; [apply ps_syn_same_cfg|].
    eapply same_cfg_trans; [eapply ps_text_same_cfg; eassumption|apply ps_fin_same_cfg].
Qed.
Lemma process_segment_in_segs t s t' r : process_segment t s = Ok (t', r) -> in_segs t' = in_segs t.
Proof. intros H. apply process_segment_same_cfg in H. apply H. Qed.

(* the loop of segment_arrives, once: what one round of it does (peek, stop if the
   head lies ahead of RCV.NXT, pop, process, leave on a deleting result) is unfolded here *)

(* partial correctness: Q relates the TCB before to the result *)
Lemma arrives_loop_ind (Q : tcb -> tcb -> arrives_result -> Prop) :
  (forall t, Q t t AOk) ->
  (forall t s rest t1 r1, heap_pop (in_segs t) = Some (s, rest) ->
     process_segment (set_in_segs t rest) s = Ok (t1, r1) -> should_delete r1 = true -> Q t t1 AClose) ->
  (forall t s rest t1 r1 t' r, heap_pop (in_segs t) = Some (s, rest) ->
     process_segment (set_in_segs t rest) s = Ok (t1, r1) -> should_delete r1 = false ->
     Q t1 t' r -> Q t t' r) ->
  forall fuel t t' r, arrives_loop fuel t = Ok (t', r) -> Q t t' r.
Proof.
  intros Hstay Hclose Hnext.
  induction fuel as [|f IH]; intros t t' r; cbn [arrives_loop]; [discriminate|].
  destruct (heap_peek (in_segs t)) as [top|]; [|intros [= <- <-]; apply Hstay].
  destruct (_ && _); [intros [= <- <-]; apply Hstay|].
  destruct (heap_pop (in_segs t)) as [[s rest]|] eqn:Epop; [|discriminate].
  destruct (process_segment (set_in_segs t rest) s) as [[t1 r1]| | |] eqn:Ep; try discriminate.
  destruct (should_delete r1) eqn:Ed.
  - intros [= <- <-]. eapply Hclose; eassumption.
  - intros H. eapply Hnext; [eassumption..|]. apply IH, H.
Qed.

(* termination without failure, with an invariant: it is enough that the invariant makes
   process_segment succeed on the head of the heap and is re-established by it *)
Lemma arrives_loop_total (I : tcb -> Prop) :
  (forall t s rest, I t -> heap_pop (in_segs t) = Some (s, rest) ->
     (state_eqb (st t) SynSent = false -> mod_gt (h_seq (s_hdr s)) (rcv_nxt t) = false) ->
     exists t1 r, process_segment (set_in_segs t rest) s = Ok (t1, r) /\ I t1) ->
  forall fuel t, I t -> (length (in_segs t) < fuel)%nat ->
  exists t' r, arrives_loop fuel t = Ok (t', r) /\ I t'.
Proof.
  intros Hstep. induction fuel as [|f IH]; intros t HI Hfuel; [lia|]. cbn [arrives_loop].
  destruct (heap_peek (in_segs t)) as [top|] eqn:Epeek; [|eauto].
  destruct (negb (state_eqb (st t) SynSent) && mod_gt (h_seq (s_hdr top)) (rcv_nxt t)) eqn:Estop; [eauto|].
  destruct (heap_pop (in_segs t)) as [[s rest]|] eqn:Epop.
  2:{ apply heap_pop_none in Epop. rewrite Epop in Epeek. discriminate Epeek. }
  assert (s = top) by (eapply heap_pop_peek; eassumption). subst s.
  destruct (Hstep t top rest HI Epop) as (t1 & r & Ep & HI1).
  { intros Hss. rewrite Hss in Estop. exact Estop. }
  rewrite Ep. destruct (should_delete r); [eauto|].
  apply IH; [exact HI1|].
  rewrite (process_segment_in_segs _ _ _ _ Ep). tsimpl.
  apply heap_pop_length in Epop. lia.
Qed.

Lemma segment_arrives_total (I : tcb -> Prop) :
  (forall t s rest, I t -> heap_pop (in_segs t) = Some (s, rest) ->
     (state_eqb (st t) SynSent = false -> mod_gt (h_seq (s_hdr s)) (rcv_nxt t) = false) ->
     exists t1 r, process_segment (set_in_segs t rest) s = Ok (t1, r) /\ I t1) ->
  forall t s, I (set_in_segs t (heap_push (in_segs t) s)) ->
  exists t' r, segment_arrives t s = Ok (t', r) /\ I t'.
Proof.
  intros Hstep t s HI. unfold segment_arrives. apply arrives_loop_total; [exact Hstep|exact HI|]. tsimpl. lia.
Qed.

Lemma process_segment_edge t s t' r :
  process_segment t s = Ok (t', r) -> rfc_edge (st t) (st t') = true.
Proof.
  intros H. destruct (process_segment_cases _ _ _ _ H) as
      [? ? ? ?|? ?|? ? ?|Ha Hr ? Hs|Ha Hr ? Hs ? ?|t4 t6 Ha Hr ? Hs Hn Ht ? ?]; subst.
  - rewrite enqueue_st. apply rfc_edge_refl.
  - apply ack_edge_rfc, ps_ack_st.
  - apply ack_edge_rfc, ps_ack_st.
  - pose proof (ps_ack_st t (s_hdr s)) as E1.
    destruct (ps_syn_result _ _ _ Hs) as (_ & [(_ & E2 & E3)|(_ & _ & E3)]).
    + rewrite E3. rewrite E2 in E1. destruct (st t); try discriminate E1. reflexivity.
    + rewrite E3. apply ack_edge_rfc, E1.
  - pose proof (ps_ack_st t (s_hdr s)) as E1.
    pose proof (ps_syn_st (fst (ps_ack t (s_hdr s))) (s_hdr s)) as E2.
    match goal with H : st _ = SynSent |- _ => rewrite H in * end.
    destruct (st (fst (ps_ack t (s_hdr s)))); try discriminate E2.
    destruct (st t); try discriminate E1. reflexivity.
  - pose proof (ps_ack_st t (s_hdr s)) as E1.
    pose proof (ps_fin_st t6 (s_hdr s) (zlen (s_text s))) as E3.
    rewrite (ps_text_st _ _ _ _ Ht) in E3.
    destruct (c_syn (h_ctl (s_hdr s))) eqn:Esyn.
    + destruct (ps_syn_continue _ _ Esyn Hs) as (E2 & E4 & _).
      rewrite E4 in E3. rewrite E2 in E1.
      destruct (st t); try discriminate E1.
      destruct (st (ps_fin t6 (s_hdr s) (zlen (s_text s)))); try discriminate E3; reflexivity.
    + rewrite (ps_syn_nosyn _ _ Esyn) in E3. cbn [fst] in E3.
      eapply compose_ack_fin; eassumption.
Qed.

Lemma queue_pending_fin_st t : st (queue_pending_fin t) = st t.
Proof. unfold queue_pending_fin. break_if; tsimpl; rewrite ?enqueue_st; reflexivity. Qed.

(* close moves exactly along the three CLOSE edges of Figure 5 *)
Lemma tcb_close_exact t :
  (st t = SynReceived /\ st (fst (tcb_close t)) = FinWait1) \/
  (st t = Established /\ st (fst (tcb_close t)) = FinWait1) \/
  (st t = CloseWait /\ st (fst (tcb_close t)) = LastAck) \/
  (fst (tcb_close t) = t /\ snd (tcb_close t) = CloseClosing).
Proof.
  unfold tcb_close. destruct (st t) eqn:Est; cbn [fst snd];
    rewrite ?queue_pending_fin_st; tsimpl; auto 6.
Qed.
Lemma advance_time_st t dt : st (fst (advance_time t dt)) = st t.
Proof.
  unfold advance_time. destruct (rto t <? dt); tsimpl;
    destruct (time_wait t) as [tw|]; try destruct (tw <? dt); reflexivity.
Qed.
Lemma tcb_send_st t b : st (tcb_send t b) = st t.
Proof. unfold tcb_send. break_if; reflexivity. Qed.
Lemma tcb_receive_st t : st (fst (tcb_receive t)) = st t.
Proof. reflexivity. Qed.

Definition seg_bytes (t : tcb) (mss : Z) : Z :=
  Z.min (Z.min mss (Z.max 0 (snd_wnd t - wsub (snd_nxt t) (snd_una t)))) (zlen (out_text t)).

(* one round of the loop: [bytes] of the queued text leave in a new segment *)
Definition seg_step (t : tcb) (bytes : Z) : tcb :=
  let text := firstn (Z.to_nat bytes) (out_text t) in
  let h := hb_wnd (hb_ack (hb t (snd_nxt t)) (rcv_nxt t)) (rcv_wnd t) in
  let t1 := set_out_text t (skipn (Z.to_nat bytes) (out_text t)) in
  let t2 := set_snd_nxt t1 (wadd (snd_nxt t1) bytes) in
  set_retx t2 (retx t2 ++ [mkTx (mkSeg h text) true]).

Lemma seg_step_out_text t b : 0 <= b -> zlen (out_text (seg_step t b)) = Z.max 0 (zlen (out_text t) - b).
Proof. intros H. unfold seg_step, zlen. cbn [out_text set_retx set_snd_nxt set_out_text]. rewrite skipn_length. lia. Qed.

Lemma seg_loop_ind (R : tcb -> tcb -> Prop) mss : 0 <= mss ->
  (forall t, R t t) -> (forall a b c, R a b -> R b c -> R a c) ->
  (forall t, 0 < seg_bytes t mss -> seg_bytes t mss + 20 <= 65535 -> R t (seg_step t (seg_bytes t mss))) ->
  forall fuel t t', seg_loop fuel t mss (zlen (out_text t)) = Ok t' -> R t t'.
Proof.
  intros Hmss Hr Ht Hs. induction fuel as [|f IH]; intros t t'; cbn [seg_loop]; [discriminate|].
  fold (seg_bytes t mss). fold (seg_step t (seg_bytes t mss)).
  assert (Hb : 0 <= seg_bytes t mss <= zlen (out_text t)) by (unfold seg_bytes, zlen; lia).
  destruct (seg_bytes t mss =? 0) eqn:E0; [intros [= <-]; apply Hr|].
  destruct (65535 <? seg_bytes t mss + 20) eqn:E1; [discriminate|].
  replace (zlen (out_text t) - seg_bytes t mss) with (zlen (out_text (seg_step t (seg_bytes t mss))))
    by (rewrite seg_step_out_text; lia).
  intros H. eapply Ht; [apply Hs; lia|apply IH, H].
Qed.

Lemma seg_loop_total (I : tcb -> Prop) mss : 0 <= mss <= 65535 - SPACE_FOR_HEADERS ->
  (forall t, I t -> 0 < seg_bytes t mss -> I (seg_step t (seg_bytes t mss))) ->
  forall fuel t, I t -> (length (out_text t) < fuel)%nat ->
  exists t', seg_loop fuel t mss (zlen (out_text t)) = Ok t' /\ I t'.
Proof.
  intros Hmss Hs. induction fuel as [|f IH]; intros t HI Hfuel; [lia|]. cbn [seg_loop].
  fold (seg_bytes t mss). fold (seg_step t (seg_bytes t mss)).
  assert (Hb : 0 <= seg_bytes t mss <= mss /\ seg_bytes t mss <= zlen (out_text t)) by (unfold seg_bytes, zlen; lia).
  destruct (seg_bytes t mss =? 0) eqn:E0; [eauto|].
  replace (65535 <? seg_bytes t mss + 20) with false by (unfold SPACE_FOR_HEADERS in Hmss; lia).
  replace (zlen (out_text t) - seg_bytes t mss) with (zlen (out_text (seg_step t (seg_bytes t mss))))
    by (rewrite seg_step_out_text; lia).
  apply IH; [apply Hs; [exact HI|lia]|].
  pose proof (seg_step_out_text t (seg_bytes t mss) ltac:(lia)) as E. unfold zlen in *. lia.
Qed.

(* the middle phase: segmentize and queue the deferred FIN *)
Definition seg_mid (t0 : tcb) : result tcb :=
  if segmentizes (st t0) then
    if mtu t0 <? SPACE_FOR_HEADERS then Panic 5
    else
      match seg_loop (S (length (out_text t0))) t0 (mtu t0 - SPACE_FOR_HEADERS) (zlen (out_text t0)) with
      | Ok t1 => Ok (queue_pending_fin t1)
      | other => other
      end
  else Ok t0.

(* the last phase: everything due has gone out, the timer restarts if something did *)
Definition seg_finish (t1 : tcb) : tcb :=
  let t2 := set_retx t1 (map (fun tx => mkTx (t_seg tx) false) (retx t1)) in
  match map t_seg (filter t_needs (retx t1)) with [] => t2 | _ => set_rto t2 RTO end.

Lemma tcb_segments_unfold t : tcb_segments t =
  match seg_mid (set_oneshot t []) with
  | Ok t1 => Ok (seg_finish t1, map (fun h => mkSeg h []) (oneshot t) ++ map t_seg (filter t_needs (retx t1)))
  | Err e => Err e | Panic p => Panic p | OutOfFuel => OutOfFuel
  end.
Proof. reflexivity. Qed.

Lemma seg_mid_ind (R : tcb -> tcb -> Prop) :
  (forall t, R t t) -> (forall a b c, R a b -> R b c -> R a c) ->
  (forall t mss, 0 <= mss -> 0 < seg_bytes t mss -> seg_bytes t mss + 20 <= 65535 ->
     R t (seg_step t (seg_bytes t mss))) ->
  (forall t, R t (queue_pending_fin t)) ->
  forall t0 t1, seg_mid t0 = Ok t1 -> R t0 t1.
Proof.
  intros Hr Ht Hs Hq t0 t1. unfold seg_mid.
  destruct (segmentizes (st t0)); [|intros [= <-]; apply Hr].
  destruct (mtu t0 <? SPACE_FOR_HEADERS) eqn:Em; [discriminate|].
  destruct (seg_loop _ _ _ _) as [t2| | |] eqn:El; try discriminate. intros [= <-].
  eapply Ht; [|apply Hq].
  apply (seg_loop_ind R (mtu t0 - SPACE_FOR_HEADERS)) in El; [exact El|lia|exact Hr|exact Ht|].
  intros t. apply Hs. lia.
Qed.

Lemma seg_mid_total (I : tcb -> Prop) :
  (forall t, I t -> SPACE_FOR_HEADERS <= mtu t <= 65535) ->
  (forall t mss, I t -> 0 <= mss <= 65535 - SPACE_FOR_HEADERS -> 0 < seg_bytes t mss ->
     I (seg_step t (seg_bytes t mss))) ->
  (forall t, I t -> I (queue_pending_fin t)) ->
  forall t0, I t0 -> exists t1, seg_mid t0 = Ok t1 /\ I t1.
Proof.
  intros Hm Hs Hq t0 HI. unfold seg_mid. destruct (segmentizes (st t0)); [|eauto].
  pose proof (Hm t0 HI) as Hmtu. replace (mtu t0 <? SPACE_FOR_HEADERS) with false by lia.
  destruct (seg_loop_total I (mtu t0 - SPACE_FOR_HEADERS)) with (fuel := S (length (out_text t0))) (t := t0)
    as (t1 & E1 & H1); [lia| |exact HI|lia|].
  - intros t H. apply Hs; [exact H|lia].
  - rewrite E1. eauto.
Qed.

Lemma seg_finish_cases (R : tcb -> tcb -> Prop) t1 :
  R t1 (set_retx t1 (map (fun tx => mkTx (t_seg tx) false) (retx t1))) ->
  R t1 (set_rto (set_retx t1 (map (fun tx => mkTx (t_seg tx) false) (retx t1))) RTO) ->
  R t1 (seg_finish t1).
Proof. intros H1 H2. unfold seg_finish. destruct (map t_seg _); assumption. Qed.

Lemma seg_mid_st t0 t1 : seg_mid t0 = Ok t1 -> st t1 = st t0.
Proof.
  apply (seg_mid_ind (fun a b => st b = st a)); try reflexivity.
  - intros a b c E1 E2. congruence.
  - intros t. apply queue_pending_fin_st.
Qed.

Lemma tcb_segments_st t t' segs : tcb_segments t = Ok (t', segs) -> st t' = st t.
Proof.
  rewrite tcb_segments_unfold. destruct (seg_mid _) as [t1| | |] eqn:E1; try discriminate.
  intros [= <- _]. apply seg_mid_st in E1. transitivity (st t1); [|exact E1].
  apply (seg_finish_cases (fun a b => st b = st a)); reflexivity.
Qed.

Definition rfc_step (a b : state) : Prop := rfc_edge a b = true.
Definition rfc_path : state -> state -> Prop := clos_refl_trans state rfc_step.

Lemma arrives_loop_path fuel t t' r : arrives_loop fuel t = Ok (t', r) -> rfc_path (st t) (st t').
Proof.
  apply (arrives_loop_ind (fun t t' _ => rfc_path (st t) (st t'))).
  - intros t0. apply rt_refl.
  - intros t0 s rest t1 r1 _ Ep _. apply rt_step. apply process_segment_edge in Ep. exact Ep.
  - intros t0 s rest t1 r1 t2 _ _ Ep _ H. eapply rt_trans; [|exact H].
    apply rt_step. apply process_segment_edge in Ep. exact Ep.
Qed.

Lemma segment_arrives_path t s t' r :
  segment_arrives t s = Ok (t', r) -> rfc_path (st t) (st t').
Proof. unfold segment_arrives. intros H. apply arrives_loop_path in H. exact H. Qed.

(* with an empty reassembly heap exactly one segment is looked at *)
Lemma heap_push_nil s : heap_push [] s = [s].
Proof. reflexivity. Qed.
Lemma heap_pop_single s : heap_pop [s] = Some (s, []).
Proof. reflexivity. Qed.

Lemma set_in_segs_id t : set_in_segs t (in_segs t) = t.
Proof. destruct t; reflexivity. Qed.

Definition lift_ps (r : result (tcb * psr)) : result (tcb * arrives_result) :=
  match r with
  | Ok (t1, pr) => Ok (t1, if should_delete pr then AClose else AOk)
  | Err e => Err e | Panic p => Panic p | OutOfFuel => OutOfFuel
  end.

Lemma segment_arrives_empty_heap t s : in_segs t = [] ->
  segment_arrives t s =
    if negb (state_eqb (st t) SynSent) && mod_gt (h_seq (s_hdr s)) (rcv_nxt t)
    then Ok (set_in_segs t [s], AOk)
    else lift_ps (process_segment t s).
Proof.
  intros He. unfold segment_arrives. rewrite He, heap_push_nil.
  cbn [length arrives_loop]. tsimpl. cbn [heap_peek].
  destruct (_ && _); [reflexivity|].
  rewrite heap_pop_single.
  change (set_in_segs (set_in_segs t [s]) []) with (set_in_segs t []). rewrite <- He at 1. rewrite set_in_segs_id.
  unfold lift_ps.
  destruct (process_segment t s) as [[t1 r1]| | |] eqn:Ep; try reflexivity.
  destruct (should_delete r1); [reflexivity|].
  rewrite (process_segment_in_segs _ _ _ _ Ep), He. reflexivity.
Qed.

Inductive one_arrival (t : tcb) (s : segment) (t' : tcb) (r : arrives_result) : Prop :=
| OA_queued :      (* ahead of RCV.NXT: left in the heap, nothing else changes *)
    st t <> SynSent -> mod_gt (h_seq (s_hdr s)) (rcv_nxt t) = true ->
    t' = set_in_segs t [s] -> r = AOk -> one_arrival t s t' r
| OA_processed pr : (* processed at once *)
    process_segment t s = Ok (t', pr) ->
    r = (if should_delete pr then AClose else AOk) -> one_arrival t s t' r.

Lemma segment_arrives_one t s t' r :
  in_segs t = [] -> segment_arrives t s = Ok (t', r) -> one_arrival t s t' r.
Proof.
  intros He. rewrite (segment_arrives_empty_heap _ _ He).
  destruct (negb (state_eqb (st t) SynSent) && mod_gt (h_seq (s_hdr s)) (rcv_nxt t)) eqn:Eq.
  - intros [= <- <-]. apply andb_true_iff in Eq. destruct Eq as [E1 E2].
    apply OA_queued; auto. intros C. rewrite C in E1. discriminate E1.
  - unfold lift_ps. destruct (process_segment t s) as [[t1 r1]| | |] eqn:Ep; try discriminate.
    intros [= <- <-]. eapply OA_processed; [eassumption|reflexivity].
Qed.

Lemma segment_arrives_edge_one t s t' r :
  in_segs t = [] -> segment_arrives t s = Ok (t', r) -> rfc_edge (st t) (st t') = true.
Proof.
  intros He H. destruct (segment_arrives_one _ _ _ _ He H) as [? ? ? ?|pr Hp ?]; subst.
  - apply rfc_edge_refl.
  - eapply process_segment_edge; eassumption.
Qed.

(* the two ways a TCB is deleted: a RST that got past the sequence check, or in LAST-ACK the
   acknowledgment of our FIN *)
Definition delete_cause (t : tcb) (s : segment) (t' : tcb) (r : psr) : Prop :=
  (c_rst (h_ctl (s_hdr s)) = true /\ ps_rst t' (s_hdr s) = Some r) \/
  (r = PFinalizeClose /\ c_ack (h_ctl (s_hdr s)) = true /\ st t = LastAck /\ st t' = LastAck /\
   is_fin_acked t' = true).

Lemma process_segment_deleted t s t' r :
  process_segment t s = Ok (t', r) -> should_delete r = true -> delete_cause t s t' r.
Proof.
  intros H Hd. destruct (process_segment_cases _ _ _ _ H) as
      [? ? ? ?|? Ha|? ? Hr|Ha Hr ? Hs|Ha Hr ? Hs ? ?|t4 t6 Ha Hr ? Hs Hn Ht ? ?]; subst;
    try discriminate Hd.
  - destruct (ps_ack_result _ _ _ Ha) as [->|[->|(-> & ? & ? & ? & ?)]]; try discriminate Hd.
    right. auto.
  - left. split; [|exact Hr]. apply ps_rst_some in Hr. apply Hr.
  - destruct (ps_syn_result _ _ _ Hs) as (_ & [(-> & _)|(-> & _)]); discriminate Hd.
Qed.

(* which deleting result a RST gives, by the state it meets (after the ACK stage) *)
Lemma ps_rst_by_state t h r : ps_rst t h = Some r ->
  match st t with
  | SynSent => r = (if h_seq h =? rcv_nxt t then PConnectionReset else PBlindReset)
  | SynReceived => r = (if listen_init t then PReturnToListen else PConnectionRefused)
  | Established | FinWait1 | FinWait2 | CloseWait => r = PConnectionReset
  | Closing | LastAck | TimeWait => r = PFinalizeClose
  end.
Proof.
  unfold ps_rst. destruct (negb (c_rst (h_ctl h))); [discriminate|].
  destruct (st t); repeat break_if; intros H; inversion H; reflexivity.
Qed.

Lemma segment_arrives_close_one t s t' :
  in_segs t = [] -> segment_arrives t s = Ok (t', AClose) ->
  exists r, process_segment t s = Ok (t', r) /\ should_delete r = true /\ delete_cause t s t' r.
Proof.
  intros He H. destruct (segment_arrives_one _ _ _ _ He H) as [? ? ? Hr|pr Hp Hr]; [discriminate Hr|].
  destruct (should_delete pr) eqn:Ed; [|discriminate Hr].
  exists pr. repeat split; auto. eapply process_segment_deleted; eassumption.
Qed.

(* rfc_edge is exactly "stay" or one of these fourteen pairs *)
Definition rfc_table : list (state * state) :=
  [(SynSent, SynReceived); (SynSent, Established); (SynReceived, Established);
   (SynReceived, FinWait1); (Established, FinWait1); (Established, CloseWait);
   (SynReceived, CloseWait); (FinWait1, FinWait2); (FinWait1, Closing); (FinWait1, TimeWait);
   (FinWait2, TimeWait); (CloseWait, LastAck); (Closing, TimeWait); (SynSent, CloseWait)].
Lemma rfc_edge_table a b : rfc_edge a b = true <-> a = b \/ In (a, b) rfc_table.
Proof.
  split.
  - destruct a, b; cbn; intros H; try discriminate H; auto; right; intuition congruence.
  - intros [->|H]; [apply rfc_edge_refl|].
    unfold rfc_table in H. cbn [In] in H.
    repeat (destruct H as [H|H]; [inversion H; subst; reflexivity|]). destruct H.
Qed.
