(* C13 - facts about Model/Startup.v: the start barrier under every interleaving, the exit status of the run
   task (Section AnyRecv: for any get_status), and what the trace validator establishes. *)
From Elvis Require Import Model.Base Model.Startup Proofs.ProtoListFacts.

Lemma all_protos_complete : forall p, In p all_protos.
Proof. destruct p; unfold all_protos; repeat first [left; reflexivity | right]. Qed.

Lemma builtin_table_rows : forall p, In (p, row p) builtin_table.
Proof.
  intro p. unfold builtin_table. apply in_map_iff. exists p. split; [reflexivity | apply all_protos_complete].
Qed.

Lemma offenders_not_resolving : offenders false = [].
Proof. vm_compute. reflexivity. Qed.

Lemma row_waits_once : forall p, nwaits (row p) = 1.
Proof. destruct p; reflexivity. Qed.

Lemma row_ffbw : forall res p, (p = PForward -> res = false) -> frame_free_before_wait res (row p) = true.
Proof. intros [] p H; destruct p; try reflexivity. discriminate (H eq_refl). Qed.

(* the rows list the calls of all branches in source order; a path executes a subsequence that keeps the
   top-level barrier wait *)
Inductive subseq {A} : list A -> list A -> Prop :=
| sub_nil : subseq [] []
| sub_skip : forall a l l', subseq l' l -> subseq l' (a :: l)
| sub_take : forall a l l', subseq l' l -> subseq (a :: l') (a :: l).

Lemma subseq_nil_l : forall {A} (l : list A), subseq [] l.
Proof. induction l; constructor; assumption. Qed.

Lemma subseq_nwaits : forall l' l, subseq l' l -> nwaits l' <= nwaits l.
Proof. induction 1; simpl; lia. Qed.

Lemma nwaits_zero_no_wait : forall l, nwaits l = 0 -> forall a, In a l -> is_wait a = false.
Proof.
  induction l as [|b l IH]; simpl; intros H a Ha; [tauto|].
  destruct (is_wait b) eqn:Eb; [simpl in H; lia|].
  destruct Ha as [->|Ha]; [assumption | apply IH; [simpl in H; lia | assumption]].
Qed.

Lemma ffbw_subseq : forall res l' l,
  subseq l' l -> nwaits l = 1 -> nwaits l' = 1 -> ffbw res l = true -> ffbw res l' = true.
Proof.
  intros res l' l H. induction H as [| a l l' H IH | a l l' H IH]; intros Hl Hl' Hf.
  - reflexivity.
  - simpl in Hl, Hf. destruct (is_wait a) eqn:Ea.
    + (* the path skipped the only wait: excluded *)
      simpl in Hl. assert (nwaits l' <= nwaits l) by (apply subseq_nwaits; assumption). lia.
    + apply andb_true_iff in Hf. destruct Hf as [_ Hf]. apply IH; [simpl in Hl; lia | assumption | assumption].
  - simpl in *. destruct (is_wait a) eqn:Ea; [reflexivity|].
    apply andb_true_iff in Hf. destruct Hf as [Hm Hf]. rewrite Hm. simpl.
    apply IH; [lia | lia | assumption].
Qed.

Fixpoint count_blocked (l : list task) : nat :=
  match l with
  | [] => 0
  | t :: r => (if t_blocked t then 1 else 0) + count_blocked r
  end.

Definition arrived_all (n : nat) (log : list event) : Prop :=
  forall j, j < n -> In (EvAct j ABarrierWait) log.

(* no frame / delivery before every task has arrived at the barrier *)
Definition good (n : nat) (log : list event) : Prop :=
  forall pre ev post, log = pre ++ ev :: post -> net_event ev = true -> arrived_all n pre.

Definition PreInv (s : sys) (log : list event) : Prop :=
  s_frames s = 0 /\ s_helpers s = [] /\
  s_arrived s = count_blocked (s_tasks s) /\
  (forall j t, nth_error (s_tasks s) j = Some t ->
     (t_blocked t = true -> In (EvAct j ABarrierWait) log) /\
     (t_blocked t = false -> ffbw (t_res t) (t_todo t) = true)).

Definition PhaseInv (n : nat) (s : sys) (log : list event) : Prop :=
  length (s_tasks s) = n /\ good n log /\ (arrived_all n log \/ PreInv s log).

Lemma arrived_all_app : forall n l l2, arrived_all n l -> arrived_all n (l ++ l2).
Proof. intros n l l2 H j Hj. apply in_or_app. left. apply H. assumption. Qed.

Lemma good_app_all : forall n l l2, good n l -> arrived_all n l -> good n (l ++ l2).
Proof.
  intros n l l2 Hg Ha pre ev post Heq Hnet.
  destruct (split_app _ _ _ _ _ Heq) as [[q Hq]|[q [Hq1 _]]].
  - eapply Hg; eassumption.
  - subst pre. apply arrived_all_app. assumption.
Qed.

Lemma good_app_nonet : forall n l l2,
  good n l -> (forall e, In e l2 -> net_event e = false) -> good n (l ++ l2).
Proof.
  intros n l l2 Hg Hn pre ev post Heq Hnet.
  destruct (split_app _ _ _ _ _ Heq) as [[q Hq]|[q [_ Hq2]]].
  - eapply Hg; eassumption.
  - assert (In ev l2) by (rewrite Hq2; apply in_or_app; right; left; reflexivity).
    rewrite (Hn _ H) in Hnet. discriminate.
Qed.

Lemma upd_length : forall {A} (l : list A) i x, length (upd l i x) = length l.
Proof. intros. rewrite upd_set_nth. apply set_nth_length. Qed.

Lemma nth_upd : forall {A} (l : list A) i j x,
  nth_error (upd l i x) j = if Nat.eqb i j then option_map (fun _ => x) (nth_error l j) else nth_error l j.
Proof. intros. rewrite upd_set_nth. apply nth_error_set_nth. Qed.

Lemma nth_some_lt : forall {A} (l : list A) j x, nth_error l j = Some x -> j < length l.
Proof. intros. apply nth_error_Some. congruence. Qed.

Definition b2n (b : bool) : nat := if b then 1 else 0.

Lemma cb_upd : forall l i t x, nth_error l i = Some t ->
  count_blocked (upd l i x) + b2n (t_blocked t) = count_blocked l + b2n (t_blocked x).
Proof.
  induction l as [|a l IH]; destruct i; simpl; intros t x H; try discriminate.
  - inversion H; subst. unfold b2n. lia.
  - specialize (IH _ _ x H). lia.
Qed.

Lemma cb_one : forall l i t, nth_error l i = Some t -> t_blocked t = false -> S (count_blocked l) <= length l.
Proof.
  induction l as [|a l IH]; destruct i; simpl; intros t H Hb; try discriminate.
  - inversion H; subst. rewrite Hb. simpl.
    assert (count_blocked l <= length l).
    { clear. induction l as [|b l IH]; simpl; [lia|]. destruct (t_blocked b); lia. }
    lia.
  - specialize (IH _ _ H Hb). destruct (t_blocked a); lia.
Qed.

(* two unblocked tasks: block the first and count the other *)
Lemma cb_two : forall l i j t t',
  i <> j -> nth_error l i = Some t -> nth_error l j = Some t' ->
  t_blocked t = false -> t_blocked t' = false -> S (S (count_blocked l)) <= length l.
Proof.
  intros l i j t t' Hij Hi Hj Hb Hb'.
  pose proof (cb_upd l i t (mkTask (t_res t) (t_todo t) true) Hi) as E. rewrite Hb in E. cbn in E.
  assert (Hj' : nth_error (upd l i (mkTask (t_res t) (t_todo t) true)) j = Some t').
  { rewrite nth_upd, (proj2 (Nat.eqb_neq i j) Hij). exact Hj. }
  pose proof (cb_one _ _ _ Hj' Hb') as L. rewrite upd_length in L. lia.
Qed.

Lemma tasks_upd : forall tasks log evs i x,
  (forall j t, nth_error tasks j = Some t ->
     (t_blocked t = true -> In (EvAct j ABarrierWait) log) /\
     (t_blocked t = false -> ffbw (t_res t) (t_todo t) = true)) ->
  (t_blocked x = true -> In (EvAct i ABarrierWait) (log ++ evs)) ->
  (t_blocked x = false -> ffbw (t_res x) (t_todo x) = true) ->
  forall j t, nth_error (upd tasks i x) j = Some t ->
     (t_blocked t = true -> In (EvAct j ABarrierWait) (log ++ evs)) /\
     (t_blocked t = false -> ffbw (t_res t) (t_todo t) = true).
Proof.
  intros tasks log evs i x Ht Hx1 Hx2 j t Hj. rewrite nth_upd in Hj.
  destruct (Nat.eqb_spec i j) as [<-|Hne].
  - destruct (nth_error tasks i); inversion Hj; subst t. split; assumption.
  - destruct (Ht _ _ Hj) as [H1 H2]. split; [intro Hb0; apply in_or_app; left; auto | assumption].
Qed.

Lemma pre_progress : forall s log i t a rest,
  PreInv s log -> nth_error (s_tasks s) i = Some t -> t_blocked t = false ->
  ffbw (t_res t) rest = true ->
  PreInv (mkSys (upd (s_tasks s) i (mkTask (t_res t) rest false)) (s_arrived s) (s_frames s) (s_helpers s))
         (log ++ [EvAct i a]).
Proof.
  intros s log i t a rest [Hf [Hh [Ha Ht]]] Hi Hb Hff.
  unfold PreInv. simpl. split; [assumption|]. split; [assumption|]. split.
  - pose proof (cb_upd _ _ _ (mkTask (t_res t) rest false) Hi) as E. rewrite Hb in E. cbn in E. lia.
  - apply tasks_upd; [exact Ht | intro; discriminate | intros _; exact Hff].
Qed.

Lemma step_length : forall s c s' evs, step s c = (s', evs) -> length (s_tasks s') = length (s_tasks s).
Proof.
  intros s c s' evs H. destruct c as [i k | i | m]; simpl in H.
  - destruct (nth_error (s_tasks s) i) as [t|]; [|inversion H; reflexivity].
    destruct (t_blocked t); [inversion H; reflexivity|].
    destruct (t_todo t) as [|a rest]; [inversion H; reflexivity|].
    destruct a; simpl in H;
      repeat match type of H with
             | (if ?b then _ else _) = _ => destruct b
             end;
      inversion H; simpl; rewrite ?map_length, ?upd_length; reflexivity.
  - destruct (memb i (s_helpers s)); inversion H; reflexivity.
  - destruct (Nat.eqb (s_frames s) 0); inversion H; reflexivity.
Qed.

Lemma ffbw_tail : forall res a rest,
  ffbw res (a :: rest) = true -> is_wait a = false -> may_frame res a = false /\ ffbw res rest = true.
Proof.
  intros res a rest H Hw. simpl in H. rewrite Hw in H. apply andb_true_iff in H. destruct H as [H1 H2].
  split; [destruct (may_frame res a); [discriminate | reflexivity] | assumption].
Qed.

Lemma no_net_single : forall i a e, In e [EvAct i a] -> net_event e = false.
Proof. intros i a e [<-|[]]. reflexivity. Qed.

(* a step of a task whose next action neither waits nor may put a frame on a network *)
Lemma step_quiet : forall s i k t a rest,
  nth_error (s_tasks s) i = Some t -> t_blocked t = false -> t_todo t = a :: rest ->
  is_wait a = false -> may_frame (t_res t) a = false ->
  step s (CStep i k) =
  (mkSys (upd (s_tasks s) i (mkTask (t_res t) rest false)) (s_arrived s) (s_frames s) (s_helpers s), [EvAct i a]).
Proof.
  intros s i k t a rest Hi Hb Ht Hw Hm. cbn [step]. rewrite Hi, Hb, Ht.
  destruct a; try discriminate; cbn [may_frame] in Hm; rewrite ?Hm; reflexivity.
Qed.

Lemma step_pre : forall n s log c s' evs,
  length (s_tasks s) = n -> good n log -> PreInv s log -> step s c = (s', evs) ->
  good n (log ++ evs) /\ (arrived_all n (log ++ evs) \/ PreInv s' (log ++ evs)).
Proof.
  intros n s log c s' evs Hlen Hg Hpre Hstep. subst n.
  pose proof Hpre as [Hf [Hh [Ha Ht]]].
  assert (Hsame : good (length (s_tasks s)) (log ++ []) /\ (arrived_all (length (s_tasks s)) (log ++ []) \/ PreInv s (log ++ []))).
  { rewrite app_nil_r. split; [assumption | right; assumption]. }
  pose proof Hstep as Hstep0. destruct c as [i k | i | m]; simpl in Hstep.
  - destruct (nth_error (s_tasks s) i) as [t|] eqn:Hi; [|inversion Hstep; subst; exact Hsame].
    destruct (t_blocked t) eqn:Hb; [inversion Hstep; subst; exact Hsame|].
    destruct (t_todo t) as [|a rest] eqn:Htodo; [inversion Hstep; subst; exact Hsame|].
    pose proof (proj2 (Ht _ _ Hi) Hb) as Hff. rewrite Htodo in Hff.
    destruct (is_wait a) eqn:Hw.
    + (* the task arrives at the barrier *)
      destruct a; try discriminate.
      destruct (Nat.eqb (bsize s) (S (s_arrived s))) eqn:Hfull; inversion Hstep; subst; clear Hstep.
      * (* last arrival: release *)
        assert (Hall : arrived_all (length (s_tasks s)) (log ++ [EvAct i ABarrierWait; EvRelease])).
        { intros j Hj. apply in_or_app.
          destruct (Nat.eq_dec i j) as [->|Hne]; [right; left; reflexivity|].
          left. destruct (nth_error (s_tasks s) j) as [tj|] eqn:Hjn.
          - destruct (t_blocked tj) eqn:Hbj; [apply (Ht _ _ Hjn); assumption|].
            exfalso. pose proof (cb_two _ _ _ _ _ Hne Hi Hjn Hb Hbj).
            apply Nat.eqb_eq in Hfull. unfold bsize in Hfull. lia.
          - apply nth_error_None in Hjn. lia. }
        split; [|left; assumption].
        apply good_app_nonet; [assumption|]. intros e [<-|[<-|[]]]; reflexivity.
      * (* not the last one: it blocks *)
        split; [apply good_app_nonet; [assumption | apply no_net_single]|]. right.
        unfold PreInv. simpl. split; [assumption|]. split; [assumption|]. split.
        -- pose proof (cb_upd _ _ _ (mkTask (t_res t) rest true) Hi) as E. rewrite Hb in E. cbn in E. lia.
        -- apply tasks_upd; [exact Ht | intros _; apply in_or_app; right; left; reflexivity | intro; discriminate].
    + destruct (ffbw_tail _ _ _ Hff Hw) as [Hmf Hrest].
      rewrite (step_quiet _ _ _ _ _ _ Hi Hb Htodo Hw Hmf) in Hstep0. inversion Hstep0; subst s' evs.
      split; [apply good_app_nonet; [assumption | apply no_net_single]|].
      right. apply pre_progress; assumption.
  - rewrite Hh in Hstep. simpl in Hstep. inversion Hstep; subst. exact Hsame.
  - rewrite Hf in Hstep. simpl in Hstep. inversion Hstep; subst. exact Hsame.
Qed.

Lemma step_phase : forall n s log c s' evs,
  PhaseInv n s log -> step s c = (s', evs) -> PhaseInv n s' (log ++ evs).
Proof.
  intros n s log c s' evs [Hlen [Hg Hor]] Hstep.
  split; [rewrite (step_length _ _ _ _ Hstep); assumption|].
  destruct Hor as [Hall|Hpre].
  - split; [apply good_app_all; assumption | left; apply arrived_all_app; assumption].
  - eapply step_pre; eassumption.
Qed.

Lemma run_phase : forall sched n s log, PhaseInv n s log -> good n (log ++ run s sched).
Proof.
  induction sched as [|c r IH]; intros n s log H; simpl.
  - rewrite app_nil_r. apply H.
  - destruct (step s c) as [s' evs] eqn:E. rewrite app_assoc. apply IH. eapply step_phase; eassumption.
Qed.

Lemma count_blocked_init : forall cfg,
  count_blocked (map (fun x : bool * list action => mkTask (fst x) (snd x) false) cfg) = 0.
Proof. induction cfg; simpl; auto. Qed.

Lemma init_phase : forall cfg,
  (forall x, In x cfg -> ffbw (fst x) (snd x) = true) -> PhaseInv (length cfg) (init cfg) [].
Proof.
  intros cfg H. unfold PhaseInv, init. simpl. split; [apply map_length|]. split.
  - intros pre ev post E. destruct pre; discriminate.
  - right. unfold PreInv. simpl. split; [reflexivity|]. split; [reflexivity|]. split.
    + symmetry. apply count_blocked_init.
    + intros j t Hj. destruct (nth_map_some _ _ _ _ Hj) as [x [Hx ->]]. simpl.
      split; [intro; discriminate | intros _; apply H; eapply nth_error_In; eassumption].
Qed.

Theorem barrier_all_interleavings : forall cfg sched,
  (forall x, In x cfg -> frame_free_before_wait (fst x) (snd x) = true) ->
  forall pre ev post, run (init cfg) sched = pre ++ ev :: post -> net_event ev = true ->
  forall i, i < length cfg -> In (EvAct i ABarrierWait) pre.
Proof.
  intros cfg sched H pre ev post E Hnet.
  pose proof (run_phase sched _ _ _ (init_phase cfg H)) as Hg. simpl in Hg.
  exact (Hg pre ev post E Hnet).
Qed.

(* the hypothesis is satisfiable: a machine [Udp; Ipv4; Pci; Arp; Capture; SendMessage] that resolves through ARP *)
Example barrier_hypothesis_satisfiable :
  forall x, In x (map (fun p => (true, row p)) [PUdp; PIpv4; PPci; PArp; PCapture; PSendMessage]) ->
            frame_free_before_wait (fst x) (snd x) = true.
Proof. simpl. intros x H. repeat (destruct H as [<-|H]; [reflexivity|]). destruct H. Qed.

Section AnyRecv.
Variable rcv : list status -> bool -> option status -> option status.

Lemma rstep_done : forall s e, r_done s = true -> rstep_gen rcv s e = (s, None).
Proof. intros s e H. unfold rstep_gen. rewrite H. reflexivity. Qed.

Lemma rrun_done : forall evs s, r_done s = true -> rrun_gen rcv s evs = [].
Proof.
  induction evs as [|[t e] r IH]; intros s H; simpl; [reflexivity|].
  rewrite (rstep_done _ _ H). apply IH. assumption.
Qed.

Lemma rstep_some_done : forall s e s' st, rstep_gen rcv s e = (s', Some st) -> r_done s' = true.
Proof.
  intros s e s' st H. unfold rstep_gen in H. destruct (r_done s); [discriminate|].
  destruct e; try discriminate; destruct (rcv (r_queue s) (r_closed s) (r_first s)); inversion H; reflexivity.
Qed.

Definition reqs_of (l : list (N * rin)) : list status :=
  flat_map (fun x => match snd x with RReq st => [st] | _ => [] end) l.

Definition closed_in (l : list (N * rin)) : bool :=
  existsb (fun x => match snd x with RClosed => true | _ => false end) l.

(* Shutdown.first is the head of everything requested so far *)
Definition first_inv (s : rstate) : Prop := r_first s = hd_error (r_queue s).

Lemma rstep_none : forall s t e s', r_done s = false -> rstep_gen rcv s e = (s', None) ->
  r_done s' = false /\ (first_inv s -> first_inv s') /\
  forall pre, r_queue s' ++ reqs_of pre = r_queue s ++ reqs_of ((t, e) :: pre) /\
              r_closed s' || closed_in pre = r_closed s || closed_in ((t, e) :: pre).
Proof.
  intros s t e s' Hd H. unfold rstep_gen in H. rewrite Hd in H.
  unfold first_inv, reqs_of, closed_in. cbn [flat_map existsb snd app orb].
  destruct e.
  - inversion H; subst; clear H. cbn [r_done r_first r_queue r_closed].
    split; [reflexivity|]. split; [intros ->; destruct (r_queue s); reflexivity|].
    intros pre. rewrite <- app_assoc. split; reflexivity.
  - inversion H; subst; clear H. auto.
  - inversion H; subst; clear H. cbn [r_done r_first r_queue r_closed orb]. rewrite orb_true_r. auto.
  - destruct (rcv (r_queue s) (r_closed s) (r_first s)); inversion H; subst; clear H. auto.
  - destruct (rcv (r_queue s) (r_closed s) (r_first s)); discriminate.
Qed.

Lemma rstep_some : forall s e s' st, r_done s = false -> rstep_gen rcv s e = (s', Some st) ->
  (e = RPoll \/ e = RDeadline) /\
  (rcv (r_queue s) (r_closed s) (r_first s) = Some st \/
   (e = RDeadline /\ rcv (r_queue s) (r_closed s) (r_first s) = None /\ st = TimedOut)).
Proof.
  intros s e s' st Hd H. unfold rstep_gen in H. rewrite Hd in H.
  destruct e; try discriminate; destruct (rcv (r_queue s) (r_closed s) (r_first s)); inversion H; subst; auto.
Qed.

Lemma once_gen : forall evs s, length (rrun_gen rcv s evs) <= 1.
Proof.
  induction evs as [|[t e] r IH]; intro s; simpl; [lia|].
  destruct (rstep_gen rcv s e) as [s' [st|]] eqn:E.
  - rewrite (rrun_done r s' (rstep_some_done _ _ _ _ E)). simpl. lia.
  - apply IH.
Qed.

Lemma deadline_from : forall D evs s,
  r_done s = false -> Forall (fun x => (fst x <= D)%N) evs ->
  exists t st, rrun_gen rcv s (evs ++ [(D, RDeadline)]) = [(t, st)] /\ (t <= D)%N.
Proof.
  induction evs as [|[t0 e0] r IH]; intros s Hd Hall; simpl.
  - unfold rstep_gen. rewrite Hd. destruct (rcv (r_queue s) (r_closed s) (r_first s));
      eexists; eexists; (split; [reflexivity | lia]).
  - inversion Hall; subst. simpl in H1.
    destruct (rstep_gen rcv s e0) as [s' [st|]] eqn:E.
    + rewrite (rrun_done _ s' (rstep_some_done _ _ _ _ E)). exists t0, st. auto.
    + apply IH; [eapply rstep_none; eassumption | assumption].
Qed.

Lemma rrun_result : forall evs s t st,
  r_done s = false -> first_inv s -> rrun_gen rcv s evs = [(t, st)] ->
  exists pre e post, evs = pre ++ (t, e) :: post /\ (e = RPoll \/ e = RDeadline) /\
    let q := r_queue s ++ reqs_of pre in
    let c := r_closed s || closed_in pre in
    (rcv q c (hd_error q) = Some st \/ (e = RDeadline /\ rcv q c (hd_error q) = None /\ st = TimedOut)).
Proof.
  induction evs as [|[t0 e0] r IH]; intros s t st Hd Hf H; simpl in H; [discriminate|].
  destruct (rstep_gen rcv s e0) as [s' [st1|]] eqn:E.
  - rewrite (rrun_done r s' (rstep_some_done _ _ _ _ E)) in H. inversion H; subst.
    destruct (rstep_some _ _ _ _ Hd E) as [He Hr]. rewrite Hf in Hr.
    exists [], e0, r. split; [reflexivity|]. split; [exact He|].
    cbn [reqs_of closed_in flat_map existsb]. rewrite app_nil_r, orb_false_r. exact Hr.
  - destruct (rstep_none _ t0 _ _ Hd E) as (Hd' & Hf' & Hpre).
    destruct (IH s' _ _ Hd' (Hf' Hf) H) as [pre [e [post [-> [He Hr]]]]].
    exists ((t0, e0) :: pre), e, post. split; [reflexivity|]. split; [exact He|].
    destruct (Hpre pre) as [Hq Hc]. rewrite Hq, Hc in Hr. exact Hr.
Qed.

End AnyRecv.

(* the repaired get_status: the head of the queue, however many requests are queued *)
Lemma recv_first : forall st more c, recv (st :: more) c (Some st) = Some st.
Proof. intros st more c. unfold recv. destruct (Nat.leb (length (st :: more)) capacity); reflexivity. Qed.

Lemma recv_nil : forall c f, recv [] c f = if c then Some Exited else None.
Proof. reflexivity. Qed.

Theorem run_status : forall evs t st,
  rrun rinit evs = [(t, st)] ->
  exists pre e post, evs = pre ++ (t, e) :: post /\ (e = RPoll \/ e = RDeadline) /\
    (forall first more, reqs_of pre = first :: more -> st = first) /\
    (reqs_of pre = [] -> (closed_in pre = true /\ st = Exited) \/ (e = RDeadline /\ st = TimedOut)).
Proof.
  intros evs t st H.
  destruct (rrun_result recv evs rinit t st eq_refl eq_refl H) as [pre [e [post [E [He Hr]]]]].
  exists pre, e, post. split; [assumption|]. split; [assumption|].
  cbv zeta in Hr. unfold rinit in Hr. cbn [r_queue r_closed app orb] in Hr. split.
  - intros first more Hq. rewrite Hq in Hr. cbn [hd_error] in Hr. rewrite recv_first in Hr.
    destruct Hr as [Hr|[_ [Hr _]]]; congruence.
  - intro Hq. rewrite Hq in Hr. cbn [hd_error] in Hr. rewrite recv_nil in Hr.
    destruct (closed_in pre); destruct Hr as [Hr|[He' [Hr Hs]]]; try discriminate.
    + left. split; [reflexivity | congruence].
    + right. auto.
Qed.

(* 17 requests before the run task is polled *)
Definition seventeen : list (N * rin) :=
  map (fun k => (0%N, RReq (Status (N.of_nat k)))) (seq 1 17) ++ [(0%N, RPoll)].

(* the plain shut_down() is a request like any other: first plain then 17 explicit ones, and the reverse *)
Definition plain_then_explicit : list (N * rin) :=
  (0%N, RReq Exited) :: map (fun k => (0%N, RReq (Status (N.of_nat k)))) (seq 1 17) ++ [(0%N, RPoll)].
Definition explicit_then_plain : list (N * rin) :=
  (0%N, RReq (Status 5)) :: map (fun _ => (0%N, RReq Exited)) (seq 1 17) ++ [(0%N, RPoll)].

Lemma insert_timeout_head : forall d reqs,
  exists rest, insert_timeout d reqs =
    match reqs with
    | (t, s) :: _ => if N.ltb t d then (t, s) else (d, TimedOut)
    | [] => (d, TimedOut)
    end :: rest.
Proof.
  intros d [|[t s] r]; simpl; [eexists; reflexivity|].
  destruct (N.ltb t d); eexists; reflexivity.
Qed.

Theorem run_with_timeout_closed_form : forall d reqs,
  run_with_timeout d reqs =
  [match reqs with
   | (t, s) :: _ => if N.ltb t d then (t, s) else (d, TimedOut)
   | [] => (d, TimedOut)
   end].
Proof.
  intros d reqs. unfold run_with_timeout. destruct (insert_timeout_head d reqs) as [rest ->].
  set (x := match reqs with (t, s) :: _ => if N.ltb t d then (t, s) else (d, TimedOut) | [] => (d, TimedOut) end).
  destruct x as [t s]. unfold rrun. simpl. rewrite rrun_done by reflexivity. reflexivity.
Qed.

Lemma memb_false : forall x l, memb x l = false -> ~ In x l.
Proof. intros x l H Hin. apply (existsb_eqb_iff Nat.eqb Nat.eqb_eq) in Hin. unfold memb in H. congruence. Qed.

(* one observation of an accepted walk without excuses: only an arrival changes [seen], and a
   network observation is accepted only when everybody has arrived *)
Lemma check_barrier_cons : forall napps seen o r,
  check_barrier napps (fun _ => false) seen false (o :: r) = true ->
  (obs_net o = true -> length seen = napps) /\
  exists seen', check_barrier napps (fun _ => false) seen' false r = true /\
    (seen' = seen \/ exists i, o = OArrive i /\ seen' = i :: seen /\ ~ In i seen /\ i < napps).
Proof.
  intros napps seen o r Hc. simpl in Hc. destruct o; simpl.
  - destruct (memb i seen) eqn:Hm; [discriminate|]. destruct (Nat.ltb i napps) eqn:Hlt; [|discriminate].
    split; [discriminate|]. exists (i :: seen). split; [exact Hc|]. right. exists i.
    repeat split; [apply memb_false; exact Hm | apply Nat.ltb_lt; exact Hlt].
  - apply andb_true_iff in Hc. destruct Hc as [Hf Hc]. apply andb_true_iff in Hf. destruct Hf as [Hf _].
    split; [intros _; apply Nat.eqb_eq; exact Hf | eauto].
  - destruct (Nat.eqb (length seen) napps) eqn:Hf; [|rewrite andb_false_r in Hc; discriminate].
    split; [intros _; apply Nat.eqb_eq; exact Hf | eauto].
  - rewrite orb_false_r in Hc. apply andb_true_iff in Hc. destruct Hc as [Hf Hc].
    split; [intros _; apply Nat.eqb_eq; exact Hf | eauto].
  - rewrite orb_false_r in Hc. apply andb_true_iff in Hc. destruct Hc as [Hf Hc].
    split; [intros _; apply Nat.eqb_eq; exact Hf | eauto].
  - split; [discriminate | eauto].
  - split; [discriminate | eauto].
  - split; [discriminate | eauto].
Qed.

Lemma check_barrier_sound_gen : forall napps tr seen,
  NoDup seen -> (forall x, In x seen -> x < napps) ->
  check_barrier napps (fun _ => false) seen false tr = true ->
  forall pre o post, tr = pre ++ o :: post -> obs_net o = true ->
  forall i, i < napps -> In i seen \/ In (OArrive i) pre.
Proof.
  induction tr as [|o0 r IH]; intros seen Hnd Hb Hc pre o post E Hnet i Hi; [destruct pre; discriminate|].
  destruct (check_barrier_cons _ _ _ _ Hc) as (Hfull & seen' & Hc' & Hs).
  destruct pre as [|p pre]; simpl in E; inversion E; subst; clear E.
  - left. eapply pigeon; eauto.
  - destruct Hs as [->|(i0 & -> & -> & Hm & Hlt)].
    + destruct (IH _ Hnd Hb Hc' pre o post eq_refl Hnet i Hi); [left | right; right]; assumption.
    + assert (Hb' : forall x, In x (i0 :: seen) -> x < napps) by (intros x [<-|Hx]; auto).
      destruct (IH _ (NoDup_cons _ Hm Hnd) Hb' Hc' pre o post eq_refl Hnet i Hi) as [[<-|Hs]|Hp].
      * right. left. reflexivity.
      * left. assumption.
      * right. right. assumption.
Qed.

Lemma check_barrier_ext : forall napps ok tr seen taint,
  (forall m, ok m = false) ->
  check_barrier napps ok seen taint tr = check_barrier napps (fun _ => false) seen taint tr.
Proof.
  induction tr as [|o r IH]; intros seen taint H; simpl; [reflexivity|].
  destruct o; rewrite ?IH by assumption; try reflexivity.
  rewrite H. reflexivity.
Qed.

Lemma early_ok_disciplined : forall ms, all_disciplined ms = true -> forall m, early_ok ms m = false.
Proof.
  intros ms H m. unfold early_ok. destruct (nth_error ms m) as [[res ps]|] eqn:E; [|reflexivity].
  unfold all_disciplined in H. rewrite forallb_forall in H.
  specialize (H _ (nth_error_In _ _ E)). simpl in H. rewrite forallb_forall in H.
  destruct (existsb (fun p => negb (ffbw res (row p))) ps) eqn:Ex; [|reflexivity].
  apply existsb_exists in Ex. destruct Ex as [p [Hp Hn]]. rewrite (H _ Hp) in Hn. discriminate.
Qed.

Theorem validate_sound : forall c tr st t,
  validate c tr st t = Accept ->
  (all_disciplined (v_machines c) = true ->
   forall pre o post, tr = pre ++ o :: post -> obs_net o = true ->
   forall i, i < v_napps c -> In (OArrive i) pre) /\
  (forall d, v_timeout c = Some d ->
     (t <= d + second_ns + v_slack c)%N) /\
  (v_paused c = true -> (v_napps c <> 0 \/ existsb (status_eqb st) (v_builtin_sts c) = false) ->
     check_paused (v_timeout c) tr st t = true).
Proof.
  intros c tr st t H. unfold validate in H.
  destruct (check_barrier (v_napps c) (early_ok (v_machines c)) [] false tr) eqn:Hb; simpl in H; [|discriminate].
  destruct (deadline_ok (v_timeout c) (v_slack c) t) eqn:Hd; simpl in H; [|discriminate].
  split; [|split].
  - intros Hdis pre o post E Hnet i Hi.
    rewrite (check_barrier_ext _ _ _ _ _ (early_ok_disciplined _ Hdis)) in Hb.
    destruct (check_barrier_sound_gen _ _ [] (NoDup_nil _) (fun x (F : In x []) => match F with end) Hb
                pre o post E Hnet i Hi) as [[]|Hp].
    assumption.
  - intros d Ht. unfold deadline_ok in Hd. rewrite Ht in Hd. apply N.leb_le in Hd. exact Hd.
  - intros Hp Hor. rewrite Hp in H.
    destruct (Nat.eqb (v_napps c) 0 && existsb (status_eqb st) (v_builtin_sts c)) eqn:Hloose.
    + apply andb_true_iff in Hloose. destruct Hloose as [H0 H1]. apply Nat.eqb_eq in H0.
      destruct Hor as [Hor|Hor]; [congruence | rewrite Hor in H1; discriminate].
    + destruct (check_paused (v_timeout c) tr st t); [reflexivity | discriminate].
Qed.

Lemma status_eqb_eq : forall a b, status_eqb a b = true -> a = b.
Proof.
  intros [x| |] [y| |] H; simpl in H; try discriminate; try reflexivity.
  apply N.eqb_eq in H. subst. reflexivity.
Qed.

Theorem check_paused_predict : forall d tr st t,
  check_paused (Some d) tr st t = true ->
  (forall s, first_req tr <> Some (s, d)) ->
  (st, t) = predict (Some d) (first_req tr).
Proof.
  intros d tr st t H Htie. unfold check_paused in H.
  destruct (first_req tr) as [[s t0]|] eqn:Ef; simpl.
  - destruct (N.ltb t0 d) eqn:Hlt.
    + apply andb_true_iff in H. destruct H as [H1 H2].
      apply status_eqb_eq in H1. apply N.eqb_eq in H2. subst. reflexivity.
    + destruct (N.eqb t0 d) eqn:Heq.
      * apply N.eqb_eq in Heq. subst. exfalso. apply (Htie s). reflexivity.
      * apply andb_true_iff in H. destruct H as [H1 H2].
        apply status_eqb_eq in H1. apply N.eqb_eq in H2. subst. reflexivity.
  - apply andb_true_iff in H. destruct H as [H1 H2].
    apply status_eqb_eq in H1. apply N.eqb_eq in H2. subst. reflexivity.
Qed.
