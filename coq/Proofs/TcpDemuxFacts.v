(* C03 (part c) — facts about the TCP session table model of Model/TcpDemux.v *)
From Coq Require Import Permutation.
From Elvis Require Import Model.Base Model.Demux Model.TcpDemux Proofs.DemuxFacts.
Local Open Scope Z_scope.

Lemma pair_eqb_eq : forall a b : pair, pair_eqb a b = true <-> a = b.
Proof.
  intros [a1 a2] [b1 b2]. unfold pair_eqb. cbn [fst snd].
  rewrite andb_true_iff, !key_eqb_eq. split.
  - intros [-> ->]. reflexivity.
  - intros H. inversion H. split; reflexivity.
Qed.

Lemma pair_eqb_refl : forall a : pair, pair_eqb a a = true.
Proof. intros a. apply pair_eqb_eq. reflexivity. Qed.

Lemma pair_eqb_neq : forall a b : pair, a <> b -> pair_eqb a b = false.
Proof.
  intros a b H. destruct (pair_eqb a b) eqn:E; [|reflexivity].
  apply pair_eqb_eq in E. contradiction.
Qed.

Lemma sget_cons_eq : forall t p v, sget ((p, v) :: t) p = Some v.
Proof. intros. cbn [sget]. rewrite pair_eqb_refl. reflexivity. Qed.

Lemma sget_cons_neq : forall t p p' v, p' <> p -> sget ((p', v) :: t) p = sget t p.
Proof. intros. cbn [sget]. rewrite pair_eqb_neq by assumption. reflexivity. Qed.

Lemma sget_none_notin : forall t p, sget t p = None -> ~ In p (map fst t).
Proof.
  induction t as [|[q v] r IH]; intros p H; cbn [map In fst]; [tauto|].
  cbn [sget] in H. destruct (pair_eqb q p) eqn:E; [discriminate|].
  intros [Hq|Hin].
  - subst q. rewrite pair_eqb_refl in E. discriminate.
  - exact (IH p H Hin).
Qed.

Lemma sget_cons_other : forall t q v p up,
  sget t q = None -> sget t p = Some up -> sget ((q, v) :: t) p = Some up.
Proof.
  intros t q v p up Hq Hp. rewrite sget_cons_neq; [exact Hp|].
  intros ->. rewrite Hq in Hp. discriminate.
Qed.

(* sessions are unique per endpoint pair *)
Definition wf_sess (s : tstate) : Prop := NoDup (map fst (t_sess s)).

Lemma ip_listen_fields : forall t up a proto, exists t', ip_listen t up a proto = (fst (ip_listen t up a proto), t').
Proof. intros. destruct (ip_listen t up a proto) as [r t']. exists t'. reflexivity. Qed.

Lemma tcp_listen_snd : forall s up e, exists ip',
  snd (tcp_listen s up e) = set_ip (set_listen s ((e, up) :: t_listen s)) ip'.
Proof.
  intros s up e. unfold tcp_listen.
  destruct (ip_listen (t_ip (set_listen s ((e, up) :: t_listen s))) TCP_TID (fst e) TCP_PROTO) as [r ip'].
  exists ip'. reflexivity.
Qed.

Lemma tcp_listen_sess : forall s up e, t_sess (snd (tcp_listen s up e)) = t_sess s.
Proof. intros s up e. destruct (tcp_listen_snd s up e) as [ip' ->]. reflexivity. Qed.

Lemma tcp_listen_code : forall s up e,
  (forall u, tget (t_ip s) (fst e, TCP_PROTO) = Some u -> u = TCP_TID) ->
  fst (tcp_listen s up e) = 0.
Proof.
  intros s up e H. unfold tcp_listen, ip_listen. cbn [t_ip set_listen].
  destruct (tget (t_ip s) (fst e, TCP_PROTO)) as [u|] eqn:G.
  - rewrite (H u eq_refl). rewrite Z.eqb_refl. reflexivity.
  - reflexivity.
Qed.

Lemma tcp_open_existing : forall s up p x, sget (t_sess s) p = Some x -> tcp_open s up p = (1, s).
Proof. intros s up p x H. unfold tcp_open. rewrite H. reflexivity. Qed.

Lemma tcp_open_sess : forall s up p,
  t_sess (snd (tcp_open s up p)) = t_sess s \/
  (sget (t_sess s) p = None /\ fst (tcp_open s up p) = 0 /\ t_sess (snd (tcp_open s up p)) = (p, up) :: t_sess s).
Proof.
  intros s up p. unfold tcp_open. destruct (sget (t_sess s) p) eqn:G; [left; reflexivity|].
  destruct (ip_listen (t_ip s) TCP_TID (fst (fst p)) TCP_PROTO) as [r ip'].
  destruct r; try (left; reflexivity).
  destruct (rget (t_routes s) (fst (fst p))) as [m|]; [|left; reflexivity].
  destruct (zmem up (t_protos s)); [|left; reflexivity].
  right. cbn. auto.
Qed.

(* Tcp::demux as coded: the session of the pair, else the listen binding found by the exact-then-wildcard
   lookup (Model.Demux.tlookup), else the closed port *)
Theorem tcp_demux_total : forall s sg,
  tcp_demux s sg =
  match sget (t_sess s) (s_dst sg, s_src sg) with
  | Some up => (DSession up, s)
  | None => match tlookup (t_listen s) (s_dst sg) with
            | Some up => listen_branch s sg up
            | None => (DClosed (closed_reply sg), s)
            end
  end.
Proof.
  intros s sg. unfold tcp_demux, tcp_demux_gen, tlookup.
  destruct (sget (t_sess s) (s_dst sg, s_src sg)); [reflexivity|].
  destruct (tget (t_listen s) (s_dst sg)); reflexivity.
Qed.

Lemma demux_effect : forall s sg,
  snd (tcp_demux s sg) = s \/
  (exists up, sget (t_sess s) (s_dst sg, s_src sg) = None /\
     fst (tcp_demux s sg) = DListenCreate up /\
     snd (tcp_demux s sg) = set_sess s (((s_dst sg, s_src sg), up) :: t_sess s) /\
     f_rst sg = false /\ f_ack sg = false /\ f_syn sg = true).
Proof.
  intros s sg. rewrite tcp_demux_total. unfold listen_branch, listen_result.
  destruct (sget (t_sess s) (s_dst sg, s_src sg)) eqn:G; [left; reflexivity|].
  destruct (tlookup (t_listen s) (s_dst sg)) as [up|]; [|left; reflexivity].
  destruct (f_rst sg); [left; reflexivity|]. destruct (f_ack sg); [left; reflexivity|].
  destruct (f_syn sg); [|left; reflexivity]. destruct (zmem up (t_protos s)); [|left; reflexivity].
  right. exists up. cbn [fst snd]. auto 7.
Qed.

(* Ipv4::demux in front of Tcp::demux hands the segment on or drops it *)
Lemma arrive_cases : forall s sg,
  arrive s sg = tcp_demux s sg \/
  (snd (arrive s sg) = s /\ (fst (arrive s sg) = DIpDrop \/ exists up, fst (arrive s sg) = DIpOther up)).
Proof.
  intros s sg. unfold arrive. destruct (tlookup (t_ip s) (fst (s_dst sg), TCP_PROTO)) as [up|]; [|right; auto].
  destruct (up =? TCP_TID); [left; reflexivity|right; split; [reflexivity|right; exists up; reflexivity]].
Qed.

Lemma closed_reply_shape : forall sg r,
  closed_reply sg = Some r ->
  f_rst sg = false /\ s_src r = s_dst sg /\ s_dst r = s_src sg /\ s_tlen r = 0 /\ f_rst r = true /\
  (f_ack sg = true -> s_flags r = FL_RST /\ s_seq r = s_ack sg) /\
  (f_ack sg = false -> s_flags r = FL_RST_ACK /\ s_seq r = 0 /\ s_ack r = wrap32 (s_seq sg + seg_len sg)).
Proof.
  intros sg r H. unfold closed_reply in H.
  destruct (f_rst sg); [discriminate|]. destruct (f_ack sg); inversion H; subst r; cbn;
    repeat split; auto; discriminate.
Qed.

Lemma closed_reply_spec : forall sg,
  (f_rst sg = true -> closed_reply sg = None) /\
  (f_rst sg = false -> f_ack sg = true ->
     closed_reply sg = Some (mkSeg (s_dst sg) (s_src sg) FL_RST (s_ack sg) 0 0)) /\
  (f_rst sg = false -> f_ack sg = false ->
     closed_reply sg = Some (mkSeg (s_dst sg) (s_src sg) FL_RST_ACK 0
                               (wrap32 (s_seq sg + (s_tlen sg + (if f_syn sg then 1 else 0) + (if f_fin sg then 1 else 0)))) 0)).
Proof.
  intros sg. unfold closed_reply, seg_len. repeat split.
  - intros ->. reflexivity.
  - intros -> ->. reflexivity.
  - intros -> ->. reflexivity.
Qed.

Lemma closed_reply_orig_agrees : forall sg,
  f_syn sg = false -> f_fin sg = false -> closed_reply_orig sg = closed_reply sg.
Proof.
  intros sg Hs Hf. unfold closed_reply, closed_reply_orig, seg_len. rewrite Hs, Hf, !Z.add_0_r. reflexivity.
Qed.

Lemma closed_reply_syn_deviates :
  let sg := mkSeg (167772161, 4000) (167772162, 81) 2 100 0 0 in
  f_syn sg = true /\
  closed_reply_orig sg = Some (mkSeg (167772162, 81) (167772161, 4000) FL_RST_ACK 0 100 0) /\
  closed_reply sg = Some (mkSeg (167772162, 81) (167772161, 4000) FL_RST_ACK 0 101 0).
Proof. vm_compute. repeat split; reflexivity. Qed.

Lemma lookup_deadlock : forall s sg,
  sget (t_sess s) (s_dst sg, s_src sg) = None -> tget (t_listen s) (s_dst sg) = None ->
  tcp_demux_orig true s sg = (DDeadlock, s).
Proof. intros s sg G B. unfold tcp_demux_orig, tcp_demux_gen. rewrite G, B. reflexivity. Qed.

Lemma listen_branch_no_deadlock : forall s sg up, fst (listen_branch s sg up) <> DDeadlock.
Proof.
  intros s sg up. unfold listen_branch. destruct (listen_result sg); cbn [fst]; try discriminate.
  destruct (zmem up (t_protos s)); discriminate.
Qed.

Lemma demux_no_deadlock : forall s sg, fst (tcp_demux s sg) <> DDeadlock /\ fst (arrive s sg) <> DDeadlock.
Proof.
  assert (D : forall s sg, fst (tcp_demux s sg) <> DDeadlock).
  { intros s sg. rewrite tcp_demux_total. destruct (sget (t_sess s) (s_dst sg, s_src sg)); [discriminate|].
    destruct (tlookup (t_listen s) (s_dst sg)); [apply listen_branch_no_deadlock|discriminate]. }
  intros s sg. split; [apply D|].
  destruct (arrive_cases s sg) as [-> | [_ [E|[up E]]]]; [apply D|rewrite E; discriminate|rewrite E; discriminate].
Qed.

Inductive top :=
| TListen (up : Z) (e : key)
| TOpen (up : Z) (p : pair)
| TArrive (sg : seg).

Definition tapply (s : tstate) (o : top) : tstate :=
  match o with
  | TListen up e => snd (tcp_listen s up e)
  | TOpen up p => snd (tcp_open s up p)
  | TArrive sg => snd (arrive s sg)
  end.

Definition trun (s : tstate) (ops : list top) : tstate := fold_left tapply ops s.

Lemma tapply_sess : forall s o,
  t_sess (tapply s o) = t_sess s \/
  exists p up, sget (t_sess s) p = None /\ t_sess (tapply s o) = (p, up) :: t_sess s.
Proof.
  intros s [up e|up p|sg]; cbn [tapply].
  - left. apply tcp_listen_sess.
  - destruct (tcp_open_sess s up p) as [H|(H1 & _ & H3)]; [left; exact H|].
    right. exists p, up. auto.
  - destruct (arrive_cases s sg) as [-> | [E _]]; [|left; rewrite E; reflexivity].
    destruct (demux_effect s sg) as [H|(up & H1 & _ & H3 & _)]; [left; rewrite H; reflexivity|].
    right. exists (s_dst sg, s_src sg), up. rewrite H3. auto.
Qed.

Lemma tapply_wf : forall s o, wf_sess s -> wf_sess (tapply s o).
Proof.
  intros s o W. unfold wf_sess in *. destruct (tapply_sess s o) as [E|(p & up & Hn & E)]; rewrite E.
  - exact W.
  - cbn [map fst]. constructor; [apply sget_none_notin; exact Hn | exact W].
Qed.

Lemma tapply_keeps : forall s o p up, sget (t_sess s) p = Some up -> sget (t_sess (tapply s o)) p = Some up.
Proof.
  intros s o p up H. destruct (tapply_sess s o) as [E|(q & v & Hn & E)]; rewrite E.
  - exact H.
  - apply sget_cons_other; assumption.
Qed.

Lemma trun_invariant : forall P : tstate -> Prop,
  (forall s o, P s -> P (tapply s o)) -> forall ops s, P s -> P (trun s ops).
Proof.
  intros P Step. induction ops as [|o r IH]; intros s H; cbn [trun fold_left]; [exact H|].
  apply IH, Step, H.
Qed.

Lemma seg_eqb_ok : forall a b, seg_eqb a b = true -> a = b.
Proof.
  intros [a1 a2 a3 a4 a5 a6] [b1 b2 b3 b4 b5 b6]. unfold seg_eqb.
  cbn [s_src s_dst s_flags s_seq s_ack s_tlen]. rewrite !andb_true_iff, !key_eqb_eq, !Z.eqb_eq.
  intros [[[[[-> ->] ->] ->] ->] ->]. reflexivity.
Qed.

Lemma frame_eqb_ok : forall a b, frame_eqb a b = true -> a = b.
Proof.
  intros [[m1 t1] s1] [[m2 t2] s2]. unfold frame_eqb. cbn [fst snd].
  rewrite !andb_true_iff, Nat.eqb_eq, Z.eqb_eq. intros [[-> ->] H]. apply seg_eqb_ok in H. congruence.
Qed.

Lemma remove1_in : forall (x : frame) l l', remove1 frame_eqb x l = Some l' -> In x l.
Proof.
  intros x l l' H. apply (remove1_perm _ frame_eqb frame_eqb_ok) in H.
  apply Permutation_sym in H. eapply Permutation_in; [exact H | left; reflexivity].
Qed.

Lemma vstep_frame_justified : forall script st m to sg st',
  vstep script st (EFrm m to sg) = Some st' ->
  In (m, to, sg) (v_inj st) \/
  (exists up, sget (t_sess (nth m (v_ms st) dummy_t)) (s_src sg, s_dst sg) = Some up) \/
  In (m, to, sg) (v_owed st).
Proof.
  intros script st m to sg st' H. unfold vstep in H.
  destruct (remove1 frame_eqb (m, to, sg) (v_inj st)) eqn:R1; [left; eapply remove1_in; exact R1|].
  destruct (sget (t_sess (nth m (v_ms st) dummy_t)) (s_src sg, s_dst sg)) as [up|] eqn:G.
  - right. left. exists up. reflexivity.
  - destruct (remove1 frame_eqb (m, to, sg) (v_owed st)) eqn:R2; [|discriminate].
    right. right. eapply remove1_in. exact R2.
Qed.

Lemma vstep_arrival : forall script st m from sg st',
  vstep script st (EArr m from sg) = Some st' ->
  let d := fst (arrive (nth m (v_ms st) dummy_t) sg) in
  let s' := snd (arrive (nth m (v_ms st) dummy_t) sg) in
  v_ms st' = upd (v_ms st) m s' /\ v_inj st' = v_inj st /\
  v_owed st' = match reply_of d with Some r => (m, from, r) :: v_owed st | None => v_owed st end.
Proof.
  intros script st m from sg st' H. unfold vstep in H. cbn zeta.
  destruct (arrive (nth m (v_ms st) dummy_t) sg) as [d s'] eqn:E. cbn [fst snd].
  inversion H; subst st'. cbn [v_ms v_owed v_inj]. repeat split.
Qed.

Lemma vstep_app : forall script st m app p st',
  vstep script st (ENtf m app p) = Some st' \/ vstep script st (EByt m app p) = Some st' ->
  sget (t_sess (nth m (v_ms st) dummy_t)) p = Some app.
Proof.
  intros script st m app p st' [H|H]; unfold vstep in H;
    destruct (sget (t_sess (nth m (v_ms st) dummy_t)) p) as [up|]; try discriminate;
    destruct (up =? app) eqn:E; try discriminate; apply Z.eqb_eq in E; congruence.
Qed.

Lemma dummy_wf : wf_sess dummy_t.
Proof. unfold wf_sess. cbn. constructor. Qed.

Lemma vstep_ms : forall script st e st', vstep script st e = Some st' ->
  v_ms st' = v_ms st \/ exists m o, v_ms st' = upd (v_ms st) m (tapply (nth m (v_ms st) dummy_t) o).
Proof.
  intros script st e st'. unfold vstep.
  destruct e as [k code|k code|k|k|m to sg|m from sg|m app p|m app p].
  - destruct (nth_error script k) as [[m app ep|? ? ?| |? ? ?]|]; try discriminate.
    destruct (tcp_listen (nth m (v_ms st) dummy_t) app ep) as [c s'] eqn:E.
    destruct (c =? code); intros [= <-]. right. exists m, (TListen app ep). cbn [tapply]. rewrite E. reflexivity.
  - destruct (nth_error script k) as [[? ? ?|m app p| |? ? ?]|]; try discriminate.
    destruct (tcp_open (nth m (v_ms st) dummy_t) app p) as [c s'] eqn:E.
    destruct (c =? code); intros [= <-]. right. exists m, (TOpen app p). cbn [tapply]. rewrite E. reflexivity.
  - destruct (nth_error script k) as [[? ? ?|? ? ?| |? ? ?]|]; intros [= <-]. left. reflexivity.
  - destruct (nth_error script k) as [[? ? ?|? ? ?| |? ? ?]|]; intros [= <-]. left. reflexivity.
  - destruct (remove1 frame_eqb (m, to, sg) (v_inj st)); [intros [= <-]; left; reflexivity|].
    destruct (sget (t_sess (nth m (v_ms st) dummy_t)) (s_src sg, s_dst sg)); [intros [= <-]; left; reflexivity|].
    destruct (remove1 frame_eqb (m, to, sg) (v_owed st)); intros [= <-]. left. reflexivity.
  - destruct (arrive (nth m (v_ms st) dummy_t) sg) as [d s'] eqn:E.
    intros [= <-]. right. exists m, (TArrive sg). cbn [tapply]. rewrite E. reflexivity.
  - destruct (sget (t_sess (nth m (v_ms st) dummy_t)) p) as [up|]; [|discriminate].
    destruct (up =? app); intros [= <-]. left. reflexivity.
  - destruct (sget (t_sess (nth m (v_ms st) dummy_t)) p) as [up|]; [|discriminate].
    destruct (up =? app); intros [= <-]. left. reflexivity.
Qed.

Lemma vstep_wf : forall script st e st',
  Forall wf_sess (v_ms st) -> vstep script st e = Some st' -> Forall wf_sess (v_ms st').
Proof.
  intros script st e st' F H. destruct (vstep_ms _ _ _ _ H) as [->|(m & o & ->)]; [exact F|].
  apply (upd_Forall (fun i x l => upd l i x)); try reflexivity; [|exact F].
  apply tapply_wf. destruct (nth_in_or_default m (v_ms st) dummy_t) as [Hin| ->]; [|exact dummy_wf].
  rewrite Forall_forall in F. apply F, Hin.
Qed.

Lemma vrun_wf : forall script tr st st',
  Forall wf_sess (v_ms st) -> vrun script st tr = Some st' -> Forall wf_sess (v_ms st').
Proof.
  intros script tr. induction tr as [|e r IH]; intros st st' F H; cbn [vrun] in H.
  - inversion H; subst. exact F.
  - destruct (vstep script st e) as [st1|] eqn:E; [|discriminate].
    eapply IH; [eapply vstep_wf; eassumption | exact H].
Qed.

(* a run of the validator is a chain of accepted steps *)
Inductive chain (script : list step) : vstate -> list ev -> vstate -> Prop :=
| chain_nil : forall st, chain script st [] st
| chain_cons : forall st e st1 r st',
    vstep script st e = Some st1 -> chain script st1 r st' -> chain script st (e :: r) st'.

Lemma vrun_chain : forall script tr st st', vrun script st tr = Some st' -> chain script st tr st'.
Proof.
  intros script tr. induction tr as [|e r IH]; intros st st' H; cbn [vrun] in H.
  - inversion H; subst. constructor.
  - destruct (vstep script st e) as [st1|] eqn:E; [|discriminate].
    econstructor; [exact E | apply IH; exact H].
Qed.

Lemma validate_sound : forall script ms tr,
  validate script ms tr = 0 -> Forall wf_sess ms ->
  exists st', chain script (mkV ms [] []) tr st' /\
    Forall wf_sess (v_ms st') /\ v_owed st' = [] /\ v_inj st' = [].
Proof.
  intros script ms tr H F. unfold validate in H.
  destruct (vrun script (mkV ms [] []) tr) as [st|] eqn:R; [|discriminate].
  exists st. split; [apply vrun_chain; exact R|]. split.
  - eapply vrun_wf; [|exact R]. exact F.
  - destruct (v_owed st); [|discriminate]. destruct (v_inj st); [|discriminate]. auto.
Qed.

(* machine with a wildcard listener on port 80: application 1 *)
Definition ex_t0 : tstate := mkT [] [] [] [TCP_TID; 1; 2] [(167772161, None)].
Definition ex_t1 : tstate := snd (tcp_listen ex_t0 1 (ANY, 80)).

(* a SYN addressed to 0.0.0.0:81 passes Ipv4 (wildcard TCP binding), finds no session and no exact
   binding, and the wildcard key IS the exact key: the second `entry` is on the very same key *)
Lemma deadlock_example :
  tcp_demux_orig true ex_t1 (mkSeg (167772417, 4000) (ANY, 81) 2 7 0 0) = (DDeadlock, ex_t1) /\
  arrive ex_t1 (mkSeg (167772417, 4000) (ANY, 81) 2 7 0 0) =
    (DClosed (Some (mkSeg (ANY, 81) (167772417, 4000) 20 0 8 0)), ex_t1).
Proof. vm_compute. split; reflexivity. Qed.

Lemma listen_overwrites_example :
  let s2 := snd (tcp_listen ex_t1 2 (ANY, 80)) in
  fst (tcp_listen ex_t1 2 (ANY, 80)) = 0 /\
  fst (arrive s2 (mkSeg (167772417, 4000) (167772161, 80) 2 7 0 0)) = DListenCreate 2.
Proof. vm_compute. split; reflexivity. Qed.

Lemma creation_example :
  let syn := mkSeg (167772417, 4000) (167772161, 80) 2 7 0 0 in
  let s2 := snd (arrive ex_t1 syn) in
  fst (arrive ex_t1 syn) = DListenCreate 1 /\
  fst (arrive s2 syn) = DSession 1 /\
  fst (arrive s2 (mkSeg (167772417, 4000) (167772161, 80) 16 8 1 0)) = DSession 1 /\
  fst (arrive s2 (mkSeg (167772417, 4001) (167772161, 80) 16 8 1 0)) =
    DListenReply (mkSeg (167772161, 80) (167772417, 4001) 4 1 0 0) /\
  fst (arrive s2 (mkSeg (167772417, 4001) (167772161, 81) 2 8 0 0)) =
    DClosed (Some (mkSeg (167772161, 81) (167772417, 4001) 20 0 9 0)) /\
  fst (arrive s2 (mkSeg (167772417, 4001) (167772162, 80) 4 8 0 0)) = DListenIgnore /\
  wf_sess s2.
Proof.
  cbn zeta. repeat split; try (vm_compute; reflexivity).
  apply (tapply_wf ex_t1 (TArrive (mkSeg (167772417, 4000) (167772161, 80) 2 7 0 0))).
  unfold wf_sess. cbn. constructor.
Qed.
