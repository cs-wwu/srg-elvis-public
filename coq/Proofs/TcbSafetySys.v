(* The closed two-endpoint system: projections of updated systems, and how SysInv is carried
   over when one side changes (sysinv_update, sysinv_live, sysinv_die). *)
From Elvis Require Import Model.Base Model.U32 Model.Tcb Model.TcpNet
  Proofs.TcbSafetyDefs Proofs.TcbSafetyBase Proofs.TcbSafetySnd.
Local Open Scope Z_scope.

Ltac sd := intros; repeat match goal with x : side |- _ => destruct x end; reflexivity.

Lemma other_other x : other (other x) = x. Proof. sd. Qed.
Lemma side_cases x z : z = x \/ z = other x. Proof. destruct x, z; auto. Qed.

Lemma end_set_end s x e : end_of (set_end s x e) x = e. Proof. sd. Qed.
Lemma end_set_end_o s x e : end_of (set_end s x e) (other x) = end_of s (other x). Proof. sd. Qed.
Lemma net_set_end s x e y : net_of (set_end s x e) y = net_of s y. Proof. sd. Qed.
Lemma sub_set_end s x e y : sub_of (set_end s x e) y = sub_of s y. Proof. sd. Qed.
Lemma del_set_end s x e y : del_of (set_end s x e) y = del_of s y. Proof. sd. Qed.
Lemma pan_set_end s x e : panicked (set_end s x e) = panicked s. Proof. sd. Qed.

Lemma net_set_net s x n : net_of (set_net s x n) x = n. Proof. sd. Qed.
Lemma net_set_net_o s x n : net_of (set_net s x n) (other x) = net_of s (other x). Proof. sd. Qed.
Lemma end_set_net s x n y : end_of (set_net s x n) y = end_of s y. Proof. sd. Qed.
Lemma sub_set_net s x n y : sub_of (set_net s x n) y = sub_of s y. Proof. sd. Qed.
Lemma del_set_net s x n y : del_of (set_net s x n) y = del_of s y. Proof. sd. Qed.
Lemma pan_set_net s x n : panicked (set_net s x n) = panicked s. Proof. sd. Qed.

Lemma sub_set_sub s x v : sub_of (set_sub s x v) x = v. Proof. sd. Qed.
Lemma sub_set_sub_o s x v : sub_of (set_sub s x v) (other x) = sub_of s (other x). Proof. sd. Qed.
Lemma end_set_sub s x v y : end_of (set_sub s x v) y = end_of s y. Proof. sd. Qed.
Lemma net_set_sub s x v y : net_of (set_sub s x v) y = net_of s y. Proof. sd. Qed.
Lemma del_set_sub s x v y : del_of (set_sub s x v) y = del_of s y. Proof. sd. Qed.
Lemma pan_set_sub s x v : panicked (set_sub s x v) = panicked s. Proof. sd. Qed.

Lemma del_set_del s x v : del_of (set_del s x v) x = v. Proof. sd. Qed.
Lemma del_set_del_o s x v : del_of (set_del s x v) (other x) = del_of s (other x). Proof. sd. Qed.
Lemma end_set_del s x v y : end_of (set_del s x v) y = end_of s y. Proof. sd. Qed.
Lemma net_set_del s x v y : net_of (set_del s x v) y = net_of s y. Proof. sd. Qed.
Lemma sub_set_del s x v y : sub_of (set_del s x v) y = sub_of s y. Proof. sd. Qed.
Lemma pan_set_del s x v : panicked (set_del s x v) = panicked s. Proof. sd. Qed.

Global Hint Rewrite other_other end_set_end end_set_end_o net_set_end sub_set_end del_set_end pan_set_end
  net_set_net net_set_net_o end_set_net sub_set_net del_set_net pan_set_net
  sub_set_sub sub_set_sub_o end_set_sub net_set_sub del_set_sub pan_set_sub
  del_set_del del_set_del_o end_set_del net_set_del sub_set_del pan_set_del : sysr.

Ltac sysr := unfold delivered; autorewrite with sysr.

Definition pv_of_end (c : config) (x : side) (e : endpoint) (S : list Z) : pview :=
  match e with
  | ELive t => my_pv (iss_of c x) S t
  | EDead => mkPv (iss_of c x) S (zlen S) true
  | _ => mkPv (iss_of c x) S 0 false
  end.

Definition EndInvP (c : config) (x : side) (e : endpoint) (S D : list Z) (pvp : pview) (Sp : list Z) : Prop :=
  match e with
  | ELive t => SndInv (iss_of c x) (mtu_of c x) S t /\ RcvInv pvp D t
  | EDead => prefix D Sp
  | _ => D = [] /\ S = []
  end.

Lemma pv_of_eq c s x : pv_of c s x = pv_of_end c x (end_of s x) (sub_of s x).
Proof. reflexivity. Qed.
Lemma EndInv_eq c s x :
  EndInv c s x = EndInvP c x (end_of s x) (sub_of s x) (delivered s x) (pv_of c s (other x)) (sub_of s (other x)).
Proof. reflexivity. Qed.

Lemma pv_sub_pv_of c s x : pv_sub (pv_of c s x) = sub_of s x.
Proof. unfold pv_of. destruct (end_of s x); reflexivity. Qed.

Lemma pv_sub_end c x e S : pv_sub (pv_of_end c x e S) = S.
Proof. destruct e; reflexivity. Qed.

Lemma sysinv_update c s s' x :
  SysInv c s -> panicked s' = false ->
  end_of s' (other x) = end_of s (other x) -> sub_of s' (other x) = sub_of s (other x) ->
  del_of s' (other x) = del_of s (other x) ->
  pv_le (pv_of c s x) (pv_of c s' x) -> pv_wf (pv_of c s' x) ->
  EndInvP c x (end_of s' x) (sub_of s' x) (delivered s' x) (pv_of c s (other x)) (sub_of s (other x)) ->
  Forall (seg_inv (pv_of c s' x)) (net_of s' x) ->
  Forall (seg_inv (pv_of c s (other x))) (net_of s' (other x)) ->
  SysInv c s'.
Proof.
  intros (P & W & E & N) P' Ee Es Ed Hle Hwf HE HN HNo.
  assert (Epv : pv_of c s' (other x) = pv_of c s (other x)).
  { rewrite !pv_of_eq, Ee, Es. reflexivity. }
  unfold SysInv. splits; [assumption| | |].
  - intros z. destruct (side_cases x z) as [-> | ->]; [assumption|]. rewrite Epv. apply W.
  - intros z. destruct (side_cases x z) as [-> | ->].
    + rewrite EndInv_eq, Epv, Es. exact HE.
    + specialize (E (other x)). rewrite EndInv_eq in *. rewrite other_other in *.
      unfold delivered in *. rewrite Ee, Es, Ed.
      destruct (end_of s (other x)); cbn [EndInvP] in *.
      * exact E.
      * exact E.
      * destruct E as [E1 E2]. split; [exact E1|].
        eapply RcvInv_mono; [apply W|exact Hle|exact E2].
      * destruct E as [r Hr]. destruct Hle as (_ & (more & Hm) & _).
        rewrite !pv_sub_pv_of in Hm. rewrite Hm, Hr. exists (r ++ more). now rewrite app_assoc.
  - intros z. destruct (side_cases x z) as [-> | ->]; [assumption|]. rewrite Epv. assumption.
Qed.

Lemma sysinv_set_net c s x l :
  SysInv c s -> Forall (seg_inv (pv_of c s x)) l -> SysInv c (set_net s x l).
Proof.
  intros HI Hl. pose proof HI as (P & W & E & N).
  assert (Epv : pv_of c (set_net s x l) x = pv_of c s x).
  { rewrite !pv_of_eq. sysr. reflexivity. }
  apply (sysinv_update c s _ x HI); sysr; try reflexivity; try assumption.
  - rewrite Epv. apply pv_le_refl.
  - rewrite Epv. apply W.
  - specialize (E x). rewrite EndInv_eq in E. exact E.
  - rewrite Epv. exact Hl.
  - apply N.
Qed.

(* replacing the live endpoint of x (and possibly growing its stream / deliveries / net) *)
Lemma sysinv_live c s s' x t' :
  SysInv c s -> panicked s' = false ->
  end_of s' (other x) = end_of s (other x) -> sub_of s' (other x) = sub_of s (other x) ->
  del_of s' (other x) = del_of s (other x) -> net_of s' (other x) = net_of s (other x) ->
  end_of s' x = ELive t' ->
  zlen (sub_of s' x) < SEQ_BOUND ->
  pv_le (pv_of c s x) (my_pv (iss_of c x) (sub_of s' x) t') ->
  SndInv (iss_of c x) (mtu_of c x) (sub_of s' x) t' ->
  RcvInv (pv_of c s (other x)) (delivered s' x) t' ->
  (exists extra, net_of s' x = net_of s x ++ extra /\
                 Forall (seg_inv (my_pv (iss_of c x) (sub_of s' x) t')) extra) ->
  SysInv c s'.
Proof.
  intros HI P' Ee Es Ed En El Hb Hle HS HR (extra & Hnet & Hex).
  pose proof HI as (P & W & E & N).
  assert (Epv : pv_of c s' x = my_pv (iss_of c x) (sub_of s' x) t').
  { rewrite pv_of_eq, El. reflexivity. }
  assert (Hu : u32 (iss_of c x)).
  { destruct (W x) as (Hu & _). rewrite pv_of_eq in Hu. destruct (end_of s x); exact Hu. }
  apply (sysinv_update c s s' x HI); try assumption.
  - rewrite Epv. exact Hle.
  - rewrite Epv. eapply SndInv_wf; eassumption.
  - rewrite El. cbn [EndInvP]. split; assumption.
  - rewrite Epv, Hnet. apply Forall_app. split; [|exact Hex].
    eapply Forall_seg_inv_mono; [apply W|exact Hle|apply N].
  - rewrite En. apply N.
Qed.

Lemma sysinv_replace c s x t t' : SysInv c s -> end_of s x = ELive t ->
  SndInv (iss_of c x) (mtu_of c x) (sub_of s x) t' ->
  pv_le (my_pv (iss_of c x) (sub_of s x) t) (my_pv (iss_of c x) (sub_of s x) t') ->
  RcvInv (pv_of c s (other x)) (delivered s x) t' ->
  SysInv c (set_end s x (ELive t')).
Proof.
  intros HI El HS Hle HR. pose proof HI as (P & W & E & N).
  apply (sysinv_live c s _ x t' HI); sysr; try reflexivity; try assumption.
  - destruct (W x) as (_ & _ & Hb & _). rewrite pv_sub_pv_of in Hb. exact Hb.
  - rewrite pv_of_eq, El. exact Hle.
  - exists []. split; [now rewrite app_nil_r|constructor].
Qed.

Lemma RcvInv_prefix pv D t : RcvInv pv D t -> prefix (D ++ in_text t) (pv_sub pv).
Proof.
  intros (R1 & R2 & R3). destruct (state_eqb (st t) SynSent).
  - destruct R3 as [-> ->]. exists (pv_sub pv). reflexivity.
  - destruct R3 as (_ & _ & _ & R6 & _). rewrite R6.
    exists (skipn (Z.to_nat (rcv_n pv t)) (pv_sub pv)). symmetry. apply firstn_skipn.
Qed.

Lemma delivered_final_read s x t :
  delivered (final_read s x t) x = delivered s x ++ in_text t.
Proof.
  unfold final_read. destruct (in_text t) eqn:E; [now rewrite app_nil_r|].
  unfold delivered. rewrite del_set_del. apply concat_snoc.
Qed.

Lemma final_read_other s x t :
  end_of (final_read s x t) = end_of s /\ sub_of (final_read s x t) = sub_of s /\
  net_of (final_read s x t) = net_of s /\ panicked (final_read s x t) = panicked s /\
  del_of (final_read s x t) (other x) = del_of s (other x).
Proof.
  unfold final_read. destruct (in_text t); [auto 10|].
  splits; try reflexivity; try (destruct x; reflexivity).
Qed.

Lemma sysinv_die c s x t t1 :
  SysInv c s -> end_of s x = ELive t ->
  SndInv (iss_of c x) (mtu_of c x) (sub_of s x) t1 ->
  RcvInv (pv_of c s (other x)) (delivered s x) t1 ->
  my_pv (iss_of c x) (sub_of s x) t1 = my_pv (iss_of c x) (sub_of s x) t ->
  SysInv c (set_end (final_read s x t1) x EDead).
Proof.
  intros HI El HS HR Hpv. pose proof HI as (P & W & E & N).
  destruct (final_read_other s x t1) as (F1 & F2 & F3 & F4 & F5).
  set (s' := set_end (final_read s x t1) x EDead).
  assert (Epv : pv_of c s' x = mkPv (iss_of c x) (sub_of s x) (zlen (sub_of s x)) true).
  { subst s'. rewrite pv_of_eq. sysr. rewrite F2. reflexivity. }
  assert (Epv0 : pv_of c s x = my_pv (iss_of c x) (sub_of s x) t1).
  { rewrite pv_of_eq, El. cbn [pv_of_end]. now rewrite Hpv. }
  pose proof (W x) as Wx. rewrite Epv0 in Wx. destruct Wx as (Hu & Hl & Hb & Hfz).
  cbn [my_pv pv_iss pv_sub pv_lim pv_frozen] in *.
  assert (Hle : pv_le (pv_of c s x) (pv_of c s' x)).
  { rewrite Epv, Epv0. unfold pv_le; cbn [my_pv pv_iss pv_sub pv_lim pv_frozen].
    splits; auto; try lia. exists []. now rewrite app_nil_r. }
  apply (sysinv_update c s s' x HI); subst s'; sysr; rewrite ?F1, ?F2, ?F3, ?F4, ?F5; try reflexivity; try assumption.
  - fold (delivered s x). rewrite Epv. unfold pv_wf; cbn [pv_iss pv_sub pv_lim pv_frozen]. splits; auto; lia.
  - cbn [EndInvP]. fold (delivered (final_read s x t1) x). rewrite delivered_final_read.
    rewrite <- (pv_sub_pv_of c s (other x)). apply RcvInv_prefix. exact HR.
  - eapply Forall_seg_inv_mono; [apply W|exact Hle|apply N].
  - apply N.
Qed.
