(* DNS codec: round trips and totality. *)
From Elvis Require Import Proofs.BaseFacts Model.Base Model.AppBytes Model.Dns Proofs.AppBytesFacts.
Local Open Scope Z_scope.

Lemma rdata_loop_done i n bs : n <= i -> rdata_loop i n bs = Ok ([], bs).
Proof.
  intros H. assert (E : (i <? n) = false) by lia.
  destruct bs; cbn [rdata_loop]; rewrite E; reflexivity.
Qed.

Lemma rdata_loop_app l : forall i n rest, n <= 65535 -> Z.of_nat (length l) = n - i ->
  rdata_loop i n (l ++ rest) = Ok (l, rest).
Proof.
  induction l as [|c l IH]; intros i n rest Hn Hl.
  - cbn [length app] in *. apply rdata_loop_done. lia.
  - cbn [length app rdata_loop] in *.
    assert (E1 : (i <? n) = true) by lia. assert (E2 : (65535 <? i + 1) = false) by lia.
    rewrite E1, E2, (IH (i + 1) n rest) by lia. reflexivity.
Qed.

Lemma rdata_loop_inv bs : forall i n l rest, rdata_loop i n bs = Ok (l, rest) -> i <= n ->
  bs = l ++ rest /\ Z.of_nat (length l) = n - i.
Proof.
  induction bs as [|c bs IH]; intros i n l rest H Hi; cbn [rdata_loop] in H.
  - destruct (i <? n) eqn:E; [discriminate|]. inversion H; subst. cbn [length app]. split; [reflexivity|lia].
  - destruct (i <? n) eqn:E.
    + destruct (65535 <? i + 1); [discriminate|].
      apply bind_ok_inv in H as [[l0 r0] [H0 H1]]. inversion H1; subst.
      destruct (IH (i + 1) n l0 rest H0) as [-> L]; [lia|].
      cbn [length app]. split; [reflexivity|lia].
    + inversion H; subst. cbn [length app]. split; [reflexivity|lia].
Qed.

Lemma rdata_loop_answers bs : forall i n, n <= 65535 -> answers (rdata_loop i n bs) = true.
Proof.
  induction bs as [|c bs IH]; intros i n Hn; cbn [rdata_loop].
  - destruct (i <? n); reflexivity.
  - destruct (i <? n) eqn:E; [|reflexivity].
    assert (E2 : (65535 <? i + 1) = false) by lia. rewrite E2.
    apply bind_answers; [apply IH; exact Hn | intros [? ?] _; reflexivity].
Qed.

(* the checked `i += 1` is a real site of the model: outside the u16 range of
   rdlength (not a byte string) it would fire *)
Example rdata_loop_site_reachable_outside_u16 :
  rdata_loop 65535 65537 [0; 0] = Panic 20.
Proof. reflexivity. Qed.

Lemma dns_decode_encode m rest : dns_wf m = true ->
  dns_from_bytes (dns_to_message m ++ rest) = Ok (m, rest).
Proof.
  destruct m as [[id pr qd an ns ar] [qn qt qc] [nm rt cl ttl rl rdt]].
  unfold dns_wf, dns_header_wf, dns_question_wf, dns_rr_wf, dns_to_message,
    dns_header_build, dns_question_build, dns_rr_build, dns_from_bytes.
  cbn [m_header m_question m_answer d_id d_properties d_qdcount d_ancount d_nscount d_arcount
       q_qname q_qtype q_qclass r_name r_rec_type r_class r_ttl r_rdlength r_rdata].
  intros W. split_wf.
  rewrite <- !app_assoc. cbn [app].
  do 6 (rewrite next_u16_be16 by lia; cbn [rd bind]).
  rewrite read_until_app by assumption. cbn [bind].
  do 2 (rewrite next_u16_be16 by lia; cbn [rd bind]).
  rewrite read_until_app by assumption. cbn [bind].
  do 2 (rewrite next_u16_be16 by lia; cbn [rd bind]).
  rewrite next_u32_be32 by lia. cbn [rd bind].
  rewrite next_u16_be16 by lia. cbn [rd bind].
  rewrite rdata_loop_app by lia. cbn [bind]. reflexivity.
Qed.

Lemma dns_encode_decode bs m rest : bytes bs = true ->
  dns_from_bytes bs = Ok (m, rest) ->
  bs = dns_to_message m ++ rest /\ dns_wf m = true /\ bytes rest = true.
Proof.
  unfold dns_from_bytes. intros B H.
  do 6 rd_step B H. until_step B H. do 2 rd_step B H. until_step B H. do 4 rd_step B H.
  apply bind_ok_inv in H as [[rdt b15] [E H]].
  pose proof R10 as R'. apply rng_iff in R'.
  apply rdata_loop_inv in E as [-> L]; [|lia].
  rewrite bytes_app in B. apply andb_prop in B as [Bd B].
  inversion H; subst; clear H.
  split; [|split; [|exact B]].
  - unfold dns_to_message, dns_header_build, dns_question_build, dns_rr_build.
    cbn [m_header m_question m_answer d_id d_properties d_qdcount d_ancount d_nscount d_arcount
         q_qname q_qtype q_qclass r_name r_rec_type r_class r_ttl r_rdlength r_rdata].
    rewrite <- !app_assoc. cbn [app]. reflexivity.
  - unfold dns_wf, dns_header_wf, dns_question_wf, dns_rr_wf.
    cbn [m_header m_question m_answer d_id d_properties d_qdcount d_ancount d_nscount d_arcount
         q_qname q_qtype q_qclass r_name r_rec_type r_class r_ttl r_rdlength r_rdata].
    rewrite R, R0, R1, R2, R3, R4, Bn, F, R5, R6, Bn0, F0, R7, R8, R9, R10, Bd.
    cbn [andb]. lia.
Qed.

Tactic Notation "s16" hyp(B) ident(B') :=
  apply bind_answers;
  [apply rd_answers
  |let E := fresh "E" in
   intros [? ?] E; apply rd_ok in E; apply (next_u16_inv _ _ _ B) in E as (_ & _ & B')].
Tactic Notation "s32" hyp(B) ident(B') :=
  apply bind_answers;
  [apply rd_answers
  |let E := fresh "E" in
   intros [? ?] E; apply rd_ok in E; apply (next_u32_inv _ _ _ B) in E as (_ & _ & B')].
Tactic Notation "suntil" hyp(B) ident(B') :=
  apply bind_answers;
  [apply read_until_answers
  |let E := fresh "E" in
   intros [? ?] E; apply read_until_inv in E as [E _]; rewrite E in B;
   apply bytes_split in B as (_ & _ & B')].

(* the only panic site of the decoder is the checked `i += 1`; it cannot fire
   because rdlength was read from two bytes *)
Lemma dns_answers bs : bytes bs = true -> answers (dns_from_bytes bs) = true.
Proof.
  unfold dns_from_bytes. intros B.
  s16 B B1. s16 B1 B2. s16 B2 B3. s16 B3 B4. s16 B4 B5. s16 B5 B6.
  suntil B6 B7. s16 B7 B8. s16 B8 B9.
  suntil B9 B10. s16 B10 B11. s16 B11 B12. s32 B12 B13.
  apply bind_answers; [apply rd_answers|].
  intros [rl b14] Erl. apply rd_ok in Erl. apply (next_u16_inv _ _ _ B13) in Erl as (_ & R & _).
  apply rng_iff in R.
  apply bind_answers; [apply rdata_loop_answers; lia | intros [? ?] _; reflexivity].
Qed.

Lemma dns_value_or_error bs : bytes bs = true ->
  (exists r, dns_from_bytes bs = Ok r) \/ (exists e, dns_from_bytes bs = Err e).
Proof. intros B. apply answers_cases, dns_answers, B. Qed.
