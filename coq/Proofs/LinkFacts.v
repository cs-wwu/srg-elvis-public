(* C05 - lemmas about Model/Link.v: allocator, MTU test, routing, timing function. *)
From Elvis Require Import Model.Base Model.Link Proofs.ProtoListFacts.
Local Open Scope Z_scope.

(* every registered tap has its own address, below the allocator's counter, and no
   registration was ever overwritten (as many taps as addresses handed out) *)
Definition net_inv (n : net) : Prop :=
  NoDup (map t_mac (n_taps n)) /\
  (forall T, In T (n_taps n) -> 0 <= t_mac T < n_next_mac n) /\
  Z.of_nat (length (n_taps n)) = n_next_mac n.

Lemma net_inv_new mtu lb lr tb tr : net_inv (new_net mtu lb lr tb tr).
Proof.
  unfold net_inv, new_net. cbn. split; [constructor|]. split; [intros T []|reflexivity].
Qed.

Lemma attach_spec n m s T n' :
  net_inv n -> attach n m s = Ok (T, n') ->
  net_inv n' /\
  T = mkTap (n_next_mac n) m s /\
  n_taps n' = T :: n_taps n /\
  n_next_mac n' = n_next_mac n + 1 /\
  n_mtu n' = n_mtu n /\ n_lat_base n' = n_lat_base n /\ n_lat_rand n' = n_lat_rand n /\
  n_thr_base n' = n_thr_base n /\ n_thr_rand n' = n_thr_rand n.
Proof.
  intros (Hnd & Hlt & Hlen) H. unfold attach in H.
  destruct (U64_MAX <=? n_next_mac n); [discriminate|].
  injection H as <- <-.
  assert (Hreg : register_tap (mkTap (n_next_mac n) m s) (n_taps n)
                 = mkTap (n_next_mac n) m s :: n_taps n).
  { unfold register_tap. f_equal. apply filter_all. intros x Hx. cbn [t_mac].
    specialize (Hlt x Hx). lia. }
  cbn [n_taps n_next_mac n_mtu n_lat_base n_lat_rand n_thr_base n_thr_rand].
  rewrite Hreg.
  split; [|repeat split; reflexivity].
  unfold net_inv. cbn [n_taps n_next_mac].
  split; [|split].
  - cbn [map t_mac]. constructor; [|exact Hnd].
    intros Hin. apply in_map_iff in Hin. destruct Hin as (x & Hx & Hin).
    specialize (Hlt x Hin). lia.
  - intros T [<-|H]; cbn [t_mac]; [|specialize (Hlt T H)]; lia.
  - cbn [length]. lia.
Qed.

Lemma attach_never_errs n m s e : attach n m s <> Err e.
Proof. unfold attach. destruct (U64_MAX <=? n_next_mac n); discriminate. Qed.

Definition tap_key (it : nat * tap) : nat * Z := (fst it, t_mac (snd it)).

(* what [build] keeps while it attaches the taps: the networks so far and the taps handed out so far *)
Definition winv (w : list net) (acc : list (nat * tap)) : Prop :=
  Forall net_inv w /\
  NoDup (map tap_key acc) /\
  (forall it, In it acc -> exists n, nth_error w (fst it) = Some n /\ In (snd it) (n_taps n)).

Lemma winv_step w acc i n m s T n' :
  winv w acc -> nth_error w i = Some n -> attach n m s = Ok (T, n') ->
  winv (set_nth i n' w) (acc ++ [(i, T)]).
Proof.
  intros (Hall & Hnd & Hmem) Hn Hat.
  assert (Hinv : net_inv n). { rewrite Forall_forall in Hall. apply Hall. eapply nth_error_In; eauto. }
  destruct (attach_spec n m s T n' Hinv Hat) as (Hinv' & HT & Htaps & Hnext & _).
  split; [|split].
  - apply Forall_set_nth; assumption.
  - rewrite map_app. cbn [map]. apply NoDup_snoc; [exact Hnd|].
    intros Hin. apply in_map_iff in Hin. destruct Hin as (it & Hk & Hin).
    destruct (Hmem it Hin) as (n0 & Hn0 & HIn0).
    unfold tap_key in Hk. cbn [fst snd] in Hk. injection Hk as Hi Hmac.
    rewrite Hi in Hn0. rewrite Hn in Hn0. injection Hn0 as <-.
    destruct Hinv as (_ & Hlt & _). specialize (Hlt _ HIn0).
    rewrite HT in Hmac. cbn [t_mac] in Hmac. lia.
  - intros it Hin. apply in_app_or in Hin. destruct Hin as [Hin|[<-|[]]].
    + destruct (Hmem it Hin) as (n0 & Hn0 & HIn0).
      destruct (Nat.eq_dec i (fst it)) as [E|E].
      * exists n'. split.
        -- rewrite <- E, nth_error_set_nth, Nat.eqb_refl, Hn. reflexivity.
        -- rewrite <- E in Hn0. rewrite Hn in Hn0. injection Hn0 as <-. rewrite Htaps. right. exact HIn0.
      * exists n0. split; [|exact HIn0]. rewrite nth_error_set_nth, (proj2 (Nat.eqb_neq _ _) E). exact Hn0.
    + exists n'. cbn [fst snd]. split; [rewrite nth_error_set_nth, Nat.eqb_refl, Hn; reflexivity|].
      rewrite Htaps. left. reflexivity.
Qed.

Lemma run_ops_inv ops : forall w acc w' ts,
  winv w acc -> run_ops w acc ops = Ok (w', ts) -> winv w' ts.
Proof.
  induction ops as [|[[m s] i] ops IH]; intros w acc w' ts Hinv H; cbn [run_ops] in H.
  - injection H as <- <-. exact Hinv.
  - destruct (nth_error w i) as [n|] eqn:Hn; [|discriminate].
    destruct (attach n m s) as [[T n']| | |] eqn:Hat; try discriminate.
    eapply IH; [|exact H]. eapply winv_step; eauto.
Qed.

Lemma winv_init ncs : winv (map net_of_cfg ncs) [].
Proof.
  split; [|split].
  - apply Forall_forall. intros n Hn. apply in_map_iff in Hn. destruct Hn as (c & <- & _).
    apply net_inv_new.
  - constructor.
  - intros it [].
Qed.

Lemma build_inv c w ts : build c = Ok (w, ts) -> winv w ts.
Proof. intros H. eapply run_ops_inv; [apply winv_init|exact H]. Qed.

Lemma mtu_test_is_send_pci {A} n src (payload : list A) dst proto wire :
  mtu_test n (Z.of_nat (length payload)) = fst (send_pci n src payload dst proto wire).
Proof. unfold mtu_test, send_pci. destruct (n_mtu n <? Z.of_nat (length payload)); reflexivity. Qed.

Lemma route_unicast n d : net_inv n -> d <> BROADCAST_MAC ->
  forall T, In T (route n (Some d)) <-> (In T (n_taps n) /\ t_mac T = d).
Proof.
  intros (Hnd & _ & _) Hd T. unfold route.
  destruct (d =? BROADCAST_MAC) eqn:E; [lia|].
  destruct (find (fun x => t_mac x =? d) (n_taps n)) as [t|] eqn:F.
  - apply find_some in F. destruct F as (Hin & Hm). apply Z.eqb_eq in Hm. split.
    + intros [<-|[]]. split; assumption.
    + intros (HT & HmT). left. eapply NoDup_map_inj; eauto. congruence.
  - split; [intros []|]. intros (HT & HmT).
    pose proof (find_none _ _ F T HT) as Hx. cbn in Hx. lia.
Qed.

Lemma route_unknown n d : d <> BROADCAST_MAC ->
  (forall T, In T (n_taps n) -> t_mac T <> d) -> route n (Some d) = [].
Proof.
  intros Hd H. unfold route. destruct (d =? BROADCAST_MAC) eqn:E; [lia|].
  destruct (find (fun x => t_mac x =? d) (n_taps n)) as [t|] eqn:F; [|reflexivity].
  apply find_some in F. destruct F as (Hin & Hm). apply Z.eqb_eq in Hm. exfalso. exact (H t Hin Hm).
Qed.

Lemma route_broadcast n dst : dst = None \/ dst = Some BROADCAST_MAC -> route n dst = n_taps n.
Proof. intros [->| ->]; reflexivity. Qed.

Lemma route_incl n dst : incl (route n dst) (n_taps n).
Proof.
  intros T H. unfold route in H. destruct dst as [d|]; [|exact H].
  destruct (d =? BROADCAST_MAC); [exact H|].
  destruct (find (fun x => t_mac x =? d) (n_taps n)) as [t|] eqn:F; [|destruct H].
  destruct H as [<-|[]]. apply find_some in F. apply F.
Qed.

Lemma route_nodup n dst : net_inv n -> NoDup (map t_mac (route n dst)).
Proof.
  intros (Hnd & _ & _). unfold route. destruct dst as [d|]; [|exact Hnd].
  destruct (d =? BROADCAST_MAC); [exact Hnd|].
  destruct (find _ _); cbn; repeat constructor. intros [].
Qed.

Lemma deliver_length {A} n (f : frame A) : length (deliver n f) = length (route n (f_dst f)).
Proof. unfold deliver. apply map_length. Qed.

Lemma lat_next_ge n u : 0 <= n_lat_rand n -> n_lat_base n <= lat_next n u <= n_lat_base n + n_lat_rand n.
Proof.
  intros H. unfold lat_next. destruct (n_lat_rand n =? 0) eqn:E; [lia|].
  assert (0 <= u mod (n_lat_rand n + 1) < n_lat_rand n + 1) by (apply Z.mod_pos_bound; lia). lia.
Qed.

Lemma thr_next_range n u r : 0 <= n_thr_rand n -> thr_next n u = Ok r ->
  n_thr_base n <= r <= thr_max n.
Proof.
  intros H. unfold thr_next, thr_max. destruct (n_thr_rand n =? 0) eqn:E.
  - intros [= <-]. lia.
  - destruct (U64_MAX <? n_thr_base n + n_thr_rand n); [discriminate|]. intros [= <-].
    assert (0 <= u mod n_thr_rand n < n_thr_rand n) by (apply Z.mod_pos_bound; lia). lia.
Qed.

Lemma wake_ge g t d : 0 < g -> t + d <= wake g t d.
Proof. intros Hg. unfold wake. Z.div_mod_to_equations. lia. Qed.

Lemma wake_aligned g t d : 0 < g -> (t + d) mod g = 0 -> wake g t d = t + d.
Proof.
  intros Hg H. unfold wake.
  apply Z.mod_divide in H; [|lia]. destruct H as (q & Hq). rewrite Hq.
  replace (q * g + g - 1) with (g - 1 + q * g) by ring.
  rewrite Z.div_add by lia. rewrite Z.div_small by lia. ring.
Qed.

Lemma after_lat_ge g t lat : 0 < g -> 0 <= lat -> t + lat <= after_lat g t lat.
Proof.
  intros Hg Hl. unfold after_lat. destruct (lat =? 0) eqn:E; [lia|]. apply wake_ge. exact Hg.
Qed.

Lemma tx_time_ge len thr : 0 < thr -> 0 <= len -> len * NS <= thr * tx_time len thr.
Proof. intros Ht Hl. unfold tx_time. Z.div_mod_to_equations. lia. Qed.

Lemma tx_time_nonneg len thr : 0 < thr -> 0 <= len -> 0 <= tx_time len thr.
Proof. intros Ht Hl. unfold tx_time, NS. apply Z.div_pos; lia. Qed.

Lemma tx_time_orig_nonneg len thr : 0 < thr -> 0 <= len -> 0 <= tx_time_orig len thr.
Proof.
  intros Ht Hl. unfold tx_time_orig.
  assert (0 <= len * 1000 / thr) by (apply Z.div_pos; lia). lia.
Qed.

Definition job_ok (j : job) : Prop := 0 <= j_len j /\ 0 <= j_thr j /\ 0 <= j_lat j /\ 0 <= j_wait j.

Definition txf_ok (txf : Z -> Z -> Z) : Prop := forall len thr, 0 < thr -> 0 <= len -> 0 <= txf len thr.

Lemma step_spec txf g b j s b' : 0 < g -> txf_ok txf -> job_ok j -> step txf g b j = (s, b') ->
  j_arr j <= k_start s /\ k_start s <= k_end s /\ k_end s + j_lat j <= k_dlv s /\ b <= b' /\
  (j_thr j <> 0 -> b <= k_start s /\ b' = k_end s /\ k_start s + txf (j_len j) (j_thr j) <= k_end s).
Proof.
  intros Hg Htx (Hl & Ht & Hla & Hw) H. unfold step in H.
  destruct (j_thr j =? 0) eqn:E.
  - injection H as <- <-. cbn [k_start k_end k_dlv].
    pose proof (after_lat_ge g (j_arr j) (j_lat j) Hg Hla). repeat split; try lia.
  - injection H as <- <-. cbn [k_start k_end k_dlv].
    assert (H0 : 0 <= txf (j_len j) (j_thr j)) by (apply Htx; lia).
    pose proof (wake_ge g (Z.max (j_arr j) b + j_wait j) (txf (j_len j) (j_thr j)) Hg) as Hwk.
    pose proof (after_lat_ge g (wake g (Z.max (j_arr j) b + j_wait j) (txf (j_len j) (j_thr j))) (j_lat j) Hg Hla).
    repeat split; try lia.
Qed.

Lemma sched_slots txf g : 0 < g -> txf_ok txf -> forall js b, Forall job_ok js ->
  Forall2 (fun j k => j_arr j + j_lat j <= k_dlv k /\ (j_thr j <> 0 -> b <= k_start k)) js (sched txf g b js).
Proof.
  intros Hg Htx. induction js as [|j js IH]; intros b Hok; cbn [sched]; [constructor|].
  inversion Hok as [|x xs Hj Hjs]; subst.
  destruct (step txf g b j) as [s b'] eqn:S.
  destruct (step_spec txf g b j s b' Hg Htx Hj S) as (H1 & H2 & H3 & H4 & H5).
  constructor; [split; [lia | intros Hn; apply H5; exact Hn]|].
  eapply Forall2_imp; [|exact (IH b' Hjs)]. cbn. intros a k [L B]. split; [exact L | intros Hn; specialize (B Hn); lia].
Qed.

Lemma sched_length txf g js : forall b, length (sched txf g b js) = length js.
Proof.
  induction js as [|j js IH]; intros b; cbn [sched]; [reflexivity|].
  destruct (step txf g b j) as [s b']. cbn [length]. f_equal. apply IH.
Qed.

Lemma sched_serialised txf g : 0 < g -> txf_ok txf -> forall js b p q jp jq kp kq,
  Forall job_ok js -> (p < q)%nat ->
  nth_error js p = Some jp -> nth_error js q = Some jq ->
  nth_error (sched txf g b js) p = Some kp -> nth_error (sched txf g b js) q = Some kq ->
  j_thr jp <> 0 -> j_thr jq <> 0 ->
  k_start kp <= k_end kp /\ k_end kp <= k_start kq.
Proof.
  intros Hg Htx. induction js as [|j js IH]; intros b p q jp jq kp kq Hok Hpq Hjp Hjq Hkp Hkq Hp Hq.
  - destruct p; discriminate.
  - inversion Hok as [|x xs Hj Hjs]; subst.
    cbn [sched] in Hkp, Hkq. destruct (step txf g b j) as [s b'] eqn:S.
    destruct q as [|q]; [lia|]. cbn [nth_error] in Hjq, Hkq.
    destruct p as [|p]; cbn [nth_error] in Hjp, Hkp.
    + injection Hjp as <-. injection Hkp as <-.
      destruct (step_spec txf g b j s b' Hg Htx Hj S) as (H1 & H2 & H3 & H4 & H5).
      destruct (H5 Hp) as (H6 & H7 & H8). split; [exact H2|].
      pose proof (proj2 (Forall2_nth _ _ _ (sched_slots txf g Hg Htx js b' Hjs) q jq kq Hjq Hkq) Hq). lia.
    + eapply IH with (p := p) (q := q); eauto. lia.
Qed.

Lemma sched_window g M : 0 < g -> 0 < M -> forall js b s e,
  Forall job_ok js -> Forall (fun j => 0 < j_thr j <= M) js ->
  wbytes s e js (sched tx_time g b js) <= M * Z.max 0 (e - Z.max s b).
Proof.
  intros Hg HM. induction js as [|j js IH]; intros b s e Hok Hthr; cbn [sched wbytes].
  - apply Z.mul_nonneg_nonneg; lia.
  - inversion Hok as [|x xs Hj Hjs]; subst. inversion Hthr as [|x xs Htj Htjs]; subst.
    destruct (step tx_time g b j) as [k b'] eqn:S.
    destruct (step_spec tx_time g b j k b' Hg tx_time_nonneg Hj S) as (H1 & H2 & H3 & H4 & H5).
    assert (Hn0 : j_thr j <> 0) by lia.
    destruct (H5 Hn0) as (H6 & H7 & H8).
    specialize (IH b' s e Hjs Htjs).
    destruct Hj as (Hl & _ & Hla & _).
    pose proof (tx_time_ge (j_len j) (j_thr j) (proj1 Htj) Hl) as Hge.
    assert (Hnn : 0 <= tx_time (j_len j) (j_thr j)) by (apply tx_time_nonneg; lia).
    assert (HgeM : j_len j * NS <= M * tx_time (j_len j) (j_thr j)).
    { apply Z.le_trans with (1 := Hge). apply Z.mul_le_mono_nonneg_r; lia. }
    destruct ((s <=? j_arr j) && (k_dlv k <=? e)) eqn:W.
    + (* in the window: its own transmission lies between max(s,b) and b' *)
      assert (E1 : Z.max 0 (e - Z.max s b') = e - b') by lia.
      rewrite E1 in IH.
      assert (E2 : Z.max 0 (e - Z.max s b) = (e - b') + (b' - Z.max s b)) by lia.
      rewrite E2, Z.mul_add_distr_l.
      assert (M * tx_time (j_len j) (j_thr j) <= M * (b' - Z.max s b)) by (apply Z.mul_le_mono_nonneg_l; lia).
      lia.
    + assert (M * Z.max 0 (e - Z.max s b') <= M * Z.max 0 (e - Z.max s b)) by (apply Z.mul_le_mono_nonneg_l; lia).
      lia.
Qed.

Fixpoint total_len (js : list job) : Z :=
  match js with [] => 0 | j :: r => j_len j + total_len r end.

Lemma wbytes_all s e js : forall ks,
  Forall2 (fun j k => s <= j_arr j /\ k_dlv k <= e) js ks -> wbytes s e js ks = total_len js * NS.
Proof.
  induction js as [|j js IH]; intros ks H; inversion H as [|x y xs ys Hxy Hr]; subst; cbn [wbytes total_len].
  - reflexivity.
  - rewrite (IH _ Hr). destruct Hxy as (H1 & H2).
    destruct ((s <=? j_arr j) && (k_dlv y <=? e)) eqn:W; lia.
Qed.

(* the hypotheses of the positive theorems are satisfiable, and the bound is tight *)
Example sched_example :
  let js := [mkJob 0 1 1001 0 0; mkJob 0 1500 12500000 2000000 0] in
  Forall job_ok js /\ Forall (fun j => 0 < j_thr j <= 12500000) js /\
  sched tx_time 1 0 js = [mkSlot 0 999001 999001; mkSlot 999001 1119001 3119001].
Proof.
  cbv zeta. split; [|split].
  - repeat constructor; cbn; lia.
  - repeat constructor; cbn; lia.
  - vm_compute. reflexivity.
Qed.

(* the throughput bound (C05_throughput_bound) fails for a transmission-time function *)
Definition total_bound_fails (txf : Z -> Z -> Z) (g M : Z) (js : list job) (b s e : Z) : Prop :=
  0 < g /\ 0 < M /\ Forall job_ok js /\ Forall (fun j => 0 < j_thr j <= M) js /\
  Forall2 (fun j k => s <= j_arr j /\ k_dlv k <= e) js (sched txf g b js) /\
  ~ (total_len js * NS <= M * Z.max 0 (e - s)).

(* one byte at 1001 B/s takes 0 whole milliseconds: a burst of such frames handed over at 0 is
   delivered at 0, whatever the timer tick *)
Lemma burst_step g : 0 < g -> step tx_time_orig g 0 (mkJob 0 1 1001 0 0) = (mkSlot 0 0 0, 0).
Proof.
  intros Hg. unfold step, after_lat. cbn [j_thr j_arr j_wait j_lat j_len Z.eqb Z.max Z.compare Z.add].
  change (tx_time_orig 1 1001) with 0.
  rewrite (wake_aligned g 0 0 Hg (Z.mod_0_l g (Z.neq_sym _ _ (Z.lt_neq _ _ Hg)))). reflexivity.
Qed.

Lemma burst_sched_orig g n : 0 < g -> sched tx_time_orig g 0 (burst n 1 1001) = repeat (mkSlot 0 0 0) n.
Proof.
  intros Hg. induction n as [|n IH]; [reflexivity|].
  unfold burst in *. cbn [repeat sched]. rewrite (burst_step g Hg), IH. reflexivity.
Qed.

Lemma total_len_burst n len thr : total_len (burst n len thr) = Z.of_nat n * len.
Proof. induction n as [|n IH]; [reflexivity|]. unfold burst in *. cbn [repeat total_len j_len]. lia. Qed.

Lemma burst_fails g n : 0 < g -> (0 < n)%nat -> total_bound_fails tx_time_orig g 1001 (burst n 1 1001) 0 0 0.
Proof.
  intros Hg Hn. split; [exact Hg|]. split; [lia|].
  split; [apply Forall_forall; intros j Hj; apply repeat_spec in Hj; subst; unfold job_ok; cbn; lia|].
  split; [apply Forall_forall; intros j Hj; apply repeat_spec in Hj; subst; cbn; lia|].
  split.
  - rewrite burst_sched_orig by exact Hg. unfold burst. clear Hn.
    induction n as [|n IH]; cbn [repeat]; constructor; [cbn; lia|exact IH].
  - rewrite total_len_burst. unfold NS. lia.
Qed.
