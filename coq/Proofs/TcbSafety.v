(* C01 safety and C03 (b),(c): reachable states of the closed two-endpoint system satisfy
   SysInv (TcbSafetyDefs.v), and what SysInv says of a state. *)
From Elvis Require Import Model.Base Model.U32 Model.Tcb Model.TcpNet
  Proofs.U32Facts Proofs.TcbSafetyDefs Proofs.TcbSafetyBase Proofs.TcbSafetySnd
  Proofs.TcbSafetyRcv Proofs.TcbSafetyArr Proofs.TcbSafetySys Proofs.TcbSafetyStep Proofs.TcpNetStep.
Local Open Scope Z_scope.

Lemma sub_set_panicked s x : sub_of (set_panicked s) x = sub_of s x.
Proof. destruct x; reflexivity. Qed.

Lemma sub_final_read s y t x : sub_of (final_read s y t) x = sub_of s x.
Proof. destruct (final_read_other s y t) as (_ & E & _). now rewrite E. Qed.

Lemma arrive_sub c s r seg x : sub_of (fst (arrive c s r seg)) x = sub_of s x.
Proof.
  unfold arrive. destruct (end_of s r).
  - destruct (arrives_closed _ _); cbn [fst]; now rewrite ?sub_set_net.
  - destruct (arrives_listen _ _ _); cbn [fst]; now rewrite ?sub_set_net, ?sub_set_end.
  - destruct (segment_arrives t seg) as [[t1 []]| | |]; cbn [fst];
      now rewrite ?sub_set_end, ?sub_final_read, ?sub_set_panicked.
  - reflexivity.
Qed.

Lemma emit_sub s y x : sub_of (fst (fst (emit s y))) x = sub_of s x.
Proof.
  unfold emit. destruct (end_of s y); try reflexivity.
  destruct (tcb_segments t) as [[t1 segs]| | |]; cbn [fst];
    now rewrite ?sub_set_net, ?sub_set_end, ?sub_set_panicked.
Qed.

Lemma recv_sub s y x : sub_of (fst (recv s y)) x = sub_of s x.
Proof.
  unfold recv. destruct (end_of s y); try reflexivity.
  unfold tcb_receive. cbn [fst]. destruct (in_text t); now rewrite ?sub_set_del, ?sub_set_end.
Qed.

Lemma step_sub c s l x : exists more, sub_of (fst (sys_step c s l)) x = sub_of s x ++ more.
Proof.
  apply (sys_step_rule c (fun s' => exists more, sub_of s' x = sub_of s x ++ more)
           (fun _ _ _ => True) (fun _ => True) (fun _ => True)).
  - exact I.
  - intros s0 y [m E] _. exists m. rewrite sub_set_end. exact E.
  - intros s0 y t b [m E] _ _. rewrite sub_set_end.
    destruct (accepts_send (st t)); [|exists m; exact E].
    destruct (side_cases y x) as [-> | ->].
    + rewrite sub_set_sub, E. exists (m ++ b). now rewrite app_assoc.
    + rewrite sub_set_sub_o. exists m. exact E.
  - intros s0 y [m E]. exists m. rewrite recv_sub. exact E.
  - intros s0 y t [m E] _. exists m. rewrite sub_set_end. exact E.
  - intros s0 y [m E]. exists m. rewrite emit_sub. exact E.
  - intros s0 y t ms [m E] _ _. exists m.
    destruct (advance_time t ms) as [t1 []]; rewrite sub_set_end, ?sub_final_read; exact E.
  - intros s0 y l0 [m E] _. exists m. rewrite sub_set_net. exact E.
  - intros s0 y seg l0 [m E] _ _. exists m. rewrite arrive_sub, sub_set_net. exact E.
  - intros s0 y seg [m E] _. exists m. rewrite arrive_sub. exact E.
  - exists []. now rewrite app_nil_r.
  - destruct l; exact I.
Qed.

Lemma run_sub c ls : forall s x, exists more, sub_of (run c s ls) x = sub_of s x ++ more.
Proof.
  induction ls as [|l ls IH]; intros s x; cbn [run fold_left].
  - exists []. now rewrite app_nil_r.
  - destruct (IH (fst (sys_step c s l)) x) as [m1 E1]. destruct (step_sub c s l x) as [m2 E2].
    unfold run in E1. rewrite E1, E2. exists (m2 ++ m1). now rewrite app_assoc.
Qed.

Lemma init_inv c b : cfg_ok c -> SysInv c (init_sys b).
Proof.
  intros Hc. unfold SysInv, init_sys. splits.
  - reflexivity.
  - intros x. unfold pv_wf. destruct x, b; cbn; splits; try apply Hc; try lia; try discriminate;
      unfold SEQ_BOUND; lia.
  - intros x. destruct x, b; cbn; auto.
  - intros x. destruct x; constructor.
Qed.

Lemma run_inv c : cfg_ok c -> forall ls s,
  SysInv c s -> forallb no_inject ls = true ->
  (forall x, zlen (sub_of (run c s ls) x) < SEQ_BOUND) ->
  SysInv c (run c s ls).
Proof.
  intros Hc. induction ls as [|l ls IH]; intros s HI Hl Hb; cbn [run fold_left]; [exact HI|].
  cbn [forallb] in Hl. apply andb_prop in Hl. destruct Hl as [Hl1 Hl2].
  apply IH; [|exact Hl2|exact Hb].
  apply step_inv; try assumption.
  intros x. specialize (Hb x). cbn [run fold_left] in Hb.
  destruct (run_sub c ls (fst (sys_step c s l)) x) as [more E]. unfold run in E.
  rewrite E, zlen_app in Hb. pose proof (zlen_nonneg more). lia.
Qed.

Lemma sub_bound_all s : sub_bound s -> forall x, zlen (sub_of s x) < SEQ_BOUND.
Proof. intros [A B] x. destruct x; assumption. Qed.

Lemma reachable_inv c b ls :
  cfg_ok c -> forallb no_inject ls = true -> sub_bound (run c (init_sys b) ls) ->
  SysInv c (run c (init_sys b) ls).
Proof.
  intros Hc Hl Hb. apply run_inv; try assumption; [apply init_inv; assumption|].
  apply sub_bound_all, Hb.
Qed.

Lemma sysinv_prefix c s y : SysInv c s -> prefix (delivered s y) (sub_of s (other y)).
Proof.
  intros (P & W & E & N). specialize (E y). rewrite EndInv_eq in E.
  destruct (end_of s y); cbn [EndInvP] in E.
  - destruct E as [-> _]. exists (sub_of s (other y)). reflexivity.
  - destruct E as [-> _]. exists (sub_of s (other y)). reflexivity.
  - destruct E as [_ HR]. apply RcvInv_prefix in HR. rewrite pv_sub_pv_of in HR.
    destruct HR as [r Hr]. exists (in_text t ++ r). now rewrite app_assoc.
  - exact E.
Qed.

(* What the invariant says of an arbitrary state; the theorems about reachable states
   (safety, sender_consistent, sync, data_before_fin below, C01 / C03 in Props) are these at
   a state that reachable_inv provides. *)
Lemma inv_safety c s : SysInv c s ->
  panicked s = false /\ prefix (delivered s SB) (subA s) /\ prefix (delivered s SA) (subB s).
Proof.
  intros HI. split; [apply HI|]. split; [apply (sysinv_prefix c s SB HI)|apply (sysinv_prefix c s SA HI)].
Qed.

Theorem safety c b ls :
  cfg_ok c -> forallb no_inject ls = true ->
  let s := run c (init_sys b) ls in
  sub_bound s ->
  panicked s = false /\ prefix (delivered s SB) (subA s) /\ prefix (delivered s SA) (subB s).
Proof. intros Hc Hl s Hb. apply (inv_safety c), reachable_inv; assumption. Qed.

Lemma inv_sender_segs c s x t : SysInv c s -> end_of s x = ELive t ->
  Forall (seg_inv (my_pv (iss_of c x) (sub_of s x) t)) (map t_seg (retx t) ++ net_of s x).
Proof.
  intros HI El. destruct (live_parts c s x t HI El) as (HS & _ & _ & Epv).
  apply Forall_app. split; [apply HS|]. rewrite <- Epv. apply HI.
Qed.

(* the sender half, for every live endpoint of a reachable state *)
Theorem sender_consistent c b ls x t :
  cfg_ok c -> forallb no_inject ls = true ->
  let s := run c (init_sys b) ls in
  sub_bound s -> end_of s x = ELive t ->
  snd_iss t = iss_of c x /\
  out_text t = skipn (Z.to_nat (data_sent (sub_of s x) t)) (sub_of s x) /\
  snd_nxt t = wadd (wadd (iss_of c x) 1) (data_sent (sub_of s x) t + b2z (finq t)) /\
  Forall (seg_inv (my_pv (iss_of c x) (sub_of s x) t)) (map t_seg (retx t)) /\
  Forall (seg_inv (my_pv (iss_of c x) (sub_of s x) t)) (net_of s x).
Proof.
  intros Hc Hl s Hb El. pose proof (reachable_inv c b ls Hc Hl Hb) as HI. fold s in HI.
  destruct (live_parts c s x t HI El) as ((A1 & _ & _ & _ & A5 & A6 & _) & _).
  pose proof (inv_sender_segs c s x t HI El) as Hs. apply Forall_app in Hs. auto.
Qed.

Lemma inv_sender c s x t : SysInv c s -> end_of s x = ELive t ->
  let S := sub_of s x in
  let sent := zlen S - zlen (out_text t) in
  snd_iss t = iss_of c x /\
  0 <= sent /\ out_text t = skipn (Z.to_nat sent) S /\
  snd_nxt t = wadd (wadd (iss_of c x) 1) (sent + b2z (finq t)) /\
  (forall seg, In seg (map t_seg (retx t) ++ net_of s x) -> s_text seg <> [] ->
     let off := wsub (h_seq (s_hdr seg)) (wadd (iss_of c x) 1) in
     s_text seg = firstn (length (s_text seg)) (skipn (Z.to_nat off) S) /\
     off + zlen (s_text seg) <= sent /\
     c_syn (h_ctl (s_hdr seg)) = false /\ c_fin (h_ctl (s_hdr seg)) = false).
Proof.
  intros HI El S sent.
  destruct (live_parts c s x t HI El) as ((A1 & _ & _ & A4 & A5 & A6 & _) & _).
  pose proof (inv_sender_segs c s x t HI El) as Hs. rewrite Forall_forall in Hs.
  repeat split; try assumption; destruct (Hs seg H) as (T & _); apply (T H0).
Qed.

(* C03 (b): synchronised sequence numbers.  Only the receiving side has to have left SYN-SENT. *)
Lemma inv_sync c s x t t' : SysInv c s ->
  end_of s x = ELive t -> end_of s (other x) = ELive t' -> st t <> SynSent ->
  let peer_base := wadd (iss_of c (other x)) 1 in
  rcv_irs t = iss_of c (other x) /\
  wsub (rcv_nxt t) peer_base <= wsub (snd_nxt t') peer_base /\
  wsub (snd_nxt t') peer_base <= zlen (sub_of s (other x)) + 1.
Proof.
  intros HI El El' N1 base.
  assert (Hss : state_eqb (st t) SynSent = false) by (destruct (st t); auto; contradiction).
  destruct (live_parts c s x t HI El) as (_ & HR & _ & _).
  destruct (live_parts c s (other x) t' HI El') as (HS' & _ & Hb' & Epv').
  pose proof (proj1 (proj2 HI) (other x)) as Wp. rewrite Epv' in *.
  destruct HR as (R1 & R2 & R3). rewrite Hss in R3. destruct R3 as (R3 & R4 & R5 & R6 & R7).
  destruct Wp as (Hu & Hl & Hb & Hfz).
  destruct HS' as (A1 & A2 & A3 & A4 & A5 & A6 & _).
  unfold rcv_n, pv_base in *. cbn [my_pv pv_iss pv_sub pv_lim pv_frozen] in *. fold base in R5, R7.
  split; [exact R3|].
  set (ds := data_sent (sub_of s (other x)) t') in *.
  assert (Hsn : wsub (snd_nxt t') base = ds + b2z (finq t')).
  { rewrite A6. subst base. rewrite wsub_spec, wadd_spec. unfold u32, M32, SEQ_BOUND in *.
    destruct (finq t'); cbn [b2z]; lia. }
  rewrite Hsn. split.
  - destruct (fin_consumed (st t)); cbn [b2z] in *.
    + destruct (R7 eq_refl) as [Hq Hn]. rewrite Hq in *. cbn [b2z]. specialize (Hfz eq_refl). lia.
    + destruct (finq t'); cbn [b2z]; lia.
  - subst ds. unfold data_sent. pose proof (zlen_nonneg (out_text t')). destruct (finq t'); cbn [b2z]; lia.
Qed.

Definition synchronised (s : state) : bool :=
  match s with SynSent | SynReceived => false | _ => true end.

Theorem sync c b ls t t' x :
  cfg_ok c -> forallb no_inject ls = true ->
  let s := run c (init_sys b) ls in
  sub_bound s ->
  end_of s x = ELive t -> end_of s (other x) = ELive t' ->
  synchronised (st t) = true -> synchronised (st t') = true ->
  rcv_irs t = iss_of c (other x) /\
  wsub (rcv_nxt t) (wadd (iss_of c (other x)) 1) <= wsub (snd_nxt t') (wadd (iss_of c (other x)) 1).
Proof.
  intros Hc Hl s Hb El El' Hs _.
  destruct (inv_sync c s x t t' (reachable_inv c b ls Hc Hl Hb) El El') as (A & B & _); [|auto].
  intros E. rewrite E in Hs. discriminate Hs.
Qed.

(* C03 (c): once the peer's FIN has been consumed, all the peer ever submitted has arrived,
   and the peer can never extend its stream again *)
Lemma inv_data_before_fin c s y t : SysInv c s ->
  end_of s y = ELive t -> fin_consumed (st t) = true ->
  delivered s y ++ in_text t = sub_of s (other y) /\
  match end_of s (other y) with
  | ELive t' => finq t' = true /\ accepts_send (st t') = false
  | EDead => True
  | _ => False
  end.
Proof.
  intros HI El Hfc. pose proof HI as (P & W & E & N).
  specialize (E y). rewrite EndInv_eq, El in E. destruct E as [_ (R1 & R2 & R3)].
  assert (Hss : state_eqb (st t) SynSent = false) by (destruct (st t); try discriminate Hfc; reflexivity).
  rewrite Hss in R3. destruct R3 as (_ & _ & _ & R6 & R7).
  destruct (R7 Hfc) as [Hfr Hn]. split.
  - rewrite R6, Hn, pv_sub_pv_of. unfold zlen. rewrite Nat2Z.id. apply firstn_all.
  - rewrite pv_of_eq in Hfr.
    destruct (end_of s (other y)); cbn [pv_of_end pv_frozen my_pv] in Hfr; try discriminate Hfr; auto.
    split; [exact Hfr|]. unfold finq in Hfr. apply andb_prop in Hfr. destruct Hfr as [Hcl _].
    destruct (st t0); try discriminate Hcl; reflexivity.
Qed.

Lemma fin_consumed_iff st0 :
  fin_consumed st0 = true <-> (st0 = CloseWait \/ st0 = Closing \/ st0 = LastAck \/ st0 = TimeWait).
Proof.
  split; [destruct st0; try discriminate; auto|intros [-> | [-> | [-> | ->]]]; reflexivity].
Qed.

Theorem data_before_fin c b ls y t :
  cfg_ok c -> forallb no_inject ls = true ->
  let s := run c (init_sys b) ls in
  sub_bound s ->
  end_of s y = ELive t -> fin_consumed (st t) = true ->
  delivered s y ++ in_text t = sub_of s (other y).
Proof. intros Hc Hl s Hb El Hfc. apply (inv_data_before_fin c s y t); [apply reachable_inv|..]; assumption. Qed.
