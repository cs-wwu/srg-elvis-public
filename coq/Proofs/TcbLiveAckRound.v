(* C01 liveness: a flight is delivered completely and read, but every ACK of that round is lost.
   Two loss-free rounds repair it: the sender's timer fires and the flight is retransmitted, the
   receiver treats all of it as old data (nothing is delivered twice) and answers with duplicate
   ACKs, the first of which empties the sender's queue. *)
From Elvis Require Import Model.Base Model.U32 Model.Tcb Model.TcpNet Proofs.U32Facts Proofs.TcbSafetySnd
  Proofs.TcbSafetySys Proofs.TcbLive Proofs.TcbLiveSys Proofs.TcbLiveThm Proofs.TcbLiveWin
  Proofs.TcbLiveWinSys Proofs.TcbLiveMidSys Proofs.TcbLiveLossRound.
Local Open Scope Z_scope.

Lemma set_net_same s y : net_of s y = [] -> set_net s y [] = s.
Proof. intros H. destruct s, y; cbn in *; subst; reflexivity. Qed.
Lemma set_net_twice s y n m : set_net (set_net s y n) y m = set_net s y m.
Proof. destruct s, y; reflexivity. Qed.

Lemma forall2_len {A B} (P : A -> B -> Prop) l m : Forall2 P l m -> length l = length m.
Proof. induction 1; cbn [length]; congruence. Qed.

Section AckRound.
  Variable c : config.

  Lemma arrive_panicked s r seg : panicked s = true -> panicked (fst (arrive c s r seg)) = true.
  Proof.
    intros H. unfold arrive, final_read.
    repeat match goal with |- context [match ?e with _ => _ end] => destruct e end;
      destruct s, r; cbn in *; auto.
  Qed.

  Lemma deliver_all_panicked : forall f s x, panicked s = true -> panicked (deliver_all f c s x) = true.
  Proof.
    induction f as [|f IH]; intros s x H; cbn [deliver_all]; [exact H|].
    destruct (net_of s x) as [|seg rest] eqn:En; [exact H|].
    apply IH, arrive_panicked. sysr; first [reflexivity|assumption].
  Qed.

  Lemma run_delivers : forall k s x, panicked (deliver_all k c s x) = false ->
    run c s (repeat (LDeliver x 0) k) = deliver_all k c s x.
  Proof.
    induction k as [|k IH]; intros s x H; [reflexivity|].
    assert (Pn : panicked s = false).
    { destruct (panicked s) eqn:E; [|reflexivity]. rewrite deliver_all_panicked in H; [discriminate|exact E]. }
    cbn [repeat]. change (run c s (LDeliver x 0 :: repeat (LDeliver x 0) k))
      with (run c (fst (sys_step c s (LDeliver x 0))) (repeat (LDeliver x 0) k)).
    cbn [deliver_all] in *. unfold sys_step. rewrite Pn.
    destruct (net_of s x) as [|seg rest] eqn:En.
    - cbn [fst]. rewrite IH; [apply deliver_all_nil; exact En|].
      rewrite deliver_all_nil by exact En. exact Pn.
    - rewrite Nat.mod_0_l by (cbn [length]; lia). cbn [nth_error remove_nth].
      apply IH. exact H.
  Qed.

  Lemma run_drops0 y : forall n s, panicked s = false -> net_of s y = n ->
    run c s (repeat (LDrop y 0) (length n)) = set_net s y [].
  Proof.
    induction n as [|e n IH]; intros s Pn Hn.
    - cbn [length repeat]. symmetry. now apply set_net_same.
    - cbn [length repeat]. change (run c s (LDrop y 0 :: repeat (LDrop y 0) (length n)))
        with (run c (fst (sys_step c s (LDrop y 0))) (repeat (LDrop y 0) (length n))).
      rewrite (ldrop_step c s y 0 (e :: n) Pn Hn ltac:(discriminate)).
      rewrite Nat.mod_0_l by (cbn [length]; lia). cbn [remove_nth].
      rewrite IH; [apply set_net_twice| sysr; first [reflexivity|assumption] | sysr; first [reflexivity|assumption]].
  Qed.

  Lemma lrecv_step s y t : panicked s = false -> end_of s y = ELive t -> in_text t <> [] ->
    fst (sys_step c s (LRecv y)) = set_del (set_end s y (ELive (set_in_text t []))) y (del_of s y ++ [in_text t]).
  Proof. intros Pn El Hi. unfold sys_step. rewrite Pn. now apply recv_eval_data. Qed.

  (* the flight is delivered in order and read; the ACKs are emitted and all dropped *)
  Lemma inflight_unacked s x p q R lp rp segs :
    Outstanding c x s p q R lp rp [] segs segs ->
    let k := length segs in
    let s2 := run c s (repeat (LDeliver x 0) k ++ [LRecv (other x); LEmit (other x)]) in
    let s3 := run c s2 (repeat (LDrop (other x) 0) k) in
    net_of s2 x = [] /\ length (net_of s2 (other x)) = k /\
    Outstanding c x s3 p q R lp rp segs [] [] /\
    (forall y, sub_of s3 y = sub_of s y) /\ del_of s3 x = del_of s x /\
    del_of s2 (other x) = del_of s (other x) ++ [flight_bytes segs] /\
    del_of s3 (other x) = del_of s (other x) ++ [flight_bytes segs].
  Proof.
    intros (tx & ty & Ex & Ey & HS & F & Hne & Qy & Mx & My & Nx & _ & Ny & Pn) k s2 s3.
    cbn [app] in HS, F, Hne. assert (Hup : u32 p) by apply HS.
    change (flight_len []) with 0 in Qy. rewrite (wadd_0_u32 p Hup) in Qy.
    pose proof Qy as (Q1 & Q2 & Q3 & Q4 & Q5 & Q6 & Q7 & Q8 & Q9 & Q10 & Q11 & Q12 & Q13 & Q14 & Q15 & Q16 & Q17).
    pose proof HS as (A1 & A2 & A3 & A4 & A5 & A6 & A7 & A8 & A9 & A10 & A11 & A12 & A13 & A14 & A15 & A16 & A17 & _ & A19 & A20).
    pose proof (flight_len_pos _ _ _ _ _ F Hne) as Hpos.
    assert (F' : flight lp rp q (rcv_nxt ty) segs) by (rewrite Q4; exact F).
    assert (Hu' : u32 (rcv_nxt ty)) by (rewrite Q4; exact Q16).
    pose proof (feed_inorder lp rp q segs ty Q1 Q11 Q6 Hu' F'
                  ltac:(rewrite Q2; apply mod_leq_refl) ltac:(rewrite Q12; cbn; lia)) as Hf.
    pose proof (deliver_all_feed c x segs k s ty _ Ey Nx Hf (le_n _)) as ED. cbn [fed_sys] in ED.
    destruct (recv_flight_facts lp rp q segs ty F' Q6 Hu') as (C1 & R1 & I1 & S1 & acks & O1 & FA1).
    specialize (S1 Q11).
    cbv zeta in *. set (t1 := recv_flight ty segs) in *.
    destruct C1 as (_ & _ & Cm & Cst & Cun & Cnx & Csw & Crw & Cot & Crx & Cfp & Crto & Ctw).
    rewrite Q4 in R1. rewrite Q12 in I1. cbn [app] in I1. rewrite Q9 in O1. cbn [app] in O1.
    set (sD := set_end (set_net s x []) (other x) (ELive t1)) in ED.
    assert (PD : panicked sD = false) by (subst sD; sysr; first [reflexivity|assumption]).
    assert (RD : run c s (repeat (LDeliver x 0) k) = sD).
    { rewrite run_delivers; rewrite ED; [reflexivity|exact PD]. }
    assert (Hne1 : in_text t1 <> []).
    { rewrite I1. intros E0. unfold flight_len in Hpos. rewrite E0 in Hpos. cbn in Hpos. lia. }
    assert (EyD : end_of sD (other x) = ELive t1) by (subst sD; sysr; first [reflexivity|assumption]).
    pose proof (lrecv_step sD (other x) t1 PD EyD Hne1) as ER. rewrite I1 in ER.
    set (sR := set_del _ _ _) in ER.
    set (t2 := set_in_text t1 []) in *.
    set (mk := fun h : header => mkSeg h []).
    assert (E1 : tcb_segments t2 = Ok (set_retx (set_oneshot t2 []) [], map mk acks)).
    { rewrite segments_nothing_new.
      - subst t2; tcb_simpl. rewrite Crx, Q8, O1. cbn [map filter]. now rewrite app_nil_r.
      - subst t2; tcb_simpl. congruence.
      - subst t2; tcb_simpl. congruence.
      - subst t2; tcb_simpl. rewrite Cst, Q1. reflexivity.
      - subst t2; tcb_simpl. lia. }
    set (t3 := set_retx _ _) in E1.
    assert (PR : panicked sR = false) by (subst sR; sysr; first [reflexivity|assumption]).
    assert (EyR : end_of sR (other x) = ELive t2) by (subst sR; sysr; first [reflexivity|assumption]).
    pose proof (lemit_step c sR (other x) t2 t3 (map mk acks) PR EyR E1) as EE.
    assert (NyR : net_of sR (other x) = []) by (subst sR sD; sysr; first [reflexivity|assumption]).
    rewrite NyR in EE. cbn [app] in EE. set (sE := set_net _ _ _) in EE.
    assert (E2 : s2 = sE).
    { subst s2. rewrite run_app, RD. unfold run. cbn [fold_left]. rewrite ER. exact EE. }
    assert (Hlen : length (map mk acks) = k).
    { rewrite map_length. subst k. symmetry. eapply forall2_len. exact FA1. }
    assert (PE : panicked sE = false) by (subst sE; sysr; first [reflexivity|assumption]).
    assert (NyE : net_of sE (other x) = map mk acks) by (subst sE; sysr; first [reflexivity|assumption]).
    assert (E3 : s3 = set_net sE (other x) []).
    { subst s3. rewrite E2, <- Hlen. apply run_drops0; assumption. }
    rewrite E3, E2. splits.
    - subst sE sR sD. sysr; first [reflexivity|assumption].
    - now rewrite NyE.
    - exists tx, t3. rewrite app_nil_r, A19. subst sE sR sD. sysr. splits; auto using sl_nil.
      + unfold quiet. subst t3 t2. tcb_simpl.
        splits; try congruence; try (rewrite Cm; apply Q17).
        * rewrite <- A19. apply wadd_u32.
      + subst t3 t2. tcb_simpl. congruence.
    - intros y. subst sE sR sD. sysr; first [reflexivity|assumption].
    - subst sE sR sD. sysr; first [reflexivity|assumption].
    - subst sE sR sD. sysr; first [reflexivity|assumption].
    - subst sE sR sD. sysr; first [reflexivity|assumption].
  Qed.

  Theorem lost_acks_recovery s a b x bytes :
    Quiescent c s a b -> 0 < zlen bytes <= 65535 ->
    let n := zlen bytes in
    let s1 := run c s [LSend x bytes; LEmit x] in
    let nseg := length (net_of s1 x) in
    let s2 := run c s1 (repeat (LDeliver x 0) nseg ++ [LRecv (other x); LEmit (other x)]) in
    let s' := run c s2 (repeat (LDrop (other x) 0) nseg ++ [LFair 2]) in
    (net_of s2 x = [] /\ length (net_of s2 (other x)) = nseg /\
     delivered s2 (other x) = delivered s (other x) ++ bytes) /\
    Quiescent c s' (sel x (wadd a n) a) (sel x b (wadd b n)) /\
    sub_of s' x = sub_of s x ++ bytes /\ sub_of s' (other x) = sub_of s (other x) /\
    delivered s' (other x) = delivered s (other x) ++ bytes /\ delivered s' x = delivered s x.
  Proof.
    intros HQ Hn n s1 nseg s2 s'.
    destruct (send_emit_inflight c s a b x bytes HQ Hn) as (lp & rp & segs & HI1 & HB & S1 & S1' & D1).
    cbv zeta in *. fold s1 in HI1, S1, S1', D1. set (p := sel x a b) in *. set (q := sel x b a) in *.
    assert (Hnet : net_of s1 x = segs) by (destruct HI1 as (? & ? & H); apply H).
    subst s' s2 nseg. rewrite Hnet.
    set (s2 := run c s1 (repeat (LDeliver x 0) (length segs) ++ [LRecv (other x); LEmit (other x)])).
    destruct (inflight_unacked s1 x p q (wadd p n) lp rp segs HI1) as (U1 & U2 & HU & S2 & D2 & D3 & D4).
    cbv zeta in *. fold s2 in U1, U2, HU, S2, D2, D3, D4.
    set (s3 := run c s2 (repeat (LDrop (other x) 0) (length segs))) in *.
    assert (Pn3 : panicked s3 = false) by (destruct HU as (? & ? & H); apply H).
    destruct (outstanding_recover c s3 x p q (wadd p n) lp rp segs [] [] HU) as (HQ' & S3 & D5 & D6).
    cbv zeta in *. change (flight_bytes []) with (@nil Z) in D6. rewrite app_nil_r in D6.
    assert (Es' : run c s2 (repeat (LDrop (other x) 0) (length segs) ++ [LFair 2]) = fair_rounds 2 c s3).
    { rewrite run_app. fold s3. cbn [run fold_left]. apply (fairk c s3 2 Pn3). }
    rewrite Es'.
    destruct (sel_after x a b n) as [Esel1 Esel2]. fold p q in Esel1, Esel2. rewrite Esel1, Esel2 in HQ'.
    splits; auto.
    - unfold delivered. rewrite D3, D1, concat_app, HB. cbn [concat]. now rewrite app_nil_r.
    - now rewrite S3, S2.
    - now rewrite S3, S2.
    - rewrite D6. unfold delivered. rewrite D4, D1, concat_app, HB. cbn [concat]. now rewrite app_nil_r.
    - unfold delivered. now rewrite D5, D2, D1.
  Qed.
End AckRound.
