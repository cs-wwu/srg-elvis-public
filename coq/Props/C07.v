(* C07 - Message is an immutable byte string.  Property theorems only; statements are pinned.
   Model: Model/Message.v (chunk = window start..end of a buffer, msg = chunk list + len, every
   usize + and - checked).  bytes_of m = concatenation of the chunk windows; WF m = every window
   lies inside its buffer /\ mlen m = length (bytes_of m) /\ mlen m <= usize::MAX.
   The reference (vslice, vcut, vappend, vstep, run_vecs) is what std does on a Vec<u8>. *)
From Elvis Require Import Model.Base Model.Message Proofs.MessageFacts Proofs.MessagePool Proofs.MessageThms.
Local Open Scope N_scope.

(* ---- construction *)
Theorem C07_default_refines : WF msg_default /\ bytes_of msg_default = [].
Proof. exact default_wf. Qed.
Print Assumptions C07_default_refines.

Theorem C07_new_refines : forall b, is_vec b ->
  exists m, msg_new b = Ok m /\ WF m /\ bytes_of m = b.
Proof. exact new_ok. Qed.
Print Assumptions C07_new_refines.

(* ---- header / concatenate: append on byte lists; the only panic is `self.len +=` overflowing usize *)
Theorem C07_header_refines : forall m b, WF m -> is_vec b ->
  (blen b + mlen m <= USIZE_MAX ->
     exists m', msg_header m b = Ok m' /\ WF m' /\ bytes_of m' = b ++ bytes_of m) /\
  (USIZE_MAX < blen b + mlen m -> exists s, msg_header m b = Panic s).
Proof. exact header_refines. Qed.
Print Assumptions C07_header_refines.

Theorem C07_concat_refines : forall m o, WF m -> WF o ->
  (mlen m + mlen o <= USIZE_MAX ->
     exists m', msg_concat m o = Ok m' /\ WF m' /\ bytes_of m' = bytes_of m ++ bytes_of o) /\
  (USIZE_MAX < mlen m + mlen o -> exists s, msg_concat m o = Panic s).
Proof. exact concat_refines. Qed.
Print Assumptions C07_concat_refines.

(* ---- slice_inner(start, len): in range => the sub-list; out of range => panic *)
Theorem C07_slice_refines : forall m start len, WF m ->
  start + match len with Some l => l | None => 0 end <= mlen m ->
  exists m', msg_slice_inner m start len = Ok m' /\ WF m' /\
    bytes_of m' = firstn (N.to_nat (match len with Some l => l | None => mlen m - start end))
                         (skipn (N.to_nat start) (bytes_of m)).
Proof. exact slice_refines. Qed.
Print Assumptions C07_slice_refines.

Theorem C07_slice_out_of_range_panics : forall m start len,
  mlen m < start + match len with Some l => l | None => 0 end ->
  exists s, msg_slice_inner m start len = Panic s.
Proof. exact slice_inner_panic. Qed.
Print Assumptions C07_slice_out_of_range_panics.

(* ---- every std range form, any endpoints: same bytes as v[r].to_vec(), panic exactly when Vec
   indexing panics (incl. e+1 overflow of ..=e and s..=e, and s > e+1 for s..=e).
   range_ok only excludes `s..e` with s > e, see the remark below. *)
Theorem C07_slice_range_forms : forall m r, WF m -> range_ok r ->
  match msg_slice m r, vslice (bytes_of m) r with
  | Ok m', Ok v => WF m' /\ bytes_of m' = v
  | Panic _, Panic _ => True
  | _, _ => False
  end.
Proof. exact slice_forms. Qed.
Print Assumptions C07_slice_range_forms.

(* REMARK (not part of the property): for an inverted `s..e` (e < s) Vec indexing always panics,
   the code yields the EMPTY message whenever s <= len (Range::len() is 0) and panics only for s > len. *)
Theorem C07_inverted_range_remark : forall m s e, WF m -> e < s ->
  (exists x, vslice (bytes_of m) (RRange s e) = Panic x) /\
  (s <= mlen m -> exists m', msg_slice m (RRange s e) = Ok m' /\ WF m' /\ bytes_of m' = []) /\
  (mlen m < s -> exists x, msg_slice m (RRange s e) = Panic x).
Proof. exact inverted_range. Qed.
Print Assumptions C07_inverted_range_remark.

(* the `start + len` of the assert in slice_inner cannot overflow for any range over usize values *)
Theorem C07_range_sum_no_overflow : forall r s l,
  match r with
  | RRange a b | RIncl a b => a <= USIZE_MAX /\ b <= USIZE_MAX
  | RFrom a | RTo a | RToIncl a => a <= USIZE_MAX
  | RFull => True
  end ->
  range_into r = Ok (s, l) -> s + match l with Some x => x | None => 0 end <= USIZE_MAX.
Proof. exact range_sum_no_overflow. Qed.
Print Assumptions C07_range_sum_no_overflow.

(* ---- cut / remove_front *)
Theorem C07_cut_refines : forall m n, WF m ->
  (n <= mlen m -> exists rest front, msg_cut m n = Ok (rest, front) /\ WF rest /\ WF front /\
     bytes_of front = firstn (N.to_nat n) (bytes_of m) /\
     bytes_of rest = skipn (N.to_nat n) (bytes_of m)) /\
  (mlen m < n -> exists s, msg_cut m n = Panic s).
Proof. exact cut_refines. Qed.
Print Assumptions C07_cut_refines.

Theorem C07_remove_front_refines : forall m n, WF m ->
  (n <= mlen m -> exists m', msg_remove_front m n = Ok m' /\ WF m' /\
     bytes_of m' = skipn (N.to_nat n) (bytes_of m)) /\
  (mlen m < n -> exists s, msg_remove_front m n = Panic s).
Proof. exact remove_front_refines. Qed.
Print Assumptions C07_remove_front_refines.

(* ---- observations: len, iter, to_vec, is_empty, == *)
Theorem C07_observations_refine : forall m, WF m ->
  msg_len m = blen (bytes_of m) /\
  msg_iter m = Ok (bytes_of m) /\
  msg_to_vec m = Ok (bytes_of m) /\
  (msg_is_empty m = true <-> bytes_of m = []).
Proof. exact (fun m W => conj (len_ok m W) (conj (msg_iter_ok m W) (conj (msg_iter_ok m W) (is_empty_ok m W)))). Qed.
Print Assumptions C07_observations_refine.

Theorem C07_eq_refines : forall m1 m2, WF m1 -> WF m2 ->
  exists b, msg_eq m1 m2 = Ok b /\ (b = true <-> bytes_of m1 = bytes_of m2).
Proof. exact msg_eq_ok. Qed.
Print Assumptions C07_eq_refines.

(* ---- one op on a pool (clone / cut / concatenate create the aliasing) *)
Theorem C07_step_refines : forall o pool, Forall WF pool -> op_ok o ->
  match step o pool, vstep o (map bytes_of pool) with
  | Ok p', Ok vs' => Forall WF p' /\ map bytes_of p' = vs'
  | Panic _, Panic _ => True
  | Err _, Err _ => True      (* slot number outside the pool: malformed case on both sides *)
  | _, _ => False
  end.
Proof. intros o pool W K. exact (step_refines o pool _ (conj W eq_refl) K). Qed.
Print Assumptions C07_step_refines.

(* ---- HISTORY: every op sequence on every well-formed pool.  (Applied to each prefix of ops it
   also says that both sides panic at the same op.) *)
Theorem C07_history : forall ops pool, Forall WF pool -> Forall op_ok ops ->
  match run_pool ops pool, run_vecs ops (map bytes_of pool) with
  | Ok p', Ok vs' => Forall WF p' /\ map bytes_of p' = vs'
  | Panic _, Panic _ => True
  | Err _, Err _ => True
  | _, _ => False
  end.
Proof. intros ops pool W K. exact (history ops pool _ (conj W eq_refl) K). Qed.
Print Assumptions C07_history.

(* after any history, len / to_vec / iter of every slot and == of every pair of slots are those of
   the plain vectors *)
Theorem C07_history_observed : forall ops pool p' vs', Forall WF pool -> Forall op_ok ops ->
  run_pool ops pool = Ok p' -> run_vecs ops (map bytes_of pool) = Ok vs' ->
  forall i m, nth_error p' i = Some m ->
    exists v, nth_error vs' i = Some v /\ msg_len m = blen v /\ msg_to_vec m = Ok v /\ msg_iter m = Ok v /\
    forall j m2, nth_error p' j = Some m2 ->
      exists v2 b, nth_error vs' j = Some v2 /\ msg_eq m m2 = Ok b /\ (b = true <-> v = v2).
Proof. exact history_observed. Qed.
Print Assumptions C07_history_observed.

(* ---- FRAME: an op leaves every slot it does not name as a target untouched - the very same
   model value, hence the same bytes - whatever storage the slots share *)
Theorem C07_frame : forall o pool pool' k, step o pool = Ok pool' -> ~ In k (targets o) ->
  nth_error pool' k = nth_error pool k /\
  nth_error (map bytes_of pool') k = nth_error (map bytes_of pool) k.
Proof.
  intros o pool pool' k H Hk. pose proof (frame o pool pool' k H Hk) as F.
  split; [exact F | rewrite !nth_error_map, F; reflexivity].
Qed.
Print Assumptions C07_frame.

Theorem C07_frame_history : forall ops p p' k, run_pool ops p = Ok p' ->
  (forall o, In o ops -> ~ In k (targets o)) -> nth_error p' k = nth_error p k.
Proof. exact frame_history. Qed.
Print Assumptions C07_frame_history.

(* a clone and its original are independent values *)
Theorem C07_clone_independent : forall d i p p1 ops p2 m,
  step (OClone d i) p = Ok p1 -> d <> i -> nth_error p i = Some m ->
  run_pool ops p1 = Ok p2 -> (forall o, In o ops -> ~ In i (targets o)) ->
  nth_error p2 i = Some m.
Proof.
  intros d i p p1 ops p2 m H1 Hdi Hm H2 Hfr. rewrite <- Hm. apply (frame_history (OClone d i :: ops) p p2 i).
  - cbn [run_pool]. rewrite H1. exact H2.
  - intros o [<- | Ho]; [cbn [targets In]; intros [-> | []]; congruence | exact (Hfr o Ho)].
Qed.
Print Assumptions C07_clone_independent.

(* the side conditions are satisfiable and both outcomes occur *)
Example C07_history_example :
  Forall WF ex_pool /\ Forall op_ok ex_ops /\
  (exists p', run_pool ex_ops ex_pool = Ok p' /\
     map bytes_of p' = [[3]; [1;2;3]; [9;1]; []; []; []; []; []]) /\
  (exists s, run_pool (ex_ops ++ [OCut 3 0 2]) ex_pool = Panic s) /\
  (exists s, run_vecs (ex_ops ++ [OCut 3 0 2]) (map bytes_of ex_pool) = Panic s).
Proof. exact example_sat. Qed.
Print Assumptions C07_history_example.
