(* C11 - IPv4 reassembly rebuilds exactly the datagrams that were fragmented.
   Property theorems only; each is closed by a lemma of Proofs/ or derived from general ones in a few lines; statements are pinned.

   Model/Reasm.v follows the code AFTER the two repairs: /repo commit 53148058 (assembly by
   offset with a cursor) and /verif/.cache/c11/fix-2b-epoch.patch (Epoch = u64; a newly allocated
   buffer counts its epochs on from retired_epoch, the greatest epoch of any buffer freed so far).
   The functions suffixed _orig follow the code before both repairs; the two _refuted theorems
   are counterexamples for that code.

   Vocabulary (Proofs/ReasmFacts.v, Proofs/ReasmTrace.v):
     WfDgram oh body   an unfragmented datagram: FO = 0, MF = 0, TL = IHL*4 + |body| <= 65535
     Piece oh body p   p = (header, payload) carries the slice of body at octet 8*FO, MF is clear
                       iff the slice ends where body ends, every other piece is a multiple of 8
                       octets, all other header fields are those of oh.  Any re-fragmentation of
                       any fragment through any MTU chain yields Pieces; overlapping pieces from
                       different chains and duplicates are Pieces too.
     Covers ps n       every octet of [0, n) lies inside some piece of ps
     RInv G r          buffer invariant: for every key the buffer of r holds exactly the pieces
                       the ghost map G lists for it (as a heap, with the bitmap, TDL, header and
                       timer the RFC 791 procedure derives from them)
     gpieces G k       the pieces received for key k since its buffer was last started
     EB n r            no epoch in r exceeds n (the u64 counters are away from 2^64-1)
     cur_epoch r k     the epoch of k's buffer, or retired_epoch if k has none *)
From Coq Require Import ZArith List Bool Permutation Sorted.
From Elvis Require Import Model.Base Model.Reasm.
From Elvis Require Import Proofs.ReasmHeap Proofs.ReasmBits Proofs.ReasmFacts Proofs.ReasmTrace Proofs.ReasmOrig.
Import ListNotations.
Local Open Scope Z_scope.

(* ---------------------------------------------------------------- refuted on the code as it was *)

(* original code: some history of genuine pieces returns something else than the datagram
   (witness: second fragment delivered twice, 24 octets returned for a 16-octet datagram) *)
Theorem C11_returns_original_orig_refuted :
  exists (D : bufid -> hdr * list Z) (evs : list (event Z)) r outs h m,
    Forall (GoodEvent D) evs /\ run_orig reasm_new evs = Ok (r, outs) /\
    In (ObsRecv (Complete h m)) outs /\ (h, m) <> D (buf_id h).
Proof. exact returns_original_orig_refuted. Qed.
Print Assumptions C11_returns_original_orig_refuted.

(* original code: a callback armed for an earlier datagram discards the buffer of a later one
   with the same key although a packet for that key arrived after the callback was armed *)
Theorem C11_expiry_orig_refuted :
  exists (h : hdr) (b : list Z) r1 t k e evs r2 outs,
    receive_orig reasm_new h b = Ok (r1, Incomplete t k e) /\
    run_orig r1 evs = Ok (r2, outs) /\
    recv_for k evs = true /\
    find k (r_segs r2) <> None /\ find k (r_segs (maybe_cull_orig r2 k e)) = None.
Proof. exact expiry_orig_refuted. Qed.
Print Assumptions C11_expiry_orig_refuted.

(* ---------------------------------------------------------------- the repaired code *)

Theorem C11_invariant_init : forall A : Type, @RInv A (fun _ => None) reasm_new.
Proof. exact (@RInv_new). Qed.
Print Assumptions C11_invariant_init.

(* One arrival, any reachable state: a piece of (oh, body) whose key is free or already
   reassembles (oh, body) never panics; it returns Complete exactly when the pieces received
   since the buffer was started, together with this one, cover the datagram, and then returns
   (oh, body) itself; otherwise Incomplete with timer max(15, TTL), its key and the next epoch
   of that key.  The invariant holds again with the ghost map updated accordingly, so the
   statement applies to every history. *)
Theorem C11_receive_step : forall (A : Type) (G : @gmap A) r n oh body (p : hdr * list A),
  RInv G r -> EB n r -> n < U64MAX -> WfDgram oh body -> Piece oh body p -> Compatible G oh body ->
  let k := buf_id oh in
  let ps := gpieces G k in
  exists r' res, receive r (fst p) (snd p) = Ok (r', res) /\
    ((Covers (p :: ps) (Z.of_nat (length body)) /\ res = Complete oh body /\
      RInv (gset G k None) r' /\ EB n r')
     \/
     (~ Covers (p :: ps) (Z.of_nat (length body)) /\
      res = Incomplete (Z.max 15 (h_ttl oh)) k (cur_epoch r k + 1) /\
      RInv (gset G k (Some (oh, body, p :: ps))) r' /\ EB (n + 1) r')).
Proof. exact (@receive_spec). Qed.
Print Assumptions C11_receive_step.

Theorem C11_complete_iff : forall (A : Type) (G : @gmap A) r n oh body (p : hdr * list A),
  RInv G r -> EB n r -> n < U64MAX -> WfDgram oh body -> Piece oh body p -> Compatible G oh body ->
  exists r' res, receive r (fst p) (snd p) = Ok (r', res) /\
    (is_complete res = true <-> Covers (p :: gpieces G (buf_id oh)) (Z.of_nat (length body))).
Proof.
  intros A G r n oh body p HR HB He Hwf Hp Hc.
  destruct (receive_spec G r n oh body p HR HB He Hwf Hp Hc) as (r' & res & Er & [(Hcov & -> & _) | (Hn & -> & _)]);
    exists r'; eexists; (split; [exact Er |]); cbn; [tauto | split; [discriminate | tauto]].
Qed.
Print Assumptions C11_complete_iff.

Theorem C11_returns_original : forall (A : Type) (G : @gmap A) r n oh body (p : hdr * list A) r' h m,
  RInv G r -> EB n r -> n < U64MAX -> WfDgram oh body -> Piece oh body p -> Compatible G oh body ->
  receive r (fst p) (snd p) = Ok (r', Complete h m) -> h = oh /\ m = body.
Proof.
  intros A G r n oh body p r' h m HR HB He Hwf Hp Hc Er.
  destruct (receive_spec G r n oh body p HR HB He Hwf Hp Hc) as (r1 & res & Er1 & [(_ & -> & _) | (_ & -> & _)]);
    rewrite Er in Er1; inversion Er1; subst; split; reflexivity.
Qed.
Print Assumptions C11_returns_original.

(* the expiry callback keeps the invariant: its key is untouched or free again, other keys untouched *)
Theorem C11_cull_step : forall (A : Type) (G : @gmap A) r n k e, RInv G r -> EB n r ->
  exists G', RInv G' (maybe_cull r k e) /\ EB n (maybe_cull r k e) /\
             (forall k', k' <> k -> G' k' = G k') /\ (G' k = G k \/ G' k = None).
Proof. exact (@cull_spec). Qed.
Print Assumptions C11_cull_step.

(* Whole histories from the empty reassembler: any number of datagrams (one per key, D), every
   packet a piece of the datagram owning its key - any order, interleaving, duplicates, overlapping
   re-fragmentations - and expiry callbacks with arbitrary arguments at arbitrary points.  The run
   never panics and every datagram handed up is the original one, header and payload. *)
Theorem C11_trace_returns_original : forall (A : Type) (D : bufid -> hdr * list A) (evs : list (event A)),
  Forall (GoodEvent D) evs -> Z.of_nat (length evs) < U64MAX ->
  exists r outs, run reasm_new evs = Ok (r, outs) /\
    forall h m, In (ObsRecv (Complete h m)) outs -> (h, m) = D (buf_id h).
Proof.
  intros A D evs Hgood Hlen.
  apply (run_returns_original D evs (fun _ => None) reasm_new 0 Hgood RInv_new EB_new); [intros k; exact I | lia].
Qed.
Print Assumptions C11_trace_returns_original.

Theorem C11_hypotheses_satisfiable :
  Forall (GoodEvent w_D) w_dup /\ Z.of_nat (length w_dup) < U64MAX /\
  (exists r t1 e1 t2 e2,
    run reasm_new w_dup =
      Ok (r, [ObsRecv (Incomplete t1 w_key e1); ObsRecv (Incomplete t2 w_key e2);
              ObsRecv (Complete w_oh w_body)])) /\
  (* and the history that defeats the original expiry: first fragment, completion, first fragment
     again - the callback of the very first arrival now leaves the new buffer alone *)
  (exists r1 t e r2 outs,
    receive reasm_new (fst w_p1) (snd w_p1) = Ok (r1, Incomplete t w_key e) /\
    run r1 [EvRecv (fst w_p2) (snd w_p2); EvRecv (fst w_p1) (snd w_p1)] = Ok (r2, outs) /\
    find w_key (r_segs r2) <> None /\ maybe_cull r2 w_key e = r2).
Proof.
  exact (conj (proj1 good_history_example)
        (conj (proj2 good_history_example) (conj returns_original_witness expiry_witness))).
Qed.
Print Assumptions C11_hypotheses_satisfiable.

(* isolation: a packet (any packet, malformed ones included) and a callback leave every buffer
   of another key as it is ... *)
Theorem C11_isolation_receive_frame : forall (A : Type) (r : reasm A) h b r' res,
  receive r h b = Ok (r', res) ->
  forall k', k' <> buf_id h -> find k' (r_segs r') = find k' (r_segs r).
Proof. exact (@receive_frame). Qed.
Print Assumptions C11_isolation_receive_frame.

Theorem C11_isolation_cull_frame : forall (A : Type) (r : reasm A) k e k', k' <> k ->
  find k' (r_segs (maybe_cull r k e)) = find k' (r_segs r).
Proof. exact (@cull_frame). Qed.
Print Assumptions C11_isolation_cull_frame.

(* ... and what a packet returns depends on the rest of the reassembler only through the value
   of retired_epoch *)
Theorem C11_isolation_local : forall (A : Type) (r1 r2 : reasm A) h b,
  find (buf_id h) (r_segs r1) = find (buf_id h) (r_segs r2) -> r_epoch r1 = r_epoch r2 ->
  match receive r1 h b, receive r2 h b with
  | Ok (r1', res1), Ok (r2', res2) =>
    res1 = res2 /\ find (buf_id h) (r_segs r1') = find (buf_id h) (r_segs r2') /\
    r_epoch r1' = r_epoch r2'
  | Panic a, Panic b => a = b
  | Err a, Err b => a = b
  | OutOfFuel, OutOfFuel => True
  | _, _ => False
  end.
Proof. exact (@receive_local). Qed.
Print Assumptions C11_isolation_local.

(* expiry, from ANY state and for arbitrary packets and callbacks in between: the callback (k, e)
   handed out with an Incomplete result discards the buffer if no packet for k arrived in between
   (it may already be gone), and has no effect at all if one did - also when the datagram
   completed, was flushed or was discarded meanwhile and the key is in use again *)
Theorem C11_expiry : forall (A : Type) (r0 : reasm A) h b r1 t k e evs r2 outs,
  receive r0 h b = Ok (r1, Incomplete t k e) -> run r1 evs = Ok (r2, outs) ->
  (recv_for k evs = false -> find k (r_segs (maybe_cull r2 k e)) = None) /\
  (recv_for k evs = true -> maybe_cull r2 k e = r2).
Proof. exact (@expiry). Qed.
Print Assumptions C11_expiry.

(* segment.rs:90 self.header.unwrap() cannot fail, whatever arrives *)
Theorem C11_unwrap_never_panics : forall (A : Type) (evs : list (event A)),
  Forall fo_nonneg evs -> run reasm_new evs <> Panic 7.
Proof. intros A evs H. apply run_unwrap_safe_gen; [intros k s; cbn; discriminate | exact H]. Qed.
Print Assumptions C11_unwrap_never_panics.

(* ---------------------------------------------------------------- the parts of std and bitvec.rs *)

(* the model of std::collections::BinaryHeap is a priority queue, whatever it does on ties *)
Theorem C11_binary_heap_push : forall (T : Type) (le : T -> T -> bool) (d : T),
  (forall x y, le x y = true \/ le y x = true) ->
  (forall x y z, le x y = true -> le y z = true -> le x z = true) ->
  forall a x, heap_ok le d a ->
  heap_ok le d (heap_push le d a x) /\ Permutation (x :: a) (heap_push le d a x).
Proof. exact (@heap_push_ok). Qed.
Print Assumptions C11_binary_heap_push.

Theorem C11_binary_heap_drain : forall (T : Type) (le : T -> T -> bool) (d : T),
  (forall x y, le x y = true \/ le y x = true) ->
  (forall x y z, le x y = true -> le y z = true -> le x z = true) ->
  forall fuel a, heap_ok le d a -> (length a <= fuel)%nat ->
  Permutation a (heap_drain le d fuel a) /\
  StronglySorted (fun x y => le y x = true) (heap_drain le d fuel a).
Proof. exact (@heap_drain_ok). Qed.
Print Assumptions C11_binary_heap_drain.

(* the single-pass bit operations the model runs are the loops of bitvec.rs *)
Theorem C11_bitvec_set_range_is_loop : forall b s e, bv_set_range b s e = bv_set_range_loop b s e.
Proof. exact bv_set_range_is_loop. Qed.
Print Assumptions C11_bitvec_set_range_is_loop.

Theorem C11_bitvec_complete_is_loop : forall b n, bv_complete b n = bv_complete_loop b n.
Proof. exact bv_complete_is_loop. Qed.
Print Assumptions C11_bitvec_complete_is_loop.
