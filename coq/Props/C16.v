(* C16 - routers forward along the route and TTL bounds every packet's life.
   Property theorems only.  Each is closed by a lemma of Proofs/ or derived from general ones in a few lines; statements are pinned.
   All theorems are about the model (Model/Router.v: ArpRouter::demux transcribed, ARP as the
   topology function); the link to the running code is the trace validator [validate], whose
   soundness is C16_validate_sound and which the check runs on every recorded trace. *)
From Coq Require Import NArith.
From Elvis Require Import Model.Base Model.Subnet Model.IpTable Model.Router
     Proofs.SubnetFacts Proofs.IpTableFacts Proofs.RouterFacts.
Local Open Scope N_scope.

(* one hop: the frame a router emits is the received datagram with the TTL one lower (and still
   positive), everything else unchanged, on the slot and towards the next hop (gateway, or the
   destination itself) that the table lookup of the destination yields *)
Theorem C16_ttl_decrements_hop : forall r resolves p slot nh q,
  In (slot, nh, q) (hop_out r resolves p) ->
  p_ttl q + 1 = p_ttl p /\ 1 <= p_ttl q /\ same_but_ttl p q /\
  exists gw, get_recipient (r_table r) (p_dst p) = Some (gw, slot) /\
             nh = next_hop_of gw (p_dst p).
Proof. exact hop_out_spec. Qed.
Print Assumptions C16_ttl_decrements_hop.

(* along a trajectory through ANY topology and tables: the k-th forwarded frame carries the
   initial TTL minus (k+1) *)
Theorem C16_ttl_decrements : forall routers accepts topo start p l e,
  trajectory routers accepts topo start p = (l, e) ->
  forall k h, nth_error l k = Some h ->
    p_ttl (ho_pkt h) + N.of_nat (S k) = p_ttl p /\ 1 <= p_ttl (ho_pkt h).
Proof.
  intros routers accepts topo start p l e H k h Hk.
  destruct (trajectory_hops _ _ _ _ _ _ _ H) as (_ & _ & _ & Hh). destruct (Hh k h Hk) as (A & B & _). exact (conj A B).
Qed.
Print Assumptions C16_ttl_decrements.

(* forwarding never multiplies: a hop emits at most one frame, and no two frames of a
   trajectory carry the same TTL *)
Theorem C16_one_in_one_out :
  (forall r resolves p, (length (hop_out r resolves p) <= 1)%nat) /\
  (forall routers accepts topo start p l e,
     trajectory routers accepts topo start p = (l, e) ->
     NoDup (map (fun h => p_ttl (ho_pkt h)) l)).
Proof. exact (conj hop_out_le1 no_dup_ttl). Qed.
Print Assumptions C16_one_in_one_out.

(* TTL bounds the life, for EVERY topology and table assignment (loops, black holes): at most
   TTL forwarded frames; counting the sender's own frame, at most TTL frames in total; and the
   trajectory function never runs out of its fuel (= TTL + 1) *)
Theorem C16_bounded : forall routers accepts topo start p,
  (forall l e, trajectory routers accepts topo start p = (l, e) ->
     (length l <= N.to_nat (p_ttl p))%nat /\
     (1 <= p_ttl p -> (S (length l) <= N.to_nat (p_ttl p))%nat)) /\
  snd (trajectory routers accepts topo start p) <> EFuel.
Proof.
  intros routers accepts topo start p. split; [exact (bounded routers accepts topo start p) |].
  destruct (trajectory routers accepts topo start p) as [l e] eqn:H. exact (proj1 (trajectory_ending _ _ _ _ _ _ _ H)).
Qed.
Print Assumptions C16_bounded.

(* the trajectory is the path the tables define: consecutive frames are chained through the
   topology, every hop uses the table entry of its router, and the ending is justified
   (delivered at the owner of the destination, TTL ran out, no route, nobody answers ARP) *)
Theorem C16_follows_route : forall routers accepts topo start p l e,
  wf_pkt p -> trajectory routers accepts topo start p = (l, e) ->
  chain topo O start l /\ Forall (hop_ok routers (p_dst p)) l /\
  ending_ok routers accepts topo O start p l e.
Proof.
  intros routers accepts topo start p l e W H. destruct (trajectory_hops _ _ _ _ _ _ _ H) as (C & F & _).
  exact (conj C (conj F (proj2 (trajectory_ending _ _ _ _ _ _ _ H) (or_introl W)))).
Qed.
Print Assumptions C16_follows_route.

(* ... and with tables built through IpTable's interface (C09) that entry is the
   longest-prefix match of the destination *)
Theorem C16_follows_lpm : forall routers accepts topo start p l e,
  (forall r, tbl_inv (r_table (routers r))) ->
  trajectory routers accepts topo start p = (l, e) ->
  forall h, In h l ->
    exists n gw, In (n, (gw, ho_slot h)) (tbl_iter (r_table (routers (ho_router h)))) /\
                 contains n (p_dst p) = true /\
                 (forall n' v', In (n', v') (tbl_iter (r_table (routers (ho_router h)))) ->
                                contains n' (p_dst p) = true -> masklen n' <= masklen n) /\
                 ho_nh h = next_hop_of gw (p_dst p).
Proof. exact follows_lpm. Qed.
Print Assumptions C16_follows_lpm.

Theorem C16_payload_unchanged : forall routers accepts topo start p l e,
  trajectory routers accepts topo start p = (l, e) ->
  forall h, In h l -> same_but_ttl p (ho_pkt h).
Proof.
  intros routers accepts topo start p l e H h Hin. destruct (In_nth_error _ _ Hin) as [i Hi].
  destruct (trajectory_hops _ _ _ _ _ _ _ H) as (_ & _ & _ & Hh). apply (Hh i h Hi).
Qed.
Print Assumptions C16_payload_unchanged.

(* a trajectory has one ending; if it is a delivery, it is at the last node reached, which is
   a host with a listen binding that takes the destination address (its own address, or
   0.0.0.0: C16_accepts_own_address) *)
Theorem C16_only_destination : forall routers accepts topo start p l e,
  trajectory routers accepts topo start p = (l, e) ->
  forall h, e = EDelivered h -> accepts h (p_dst p) = true /\ last_node start l = NHost h.
Proof.
  intros routers accepts topo start p l e H h ->.
  destruct (proj2 (trajectory_ending _ _ _ _ _ _ _ H)) as [A B]; [right; discriminate | exact (conj B A)].
Qed.
Print Assumptions C16_only_destination.

(* correct (ranked, hence loop-free) routes deliver, within rank+1 router hops, if the TTL
   allows it *)
Theorem C16_delivered : forall routers accepts topo r p hd P rank,
  ranked routers accepts topo p hd P rank -> P r ->
  (rank r + 2 <= N.to_nat (p_ttl p))%nat ->
  exists l, trajectory routers accepts topo (NRouter r) p = (l, EDelivered hd) /\
            (length l <= S (rank r))%nat.
Proof. exact delivered. Qed.
Print Assumptions C16_delivered.

Example C16_example_ranked :
  ranked (cfg_router (ex_line 65535)) (cfg_accepts (ex_line 65535)) (fun _ => cfg_topo (ex_line 65535))
         (ex_pkt 30 18) 1 (fun r => r = 0 \/ r = 1) (fun r => if r =? 0 then 1%nat else 0%nat).
Proof. exact ex_ranked. Qed.
Print Assumptions C16_example_ranked.

Example C16_example_line_delivers :
  cfg_trajectory (ex_line 65535) (NRouter 0) (ex_pkt 30 18) =
    ([ mkHop 0 1 167772418 (NRouter 1) (ex_pkt 29 18);
       mkHop 1 1 167772682 (NHost 1) (ex_pkt 28 18) ], EDelivered 1).
Proof. vm_compute. reflexivity. Qed.
Print Assumptions C16_example_line_delivers.

Example C16_example_loop_falls_silent :
  let (l, e) := cfg_trajectory ex_loop (NRouter 0) (ex_pkt 30 18) in
  length l = 29%nat /\ e = ETtl 1.
Proof. vm_compute. split; reflexivity. Qed.
Print Assumptions C16_example_loop_falls_silent.

(* soundness of the executable validator that the check runs on the implementation's traces:
   an accepted trace contains nothing but the scenario's datagrams, and for each of them the
   observed frames start at the sender, decrement the TTL by one per frame, number at most
   the initial TTL, differ in nothing but the TTL, never repeat, follow the configured routes
   hop by hop (to the observed receivers; to the owners of the next-hop addresses when
   [ideal_hops] holds), and the datagram reaches only an application whose binding takes the
   destination address *)
Theorem C16_validate_sound : forall c ds fr xs,
  validate c ds fr xs = true -> trace_property c ds fr xs.
Proof. exact validate_sound. Qed.
Print Assumptions C16_validate_sound.

Example C16_example_validate :
  validate (ex_line 65535) [ex_dgram] ex_trace
           [(0, mkRx 1 167772170 167772682 (repeat 0 10))] = true /\
  validate (ex_line 65535) [ex_dgram]
           (ex_trace ++ [(0, mkFrame 2 (NRouter 1) (Some (NHost 1)) (ex_pkt 28 18))])
           [(0, mkRx 1 167772170 167772682 (repeat 0 10))] = false.
Proof. vm_compute. split; reflexivity. Qed.
Print Assumptions C16_example_validate.

(* "to no other host's applications" is REFUTED for the code as it is when ARP hands a frame to a
   station that does not own the next hop (the ARP table is keyed by IP address only and shared
   by all interfaces: a MAC learnt on one network is used on another) and that station's
   application listens on 0.0.0.0.  Witness: R0's route for a local network names the wrong
   slot.  C16_only_destination above is the positive statement (the receiver has a binding
   that takes the address); with C16_accepts_own_address it names the destination host when no
   application listens on 0.0.0.0; C16_validate_sound's [ideal_hops] clause is the other
   excluding hypothesis (ARP behaved). *)
Theorem C16_only_destination_refuted :
  snd (cfg_trajectory ex_bad (NRouter 0) (ex_bad_pkt 30)) = ENoArp 0 /\
  exists topo l h,
    trajectory (cfg_router ex_bad) (cfg_accepts ex_bad) topo (NRouter 0) (ex_bad_pkt 30)
      = (l, EDelivered h) /\
    cfg_host_ip ex_bad h <> p_dst (ex_bad_pkt 30).
Proof.
  split; [vm_compute; reflexivity |].
  exists (fun _ _ _ _ => Some (NHost 1)), [mkHop 0 0 167772428 (NHost 1) (ex_bad_pkt 29)], 1.
  split; [vm_compute; reflexivity | vm_compute; discriminate].
Qed.
Print Assumptions C16_only_destination_refuted.

Example C16_example_validate_polluted :
  validate ex_bad [ex_bad_dgram] ex_bad_trace
           [(0, mkRx 1 167772170 167772428 (repeat 0 10))] = true /\
  all_ideal ex_bad 0 [ex_bad_dgram] ex_bad_trace = false /\
  all_ideal (ex_line 65535) 0 [ex_dgram] ex_trace = true.
Proof. vm_compute. repeat split; reflexivity. Qed.
Print Assumptions C16_example_validate_polluted.

(* ---- the model shows where the code leaves the property's ground *)
(* TTL 0 at a router: u8 underflow in the dev profile.  No conforming host and no router emits
   TTL 0 (C16_ttl_decrements: forwarded TTLs are >= 1; the stack's default is 30), so this
   needs a forged frame. *)
Theorem C16_remark_ttl0_panics : forall r p routers accepts topo,
  p_ttl p = 0 ->
  route_step (routers r) p = Panic site_ttl_sub /\
  trajectory routers accepts topo (NRouter r) p = ([], EPanic r site_ttl_sub).
Proof.
  intros r p routers accepts topo T. split; [apply route_step_ttl0; exact T |].
  unfold trajectory. rewrite T. cbn. rewrite route_step_ttl0 by exact T. reflexivity.
Qed.
Print Assumptions C16_remark_ttl0_panics.

Theorem C16_remark_ttl1_dropped : forall r p resolves, p_ttl p = 1 ->
  route_step r p = Ok ADrop /\ hop_out r resolves p = [].
Proof.
  intros r p resolves T. unfold hop_out. rewrite route_step_ttl1 by exact T. split; reflexivity.
Qed.
Print Assumptions C16_remark_ttl1_dropped.

(* a datagram that does not fit the next network's MTU kills the process *)
Theorem C16_remark_mtu_panics :
  cfg_trajectory (ex_line 100) (NRouter 0) (ex_pkt 30 200) = ([], EPanic 0 site_send_expect).
Proof. vm_compute. reflexivity. Qed.
Print Assumptions C16_remark_mtu_panics.

(* a route naming a slot beyond local_ips / beyond the Pci sessions kills the process *)
Theorem C16_remark_slot_panics :
  let r := mkRouter [ (mkNet 0 0, (None, 2)) ] [1; 2] [65535; 65535] in
  let r' := mkRouter [ (mkNet 0 0, (None, 2)) ] [1; 2; 3] [65535; 65535] in
  route_step r (ex_pkt 30 18) = Panic site_local_index /\
  route_step r' (ex_pkt 30 18) = Panic site_pci_open.
Proof. vm_compute. split; reflexivity. Qed.
Print Assumptions C16_remark_slot_panics.

(* [accepts] of a concrete configuration: unless the application listens on 0.0.0.0, a host
   accepts exactly its own address (so C16_only_destination names the destination host) *)
Theorem C16_accepts_own_address : forall c h dst, hc_wild (cfg_hc c h) = false ->
  cfg_accepts c h dst = true -> cfg_host_ip c h = dst.
Proof.
  unfold cfg_accepts, cfg_host_ip. intros c h dst -> H. cbn in H. apply N.eqb_eq in H. exact H.
Qed.
Print Assumptions C16_accepts_own_address.
