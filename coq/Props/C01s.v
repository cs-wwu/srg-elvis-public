(* C01, part s - the TCP session task (tcp_session.rs): property theorems only.
   Model/TcpSession.v: the task's loop as a state machine over the calls it makes on its TCB
   (Model/Tcb.v), the validator of observed call traces, and the closed system of two session
   tasks (channels of instructions, a lossy / duplicating / reordering network, applications
   that write at any time). *)
From Elvis Require Import Model.Base Model.U32 Model.Tcb Model.TcpNet Model.TcpSession
  Proofs.TcbSafetyDefs Proofs.TcpSessionFacts Proofs.TcpSessionSys Proofs.TcpSessionThms.
Local Open Scope Z_scope.

(* (a) soundness of the trace validator: an accepted trace of the real task IS an execution of
   the model loop from the TCB that the constructors of tcp.rs build for the Start snapshot -
   the observed events are, one by one (segments with all header fields and text, flushed
   bytes, the Connected point, the 5 ms of every advance_time, the final snapshot), the first
   visible outputs of that execution *)
Theorem C01s_validate_sound : forall (i : init_info) (tr : list oevent),
  sess_validate i tr = Accept ->
  exists t0 evs s' outs,
    init_tcb i = Some t0 /\
    sess_exec (fst (sess_start t0)) evs = Some (s', outs) /\
    obs_prefix tr (filter visible (snd (sess_start t0) ++ outs)).
Proof. exact validate_sound. Qed.
Print Assumptions C01s_validate_sound.

(* the initial TCB of an accepted trace agrees with the snapshot field by field and is the result
   of Tcb::open, or of segment_arrives_listen on the SYN the listen path copied its values from *)
Theorem C01s_init_tcb : forall (i : init_info) (t : tcb),
  init_tcb i = Some t ->
  snap_matches (ii_snap i) t = true /\
  (if sn_listen (ii_snap i)
   then arrives_listen (syn_of_snapshot i) (sn_iss (ii_snap i)) (ii_mtu i) = LTcb t
   else t = tcb_open (ii_lport i) (ii_rport i) (sn_iss (ii_snap i)) (ii_mtu i)).
Proof. exact init_tcb_spec. Qed.
Print Assumptions C01s_init_tcb.

(* (b) C01 safety for the session tasks as they are, for all schedules: in every reachable
   state of the closed system of two session tasks - any interleaving of Tcp::open, application
   writes of any size at any time (also before the handshake completed), single steps of either
   task's loop (take an instruction, find the channel empty, segments(), receive()), the 5 ms
   timeout firing whatever the channel holds, and the network delivering any in-flight segment
   next, dropping it or duplicating it; any ISNs, any MTUs >= 100 - no call on a TCB has
   panicked and, in both directions at once, everything flushed upstream at one side is a
   prefix of everything the peer application handed to Session::send *)
Theorem C01s_session_safety : forall (c : config) (b : bool) (ls : list ylabel),
  u32 (issA c) -> u32 (issB c) -> 100 <= mtuA c <= 65535 -> 100 <= mtuB c <= 65535 ->
  let y := yrun c (yinit b) ls in
  zlen (ypushA y) < 2 ^ 31 - 2 ^ 17 -> zlen (ypushB y) < 2 ^ 31 - 2 ^ 17 ->
  ypan y = false /\
  (exists rest, ypushA y = yflushed y SB ++ rest) /\
  (exists rest, ypushB y = yflushed y SA ++ rest).
Proof.
  intros c b ls H1 H2 H3 H4 y Ha Hb.
  apply (yinv_safety c), yreach; [exact (conj H1 (conj H2 (conj H3 H4)))|exact Ha|exact Hb].
Qed.
Print Assumptions C01s_session_safety.

(* how it is obtained: forgetting the channels (queued segments count as in flight, a task that
   left its loop is a dead endpoint, the submitted stream is what the TCB accepted) every
   reachable state of the session system satisfies the invariant SysInv of the two-endpoint TCB
   system behind C01_safety, and what the application wrote is what the task handled followed
   by what still waits in the channel, the accepted stream being a prefix of the former *)
Theorem C01s_session_invariant : forall (c : config) (b : bool) (ls : list ylabel),
  u32 (issA c) -> u32 (issB c) -> 100 <= mtuA c <= 65535 -> 100 <= mtuB c <= 65535 ->
  let y := yrun c (yinit b) ls in
  zlen (ypushA y) < 2 ^ 31 - 2 ^ 17 -> zlen (ypushB y) < 2 ^ 31 - 2 ^ 17 ->
  SysInv c (yabs y) /\
  (forall x, exists handled, ypush y x = handled ++ qbytes (yq (yt y x)) /\
                             exists rest, handled = sub_of (yabs y) x ++ rest).
Proof.
  intros c b ls H1 H2 H3 H4 y Ha Hb.
  apply yinv_handled, yreach; [exact (conj H1 (conj H2 (conj H3 H4)))|exact Ha|exact Hb].
Qed.
Print Assumptions C01s_session_invariant.

(* (c) the task ends exactly when segment_arrives returns Close or advance_time returns
   CloseConnection; Ended is the last output of the whole execution: after that call the task
   calls nothing on its TCB, emits nothing and flushes nothing (in particular what the closing
   round had put into the TCB's receive buffer and output queues stays there) *)
Theorem C01s_nothing_after_close : forall (evs : list sevent) (s s' : sess) (outs : list sout) (t : tcb),
  sess_exec s evs = Some (s', outs) -> In (OEnded t) outs ->
  exists pre, outs = pre ++ [OEnded t] /\ ss_phase s' = PEnded /\ ss_tcb s' = t.
Proof. exact exec_ended_last. Qed.
Print Assumptions C01s_nothing_after_close.

Theorem C01s_end_cause : forall (s : sess) (e : sevent) (s' : sess) (o : list sout) (t : tcb),
  sess_step s e = Some (s', o) -> In (OEnded t) o ->
  ss_phase s' = PEnded /\ ss_tcb s' = t /\
  ((exists seg, e = SIncoming seg /\ segment_arrives (ss_tcb s) seg = Ok (t, AClose) /\
                o = [OCall (CArrives seg); OEnded t]) \/
   (e = SAdvance /\ advance_time (ss_tcb s) 5 = (t, TCloseConnection) /\
    o = [OCall (CAdvance 5); OEnded t])).
Proof. exact sess_step_end_cause. Qed.
Print Assumptions C01s_end_cause.

(* advance_time is only ever called with 5 ms, in the model and hence in every accepted trace *)
Theorem C01s_advance_5ms : forall (evs : list sevent) (s s' : sess) (outs : list sout) (ms : Z),
  sess_exec s evs = Some (s', outs) -> In (OCall (CAdvance ms)) outs -> ms = 5.
Proof. exact exec_advance_5ms. Qed.
Print Assumptions C01s_advance_5ms.

Theorem C01s_validated_advance_5ms : forall (i : init_info) (tr : list oevent) (ns : Z),
  sess_validate i tr = Accept -> In (EvAdvance ns) tr -> ns = 5000000.
Proof. exact validate_advance_5ms. Qed.
Print Assumptions C01s_validated_advance_5ms.

(* a round always ends with receive(): after segments() only receive() is enabled, it hands
   over exactly the TCB's buffered text, and a new round starts only through it *)
Theorem C01s_round_ends_with_receive : forall (s s1 : sess) (o1 : list sout),
  sess_step s SEmit = Some (s1, o1) ->
  (ss_phase s1 = PEmitted \/ ss_phase s1 = PCrashed) /\
  (ss_phase s1 = PEmitted -> forall e s2 o2, sess_step s1 e = Some (s2, o2) ->
     e = SFlush /\ ss_phase s2 = PDrain true /\
     exists rest, o2 = OCall CReceive :: OFlushed (in_text (ss_tcb s1)) :: rest).
Proof. exact emit_then_receive. Qed.
Print Assumptions C01s_round_ends_with_receive.

Theorem C01s_round_starts_after_receive : forall (s : sess) (e : sevent) (s' : sess) (o : list sout),
  sess_step s e = Some (s', o) -> ss_phase s' = PDrain true ->
  e = SFlush /\ exists b rest, o = OCall CReceive :: OFlushed b :: rest.
Proof. exact round_starts_after_receive. Qed.
Print Assumptions C01s_round_starts_after_receive.

(* the hypotheses of C01s_session_safety are satisfiable and data gets through: a write before
   the handshake completes, single task steps and timeouts of both tasks, a dropped and a
   duplicated segment, writes in both directions (130 + 5 bytes one way, 250 bytes - more than
   B's segment size of 100 - the other way, ISS of A wrapping), everything flushed in order *)
Theorem C01s_example :
  u32 (issA exs_cfg) /\ u32 (issB exs_cfg) /\ 100 <= mtuA exs_cfg <= 65535 /\ 100 <= mtuB exs_cfg <= 65535 /\
  zlen (ypushA exs_final) < 2 ^ 31 - 2 ^ 17 /\ zlen (ypushB exs_final) < 2 ^ 31 - 2 ^ 17 /\
  length (ypushA exs_final) = 135%nat /\ length (ypushB exs_final) = 250%nat /\
  yflushed exs_final SB = ypushA exs_final /\ yflushed exs_final SA = ypushB exs_final.
Proof. exact exs_facts. Qed.
Print Assumptions C01s_example.
