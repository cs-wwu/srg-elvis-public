(* C20 - name resolution returns the registered address and caches it.
   Property theorems only; each is closed by a lemma of Proofs/ or derived from general ones in a few lines; statements are pinned.

   Vocabulary (Model/DnsProto.v, Proofs/DnsProtoFacts.v):
     run cfg tr st      tr is a trace of the transition system of clients, server and datagrams
                        (labels: EvL lookup starts, EvQ query leaves a client socket, EvA reply leaves
                        the server, EvR lookup returns, EvX a task panics); any interleaving that the
                        guards admit is a run: this is the freedom of frame delays and reordering
     names_ok tr        every looked-up name is a name of the quantifier: the bytes of a Rust String
                        (valid UTF-8) without the delimiter byte b' '
     records_ok cfg     the registered addresses are four bytes
     server_table cfg   the table the responder tasks read; reg_table cfg the registered records
     as_is / repaired   the tree as it is (recv(80); built-in records inserted over registered ones)
                        and with .cache/c20/fix.patch (whole datagram; built-ins only when absent)
   The theorems hold for every configuration (both variants); the two _refuted theorems show what
   the as_is variant does to registered names of 25 bytes and more and to the two built-in names. *)
From Elvis Require Import Model.Base Model.AppBytes Model.Dns Model.DnsProto Proofs.DnsProtoFacts.
Local Open Scope Z_scope.

(* every address a lookup returns, to any client, in any run, is the server's address for the name *)
Theorem C20_answer : forall cfg tr st, records_ok cfg = true -> run cfg tr st -> names_ok tr ->
  forall c h n a, In (EvR c h n a) tr -> tbl_get (server_table cfg) n = Some a.
Proof. intros cfg tr st R H N c h n a I. exact (proj1 (returned_ok cfg tr st R H N c h n a I)). Qed.
Print Assumptions C20_answer.

(* ... which is the registered address, unless a built-in record of the as_is server overrides it *)
Theorem C20_answer_registered : forall cfg tr st, records_ok cfg = true -> run cfg tr st -> names_ok tr ->
  forall c h n a a', In (EvR c h n a) tr -> tbl_get (reg_table cfg) n = Some a' ->
  cfg_builtin_wins cfg = false \/ (n <> builtin1_name /\ n <> builtin2_name) -> a = a'.
Proof.
  intros cfg tr st R H N c h n a a' I G D. destruct (returned_ok cfg tr st R H N c h n a I) as [E _].
  rewrite (server_table_registered cfg n a' G D) in E. congruence.
Qed.
Print Assumptions C20_answer_registered.

(* no task panics when every looked-up name has a record and its query fits the server's read *)
Theorem C20_no_crash : forall cfg tr, records_ok cfg = true ->
  forall st, run cfg tr st -> (forall c h n, In (EvL c h n) tr -> good3 cfg n = true) ->
  s_dead st = None /\ forall site, ~ In (EvX site) tr.
Proof. exact no_crash. Qed.
Print Assumptions C20_no_crash.

(* the query for n fits recv(80) exactly when n has at most 24 bytes; the repaired read has no bound *)
Theorem C20_fits_threshold : forall records conn n,
  fits (as_is records conn) n = true <-> (length n <= 24)%nat.
Proof. intros. unfold fits, as_is. cbn [cfg_recv_cap]. lia. Qed.
Print Assumptions C20_fits_threshold.
Theorem C20_fits_repaired : forall records conn n, fits (repaired records conn) n = true.
Proof. reflexivity. Qed.
Print Assumptions C20_fits_repaired.

(* the responder on a query that fits / does not fit *)
Theorem C20_server_respond : forall cfg id n, name_ok n = true -> 0 <= id < 65536 -> fits cfg n = true ->
  server_respond cfg (request_bytes id n) =
  match tbl_get (server_table cfg) n with
  | Some a => Ok (response_bytes id n a)
  | None => Panic 141
  end.
Proof. intros cfg id n N I F. rewrite server_respond_eq, F by assumption. reflexivity. Qed.
Print Assumptions C20_server_respond.
Theorem C20_server_respond_too_long : forall cfg id n, name_ok n = true -> 0 <= id < 65536 ->
  fits cfg n = false -> server_respond cfg (request_bytes id n) = Panic 61.
Proof. intros cfg id n N I F. rewrite server_respond_eq, F by assumption. reflexivity. Qed.
Print Assumptions C20_server_respond_too_long.

(* liveness, canonical round: in any reachable state, a waiting lookup of such a name returns the
   server's address after at most two further labels (its query leaves, the reply leaves), whatever
   else is in flight - provided the accept loop has not ended (DnsServer::new(n) counts
   connections) and the client has a port left *)
Theorem C20_progress : forall cfg tr st c h l, records_ok cfg = true -> run cfg tr st ->
  (forall c h n, In (EvL c h n) tr -> good3 cfg n = true) ->
  find_look h (c_looks (getc st c)) = Some l ->
  s_accepted st < conn_limit cfg ->
  (exists p, 49152 <= p <= 65535 /\ find_sock p (c_socks (getc st c)) = None) ->
  exists evs a st', (length evs <= 2)%nat /\
    run cfg (tr ++ evs ++ [EvR c h (l_name l) a]) st' /\
    tbl_get (server_table cfg) (l_name l) = Some a.
Proof.
  intros cfg tr st c h l R H G Fl Acc Pf.
  destruct (progress_state cfg R tr st c h l (inv_run cfg _ (good3_name_ok cfg) R tr st H G) (live_run cfg tr st H)
              (proj1 (no_crash cfg tr R st H G)) Fl Acc Pf) as (evs & a & st' & Le & Rp & Ta).
  exists evs, a, st'. split; [exact Le|]. split; [|exact Ta]. unfold run in *. rewrite replay_app, H. exact Rp.
Qed.
Print Assumptions C20_progress.
Theorem C20_progress_example :
  let cfg := as_is [([97; 46; 98], [10; 0; 0; 1])] 1 in
  let n := [97; 46; 98] in
  exists st, run cfg [EvL 0 0 n] st /\ good3 cfg n = true /\
    find_look 0 (c_looks (getc st 0)) = Some (mkLookup 0 n Miss) /\
    s_accepted st < conn_limit cfg /\ find_sock 49152 (c_socks (getc st 0)) = None.
Proof. cbv zeta. eexists. split; [vm_compute; reflexivity|]. repeat split; reflexivity. Qed.
Print Assumptions C20_progress_example.

(* REFUTED on the tree as it is: a registered 25-byte name; its first query kills the process
   (dns_server.rs l.61), and no run ever resolves a name of 25 bytes or more *)
Theorem C20_answer_refuted_long_name :
  let cfg := as_is [(name25, [10; 0; 0; 1])] 4 in
  records_ok cfg = true /\ name_ok name25 = true /\
  tbl_get (reg_table cfg) name25 = Some [10; 0; 0; 1] /\
  exists st, run cfg [EvL 0 0 name25; EvQ 0 49152 7 name25; EvX 61] st /\ s_dead st = Some 61.
Proof.
  cbv zeta. split; [reflexivity|]. split; [reflexivity|]. split; [reflexivity|].
  eexists. split; [vm_compute; reflexivity|reflexivity].
Qed.
Print Assumptions C20_answer_refuted_long_name.
Theorem C20_long_name_never_resolved : forall cfg tr st n, records_ok cfg = true -> run cfg tr st ->
  names_ok tr -> cfg_recv_cap cfg = Some 80 -> (25 <= length n)%nat ->
  forall c h a, ~ In (EvR c h n a) tr.
Proof.
  intros cfg tr st n R H N Cap L c h a I. destruct (returned_ok cfg tr st R H N c h n a I) as [_ F].
  unfold fits in F. rewrite Cap in F. lia.
Qed.
Print Assumptions C20_long_name_never_resolved.

(* REFUTED on the tree as it is: a record registered for "google.com" is answered with the built-in
   address 123.45.67.60 *)
Theorem C20_answer_refuted_builtin :
  let cfg := as_is [(builtin2_name, [1; 2; 3; 4])] 1 in
  records_ok cfg = true /\ name_ok builtin2_name = true /\
  tbl_get (reg_table cfg) builtin2_name = Some [1; 2; 3; 4] /\
  exists st, run cfg [EvL 0 0 builtin2_name; EvQ 0 49152 7 builtin2_name;
                      EvA 0 49152 (response_bytes 7 builtin2_name builtin2_addr);
                      EvR 0 0 builtin2_name builtin2_addr] st /\
             s_dead st = None /\ builtin2_addr <> [1; 2; 3; 4].
Proof.
  cbv zeta. split; [reflexivity|]. split; [reflexivity|]. split; [reflexivity|].
  eexists. split; [vm_compute; reflexivity|]. split; [reflexivity|discriminate].
Qed.
Print Assumptions C20_answer_refuted_builtin.

(* the hypotheses of the positive theorems are satisfiable by a run with a resolution and a cached lookup *)
Theorem C20_answer_example :
  let cfg := as_is [([97; 46; 98], [10; 0; 0; 1])] 1 in
  let tr := [EvL 0 0 [97; 46; 98]; EvQ 0 49152 7 [97; 46; 98];
             EvA 0 49152 (response_bytes 7 [97; 46; 98] [10; 0; 0; 1]);
             EvR 0 0 [97; 46; 98] [10; 0; 0; 1]; EvL 0 1 [97; 46; 98]; EvR 0 1 [97; 46; 98] [10; 0; 0; 1]] in
  records_ok cfg = true /\ names_ok tr /\ exists st, run cfg tr st.
Proof.
  cbv zeta. split; [reflexivity|]. split; [apply names_okb_spec; reflexivity|]. eexists. vm_compute. reflexivity.
Qed.
Print Assumptions C20_answer_example.

(* the address a lookup returns comes from the cache filled by an earlier return of that name to
   that client, or from a reply sent to a socket of this client in answer to ITS query for that
   name: the reply carries the identifier and the name of that query (the client itself compares
   nothing: the pairing is the socket's address and port) *)
Theorem C20_echo : forall cfg t1 c h n a t2 st, records_ok cfg = true ->
  run cfg (t1 ++ EvR c h n a :: t2) st -> names_ok (t1 ++ EvR c h n a :: t2) ->
  (exists h', In (EvR c h' n a) t1) \/
  (exists p id bytes m, In (EvQ c p id n) t1 /\ In (EvA c p bytes) t1 /\
     dns_from_bytes bytes = Ok (m, []) /\ d_id (m_header m) = id /\
     d_properties (m_header m) = 32768 /\ q_qname (m_question m) = n /\
     r_name (m_answer m) = n /\ r_rdata (m_answer m) = a).
Proof. exact echo_accept. Qed.
Print Assumptions C20_echo.

(* every reply on the network answers an earlier query from the socket it is addressed to *)
Theorem C20_echo_reply : forall cfg t1 c p bytes t2 st, records_ok cfg = true ->
  run cfg (t1 ++ EvA c p bytes :: t2) st -> names_ok (t1 ++ EvA c p bytes :: t2) ->
  exists id n a m, In (EvQ c p id n) t1 /\ dns_from_bytes bytes = Ok (m, []) /\
    d_id (m_header m) = id /\ d_properties (m_header m) = 32768 /\ q_qname (m_question m) = n /\
    r_name (m_answer m) = n /\ r_rdata (m_answer m) = a /\ tbl_get (server_table cfg) n = Some a.
Proof. exact echo_reply. Qed.
Print Assumptions C20_echo_reply.

(* a client sends at most as many queries for a name as it started lookups of that name before the
   name was first returned to it: lookups that start after a successful resolution send nothing *)
Theorem C20_cache_silent : forall cfg tr st, records_ok cfg = true -> run cfg tr st -> names_ok tr ->
  forall c n, count_Q c n tr <= early_lookups c n tr.
Proof. exact cache_silent_count. Qed.
Print Assumptions C20_cache_silent.

(* after a return of n to c, a lookup of n by c touches no socket, no owed query, no cache and not
   the server, and the one thing it can do next is return the same address *)
Theorem C20_cache_silent_hit : forall cfg t1 s1 c h0 n a h, records_ok cfg = true -> run cfg t1 s1 ->
  names_ok t1 -> In (EvR c h0 n a) t1 -> s_dead s1 = None ->
  exists s2, step cfg s1 (EvL c h n) = Some s2 /\
    (forall c', c_owed (getc s2 c') = c_owed (getc s1 c') /\ c_socks (getc s2 c') = c_socks (getc s1 c') /\
                c_cache (getc s2 c') = c_cache (getc s1 c')) /\
    s_accepted s2 = s_accepted s1 /\
    (forall a', step cfg s2 (EvR c h n a') <> None -> a' = a) /\
    step cfg s2 (EvR c h n a) <> None.
Proof. exact cache_silent_hit. Qed.
Print Assumptions C20_cache_silent_hit.

(* soundness of the executable validator that is run on the implementation's traces *)
Theorem C20_validate_sound : forall cfg tr en finals, records_ok cfg = true -> names_okb tr = true ->
  validate cfg tr en finals = true ->
  (forall c h n a, In (EvR c h n a) tr -> tbl_get (server_table cfg) n = Some a) /\
  (forall t1 c p bytes t2, tr = t1 ++ EvA c p bytes :: t2 ->
     exists id n a m, In (EvQ c p id n) t1 /\ dns_from_bytes bytes = Ok (m, []) /\
       d_id (m_header m) = id /\ d_properties (m_header m) = 32768 /\ q_qname (m_question m) = n /\
       r_name (m_answer m) = n /\ r_rdata (m_answer m) = a /\ tbl_get (server_table cfg) n = Some a) /\
  (forall t1 c h n a t2, tr = t1 ++ EvR c h n a :: t2 ->
     (exists h', In (EvR c h' n a) t1) \/
     (exists p id bytes m, In (EvQ c p id n) t1 /\ In (EvA c p bytes) t1 /\
        dns_from_bytes bytes = Ok (m, []) /\ d_id (m_header m) = id /\
        d_properties (m_header m) = 32768 /\ q_qname (m_question m) = n /\
        r_name (m_answer m) = n /\ r_rdata (m_answer m) = a)) /\
  (forall c n, count_Q c n tr <= early_lookups c n tr) /\
  (en = EndDone -> forall c n a, In (c, n, Some a) finals -> tbl_get (server_table cfg) n = Some a).
Proof.
  intros cfg tr en finals R Nb V. destruct (validate_sound_run cfg tr en finals R Nb V) as (st & H & N & F).
  split; [intros c h n a I; apply (returned_ok cfg tr st R H N c h n a I)|].
  split; [intros t1 c p bytes t2 ->; apply (echo_reply cfg t1 c p bytes t2 st R H N)|].
  split; [intros t1 c h n a t2 ->; apply (echo_accept cfg t1 c h n a t2 st R H N)|].
  split; [apply (cache_silent_count cfg tr st R H N)|exact F].
Qed.
Print Assumptions C20_validate_sound.

(* an accepted trace is a trace of the transition system, with the model's ending *)
Theorem C20_validate_run : forall cfg tr en finals, validate cfg tr en finals = true ->
  exists st, run cfg tr st /\
    match en with
    | EndDone => s_dead st = None /\ all_returned st = true /\ finals_ok st finals = true
    | EndCrash => exists site, s_dead st = Some site
    | EndHang => s_dead st = None /\ all_returned st = false /\ starved cfg st = true
    end.
Proof. exact validate_run. Qed.
Print Assumptions C20_validate_run.

(* the validator accepts a real trace and rejects a query for a cached name *)
Theorem C20_validate_example :
  let cfg := as_is [([97; 46; 98], [10; 0; 0; 1])] 1 in
  let tr := [EvL 0 0 [97; 46; 98]; EvQ 0 49152 7 [97; 46; 98];
             EvA 0 49152 (response_bytes 7 [97; 46; 98] [10; 0; 0; 1]);
             EvR 0 0 [97; 46; 98] [10; 0; 0; 1]; EvL 0 1 [97; 46; 98]; EvR 0 1 [97; 46; 98] [10; 0; 0; 1]] in
  validate cfg tr EndDone [(0, [97; 46; 98], Some [10; 0; 0; 1]); (1, [97; 46; 98], None)] = true /\
  names_okb tr = true /\
  validate cfg (tr ++ [EvL 0 2 [97; 46; 98]; EvQ 0 49153 8 [97; 46; 98]]) EndHang [] = false.
Proof. cbv zeta. split; [vm_compute; reflexivity|]. split; vm_compute; reflexivity. Qed.
Print Assumptions C20_validate_example.

(* the resolver's port allocator hands out distinct ports; its 16384th call panics (u16 overflow) *)
Theorem C20_ephemeral_port : forall k p k', ephemeral_port k = Ok (p, k') -> p = k /\ k' = k + 1 /\ k' <= 65535.
Proof. intros k p k'. unfold ephemeral_port. destruct (65535 <? k + 1) eqn:E; intros H; inversion H. lia. Qed.
Print Assumptions C20_ephemeral_port.
Theorem C20_remark_port_counter_overflow_panics : ephemeral_port 65535 = Panic 2096.
Proof. reflexivity. Qed.
Print Assumptions C20_remark_port_counter_overflow_panics.
