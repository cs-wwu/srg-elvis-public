(* C10 - IPv4 fragmentation produces a faithful partition of the datagram.
   Property theorems only; each is closed by a lemma of Proofs/ or derived from general ones in a few lines; statements are pinned.

   Model: Model/Frag.v (fragmentation.rs line by line; u16 arithmetic checked,
   Message::cut = list cut with its assertion, payload bytes abstract).
   Domain of the theorems ([Valid] and [MtuOk], FragFacts.v):
     Valid h body := 0 <= ihl h /\ total_length h = 4*ihl h + |body| /\
                     0 <= fragment_offset h /\ fragment_offset h + |body|/8 <= 65535
     MtuOk h mtu  := 4*ihl h + 8 <= mtu <= 65535
   With ihl = 5 (the only value the parser accepts) this is total_length =
   20 + |body|, 28 <= mtu; the property's quantifier (payload 0..65515, MTU
   68..65535, any 13-bit offset, any other field) lies inside: C10_domain.
   [PartitionSpec] (FragProps.v) is the property's predicate with every
   conjunct spelled out; [partition_ok] is its executable form, the one the
   correspondence check runs on the implementation's fragments. *)
From Elvis Require Import Model.Base Model.Frag Proofs.ListFacts Proofs.FragFacts Proofs.FragChain Proofs.FragProps.
Local Open Scope Z_scope.

(* the executable predicate used by the harness IS the property's predicate *)
Theorem C10_partition_ok_is_spec : forall (A : Type) (eqb : A -> A -> bool),
  (forall x y, eqb x y = true <-> x = y) ->
  forall (o : hdr) (body : list A) (mtu : Z) (frs : list (frag A)),
  partition_ok eqb o body mtu frs = true <->
  (frs <> [] /\
   concat (map snd frs) = body /\
   (forall i h p, nth_error frs i = Some (h, p) ->
      total_length h <= mtu /\
      total_length h = 4 * ihl o + Z.of_nat (length p) /\
      8 * fragment_offset h = 8 * fragment_offset o + sumlen (firstn i frs) /\
      ihl h = ihl o /\ oth h = oth o /\
      (S i = length frs -> flags h = flags o) /\
      (S i <> length frs -> flags h = set_mf (flags o) /\ Z.of_nat (length p) mod 8 = 0)) /\
   (length frs = 1%nat \/ Forall (fun f : frag A => snd f <> []) frs)).
Proof. intros A eqb He o body mtu frs. rewrite (partition_ok_iff eqb He). symmetry. apply PartitionSpec_POK. Qed.
Print Assumptions C10_partition_ok_is_spec.

(* what [set_mf] (set_is_last_fragment(false)) does to the flags: MF set, DF kept;
   for flag values with the reserved bit clear nothing else changes *)
Theorem C10_flags_reading : forall f,
  is_last_fragment (set_mf f) = false /\
  may_fragment (set_mf f) = may_fragment f /\
  set_mf (set_mf f) = set_mf f /\
  (0 <= f < 4 -> set_mf f = Z.lor f 1 /\ 0 <= set_mf f < 4).
Proof. exact (fun f => conj (is_last_set_mf f) (conj (may_fragment_set_mf f) (conj (set_mf_idem f) (set_mf_valid f)))). Qed.
Print Assumptions C10_flags_reading.

(* the property's quantifier lies inside the theorems' domain *)
Theorem C10_domain : forall (A : Type) (h : hdr) (body : list A),
  ihl h = 5 -> Z.of_nat (length body) <= 65515 ->
  total_length h = 20 + Z.of_nat (length body) -> 0 <= fragment_offset h <= 8191 ->
  Valid h body /\ (forall mtu, 68 <= mtu <= 65535 -> MtuOk h mtu).
Proof. exact @valid_domain. Qed.
Print Assumptions C10_domain.

(* too big, DF clear: no panic, no fuel exhaustion, the result is a partition
   into at least two non-empty pieces *)
Theorem C10_fragment : forall (A : Type) (h : hdr) (body : list A) (mtu : Z),
  Valid h body -> MtuOk h mtu -> may_fragment (flags h) = true -> mtu < total_length h ->
  exists frs, fragment h body mtu = Ok (Fragmented frs) /\ PartitionSpec h body mtu frs /\
              (2 <= length frs)%nat /\ Forall (fun f : frag A => snd f <> []) frs.
Proof. exact @fragment_spec. Qed.
Print Assumptions C10_fragment.

(* a datagram that fits is passed through unchanged (no hypothesis at all) *)
Theorem C10_fits : forall (A : Type) (h : hdr) (body : list A) (mtu : Z),
  total_length h <= mtu -> fragment h body mtu = Ok (DontFragment (h, body)).
Proof. exact @fragment_fits. Qed.
Print Assumptions C10_fits.

(* too big and DF set: discarded (no hypothesis on the header either) *)
Theorem C10_discard : forall (A : Type) (h : hdr) (body : list A) (mtu : Z),
  mtu < total_length h -> may_fragment (flags h) = false -> fragment h body mtu = Ok Discard.
Proof. exact @fragment_discard. Qed.
Print Assumptions C10_discard.

(* the three outcomes at once, on the whole domain, DF set or clear *)
Theorem C10_outcome : forall (A : Type) (h : hdr) (body : list A) (mtu : Z),
  Valid h body -> MtuOk h mtu ->
  exists r, fragment h body mtu = Ok r /\
    match r with
    | DontFragment f => total_length h <= mtu /\ f = (h, body)
    | Discard => mtu < total_length h /\ may_fragment (flags h) = false
    | Fragmented frs => mtu < total_length h /\ may_fragment (flags h) = true /\
                        PartitionSpec h body mtu frs
    end.
Proof. exact @fragment_outcome_spec. Qed.
Print Assumptions C10_outcome.

(* ... and its executable form run by the validator on the implementation's output *)
Theorem C10_outcome_ok_is_spec : forall (A : Type) (eqb : A -> A -> bool),
  (forall x y, eqb x y = true <-> x = y) ->
  forall (h : hdr) (body : list A) (mtu : Z) (r : fragments A),
  outcome_ok eqb h body mtu r = true <->
    match r with
    | DontFragment f => total_length h <= mtu /\ f = (h, body)
    | Discard => mtu < total_length h /\ may_fragment (flags h) = false
    | Fragmented frs => mtu < total_length h /\ may_fragment (flags h) = true /\
                        PartitionSpec h body mtu frs
    end.
Proof. exact @outcome_ok_spec. Qed.
Print Assumptions C10_outcome_ok_is_spec.

Theorem C10_domain_ok_is_spec : forall (A : Type) (h : hdr) (body : list A) (mtu : Z),
  (valid_ok h body = true <-> Valid h body) /\ (mtu_ok h mtu = true <-> MtuOk h mtu).
Proof. exact (fun A h body mtu => conj (valid_ok_iff h body) (mtu_ok_iff h mtu)). Qed.
Print Assumptions C10_domain_ok_is_spec.

(* re-fragmentation, abstractly: partitions (for m') of the pieces of a
   partition of o, concatenated, are a partition (for m') of o *)
Theorem C10_refragment : forall (A : Type) (o : hdr) (body : list A) (m m' : Z)
    (frs : list (frag A)) (pss : list (list (frag A))),
  PartitionSpec o body m frs ->
  Forall2 (fun f ps => PartitionSpec (fst f) (snd f) m' ps) frs pss ->
  PartitionSpec o body m' (concat pss).
Proof.
  intros A o body m m' frs pss HP HF. apply PartitionSpec_POK, (refragment_partition o body m m' frs pss).
  - apply PartitionSpec_POK, HP.
  - exact (Forall2_imp _ _ _ _ (fun f ps => proj1 (PartitionSpec_POK (fst f) (snd f) m' ps)) HF).
Qed.
Print Assumptions C10_refragment.

(* ... and the code does it: every piece of a partition of o is again inside the
   domain, so fragmenting all of them for m' succeeds and partitions o *)
Theorem C10_refragment_step : forall (A : Type) (o : hdr) (body : list A) (m m' : Z) (frs : list (frag A)),
  PartitionSpec o body m frs -> Valid o body -> MtuOk o m' -> may_fragment (flags o) = true ->
  exists rs frs', refrag_all m' frs = Ok rs /\ flatten rs = Some frs' /\ PartitionSpec o body m' frs'.
Proof.
  intros A o body m m' frs HP Hv Hm Hdf.
  destruct (refrag_step o body m m' frs (proj1 (PartitionSpec_POK _ _ _ _) HP) Hv Hm Hdf) as (rs & frs' & H1 & H2 & H3).
  exists rs, frs'. split; [exact H1 |]. split; [exact H2 | apply PartitionSpec_POK, H3].
Qed.
Print Assumptions C10_refragment_step.

(* arbitrary chains of MTUs (decreasing or not), by induction on the chain:
   the pieces that arrive partition the ORIGINAL datagram for the last MTU *)
Theorem C10_chain : forall (A : Type) (mtus : list Z) (o : hdr) (body : list A) (m : Z),
  Valid o body -> may_fragment (flags o) = true -> Forall (MtuOk o) (mtus ++ [m]) ->
  exists frs, chain (mtus ++ [m]) [(o, body)] = Ok (Some frs) /\ PartitionSpec o body m frs.
Proof.
  intros A mtus o body m Hv Hdf Hall.
  destruct (chain_ok mtus o body (total_length o) m [(o, body)]) as (frs & H1 & H2); try assumption.
  - apply POK_single; [apply Z.le_refl | apply Hv].
  - exists frs. split; [exact H1 | apply PartitionSpec_POK, H2].
Qed.
Print Assumptions C10_chain.

(* for a decreasing chain every earlier (larger) MTU is respected as well *)
Theorem C10_partition_mtu_monotone : forall (A : Type) (o : hdr) (body : list A) (m m' : Z) (frs : list (frag A)),
  m <= m' -> PartitionSpec o body m frs -> PartitionSpec o body m' frs.
Proof. exact @weaken_spec. Qed.
Print Assumptions C10_partition_mtu_monotone.

(* DF set along a chain: unchanged while it fits, discarded at the first MTU it exceeds *)
Theorem C10_chain_df : forall (A : Type) (mtus : list Z) (o : hdr) (body : list A),
  may_fragment (flags o) = false ->
  chain mtus [(o, body)] =
  Ok (if forallb (fun m => total_length o <=? m) mtus then Some [(o, body)] else None).
Proof. exact @chain_df. Qed.
Print Assumptions C10_chain_df.

(* pieces of a datagram that respects IPv4's 16-bit total length have offsets
   that fit the 13-bit header field *)
Theorem C10_offsets_fit_13_bits : forall (A : Type) (o : hdr) (body : list A) (mtu : Z)
    (frs : list (frag A)) (f : frag A),
  PartitionSpec o body mtu frs -> Valid o body ->
  8 * fragment_offset o + Z.of_nat (length body) <= 65535 ->
  In f frs -> 0 <= fragment_offset (fst f) <= 8191.
Proof. exact @offsets_13bit_spec. Qed.
Print Assumptions C10_offsets_fit_13_bits.

(* the hypotheses are satisfiable, and what the model computes on witnesses *)
Theorem C10_example_hypotheses :
  Valid (ex_hdr 50 0 0) (ex_body 30) /\ MtuOk (ex_hdr 50 0 0) 37 /\
  may_fragment (flags (ex_hdr 50 0 0)) = true /\ 37 < total_length (ex_hdr 50 0 0).
Proof. unfold Valid, MtuOk, U16MAX. cbn. repeat split; lia. Qed.
Print Assumptions C10_example_hypotheses.

Theorem C10_example_fragment :
  fragment (ex_hdr 50 0 0) (ex_body 30) 37 =
  Ok (Fragmented [ (ex_hdr 36 0 1, ex_body 16);
                   (ex_hdr 34 2 0, map Z.of_nat (seq 16 14)) ]).
Proof. exact example_fragment. Qed.
Print Assumptions C10_example_fragment.

Theorem C10_example_refragment_middle :
  fragment (ex_hdr 44 100 1) (ex_body 24) 36 =
  Ok (Fragmented [ (ex_hdr 36 100 1, ex_body 16);
                   (ex_hdr 28 102 1, map Z.of_nat (seq 16 8)) ]).
Proof. exact example_refragment_middle. Qed.
Print Assumptions C10_example_refragment_middle.

(* ---- remarks: behaviour outside the property's quantifier (MTU >= 68, valid headers) ---- *)

(* 4*ihl <= mtu < 4*ihl+8 (20..27 for ihl = 5): NFB = 0, the recursion makes no
   progress; the model exhausts ANY fuel, i.e. the Rust function does not return *)
Theorem C10_remark_nfb0_does_not_terminate : forall (A : Type) (fuel : nat) (mtu : Z) (h : hdr) (body : list A),
  0 <= ihl h -> 4 * ihl h <= mtu < 4 * ihl h + 8 -> mtu <= 65535 ->
  mtu < total_length h -> 0 <= fragment_offset h <= 65535 ->
  frag_rec fuel mtu h body = OutOfFuel.
Proof. exact @frag_rec_nfb0. Qed.
Print Assumptions C10_remark_nfb0_does_not_terminate.

(* mtu < 4*ihl: `self.mtu - header.ihl as u16 * 4` underflows *)
Theorem C10_remark_mtu_below_header_panics : forall (A : Type) (fuel : nat) (mtu : Z) (h : hdr) (body : list A),
  0 <= ihl h <= 255 -> mtu < 4 * ihl h -> mtu < total_length h ->
  frag_rec (S fuel) mtu h body = Panic SITE_MTU_SUB.
Proof. exact @frag_rec_small_mtu_panics. Qed.
Print Assumptions C10_remark_mtu_below_header_panics.

(* a fragment offset near 2^16 (not representable in a real header): `+=` overflows *)
Theorem C10_remark_offset_overflow_panics :
  fragment (ex_hdr 36 65535 0) (ex_body 16) 28 = Panic SITE_FO.
Proof. vm_compute. reflexivity. Qed.
Print Assumptions C10_remark_offset_overflow_panics.

(* total_length larger than header + body: Message::cut's assertion fails *)
Theorem C10_remark_short_body_panics :
  fragment (ex_hdr 100 0 0) (ex_body 4) 28 = Panic SITE_CUT.
Proof. vm_compute. reflexivity. Qed.
Print Assumptions C10_remark_short_body_panics.

(* a set reserved flag bit (rejected by the parser) is not carried to non-final pieces *)
Theorem C10_remark_reserved_bit_dropped : set_mf 4 = 1.
Proof. reflexivity. Qed.
Print Assumptions C10_remark_reserved_bit_dropped.
