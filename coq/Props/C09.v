(* C09 - route lookup is longest-prefix match over consistent subnet arithmetic.
   Property theorems only; each is closed by a lemma of Proofs/ or derived from general ones in a few lines; statements are pinned.

   Vocabulary (defined in Proofs/SubnetFacts.v, Proofs/IpTableFacts.v):
     prefix_mask k   = 2^32 - 2^(32-k)                 the /k mask
     valid_mask m    = exists k <= 32, m = prefix_mask k
     upclosed m      = the set bits of m (below bit 32) are closed upwards ("no 0 between the 1s")
     masklen n       = popcount (net_mask n)           Rust: n.mask().count_ones()
     wf_net n        = valid mask, id < 2^32, id land mask = id : exactly the Ipv4Net values the
                       public constructors can build (the fields are private)
     find t k        = the value bound to network k in table t
     denote ops m    = the finite map obtained from m by the history ops (upd = point update)
     op_ok o         = the arguments of o are values a caller can pass (constructible networks,
                       u32 addresses; remove_cidr, which panics by contract on malformed text,
                       gets text that parses)                                                  *)
From Coq Require Import NArith.
From Elvis Require Import Model.Base Model.Subnet Model.IpTable Proofs.SubnetFacts Proofs.IpTableFacts.
Local Open Scope N_scope.

(* ------------------------------------------------------------------ masks *)

(* mask validity:
   1. from_bitcount never panics (all five shift / subtraction / assert sites are unreachable)
      and builds the clamped prefix mask;
   2. count_ones of the /k mask is k;
   3. Ipv4Mask::try_from accepts exactly the prefix masks and returns its argument;
   4. it never panics *)
Theorem C09_mask_valid_iff :
  (forall n, from_bitcount n = Ok (prefix_mask (N.min n 32))) /\
  (forall k, k <= 32 -> popcount (prefix_mask k) = k) /\
  (forall m r, mask_try_from m = Ok r <-> r = m /\ valid_mask m) /\
  (forall m, mask_try_from m = Ok m \/ mask_try_from m = Err err_mask_invalid).
Proof. exact (conj from_bitcount_spec (conj popcount_prefix_mask (conj mask_try_from_ok_iff
    (fun m => match mask_try_from_total m with or_introl (conj _ E) => or_introl E | or_intror (conj _ E) => or_intror E end)))). Qed.
Print Assumptions C09_mask_valid_iff.

(* 1. bit-level reading of validity: a u32 whose ones are contiguous from the top;
   2. on valid masks the u32 order used by the table's comparator is the order of the lengths *)
Theorem C09_mask_valid_bits :
  (forall m, valid_mask m <-> m < two32 /\ upclosed m) /\
  (forall m m', valid_mask m -> valid_mask m' ->
  (m <= m' <-> popcount m <= popcount m')).
Proof. exact (conj valid_mask_bits valid_mask_le_popcount). Qed.
Print Assumptions C09_mask_valid_bits.

(* ------------------------------------------------------------------ addresses *)

(* the derived order on Ipv4Address([u8;4]) is the numeric order of to_u32, and the byte view
   round-trips (licenses modelling an address by its u32) *)
Theorem C09_address_order :
  (forall a b, a < two32 -> b < two32 ->
  lex_compare (to_be_bytes a) (to_be_bytes b) = (a ?= b)) /\
  (forall a, a < two32 -> from_be_bytes (to_be_bytes a) = a).
Proof. exact (conj be_bytes_order be_bytes_roundtrip). Qed.
Print Assumptions C09_address_order.

(* ------------------------------------------------------------------ networks *)

(* every constructor yields a well-formed network: the aligned block of the clamped length
   around the given address (1. new_short, 2. new with a prefix mask); 3. a well-formed network
   is an aligned block of size 2^(32 - masklen) *)
Theorem C09_constructors_are_blocks :
  (forall ip len, ip < two32 ->
  exists n, net_new_short ip len = Ok n /\ wf_net n /\ masklen n = N.min len 32) /\
  (forall ip k, ip < two32 -> k <= 32 ->
  net_new ip (prefix_mask k) = mkNet (ip - ip mod 2 ^ (32 - k)) (prefix_mask k)) /\
  (forall n, wf_net n ->
  net_mask n = prefix_mask (masklen n) /\ net_id n mod 2 ^ (32 - masklen n) = 0).
Proof.
  exact (conj net_new_short_wf (conj net_new_spec
    (fun n W => match wf_net_host n W with conj _ (conj Hm (conj Hz _)) => conj Hm Hz end))).
Qed.
Print Assumptions C09_constructors_are_blocks.

(* broadcast never overflows (1, 2); it is the last address of the block (1) *)
Theorem C09_broadcast_block :
  (forall n, wf_net n ->
  broadcast n = Ok (net_id n + 2 ^ (32 - masklen n) - 1)) /\
  (forall n, wf_net n ->
  exists b, broadcast n = Ok b /\ net_id n <= b < two32).
Proof. exact (conj broadcast_spec broadcast_total). Qed.
Print Assumptions C09_broadcast_block.

(* a network contains exactly the addresses from its id to its broadcast address *)
Theorem C09_contains_iff_range : forall n a b, wf_net n -> a < two32 -> broadcast n = Ok b ->
  (contains n a = true <-> net_id n <= a <= b).
Proof. exact contains_iff_range. Qed.
Print Assumptions C09_contains_iff_range.

(* 1. two networks overlap exactly when their ranges intersect,
   2. equivalently when some address is contained in both;  3. overlaps never panics *)
Theorem C09_overlaps_iff_ranges_meet :
  (forall n1 n2 b1 b2, wf_net n1 -> wf_net n2 ->
  broadcast n1 = Ok b1 -> broadcast n2 = Ok b2 ->
  (overlaps n1 n2 = Ok true <-> exists x, net_id n1 <= x <= b1 /\ net_id n2 <= x <= b2)) /\
  (forall n1 n2, wf_net n1 -> wf_net n2 ->
  (overlaps n1 n2 = Ok true <->
   exists x, x < two32 /\ contains n1 x = true /\ contains n2 x = true)) /\
  (forall n1 n2, wf_net n1 -> wf_net n2 ->
  exists r, overlaps n1 n2 = Ok r).
Proof. exact (conj overlaps_iff_ranges_meet (conj overlaps_iff_common_address overlaps_total)). Qed.
Print Assumptions C09_overlaps_iff_ranges_meet.

(* ------------------------------------------------------------------ ranges *)

(* an address range converts to a network exactly when it is an aligned power-of-two block,
   and then to that block *)
Theorem C09_range_to_net_iff : forall lo hi n, lo < two32 -> hi < two32 ->
  (try_from_range lo hi = Ok n <->
   exists h, h <= 32 /\ lo <= hi /\ hi - lo + 1 = 2 ^ h /\ lo mod 2 ^ h = 0 /\
             n = mkNet lo (two32 - 2 ^ h)).
Proof. exact range_to_net_iff. Qed.
Print Assumptions C09_range_to_net_iff.

(* the complete case analysis, including which error is reported; no panic *)
Theorem C09_range_cases : forall lo hi, lo < two32 -> hi < two32 ->
  (hi < lo /\ try_from_range lo hi = Err err_range_empty) \/
  (lo <= hi /\ (forall h, h <= 32 -> hi - lo + 1 <> 2 ^ h) /\
     try_from_range lo hi = Err err_range_size) \/
  (exists h, h <= 32 /\ lo <= hi /\ hi - lo + 1 = 2 ^ h /\ lo mod 2 ^ h <> 0 /\
     try_from_range lo hi = Err err_range_start) \/
  (exists h, h <= 32 /\ lo <= hi /\ hi - lo + 1 = 2 ^ h /\ lo mod 2 ^ h = 0 /\
     try_from_range lo hi = Ok (mkNet lo (two32 - 2 ^ h))).
Proof. exact try_from_range_cases. Qed.
Print Assumptions C09_range_cases.

Theorem C09_range_of_net_roundtrip : forall n b, wf_net n -> broadcast n = Ok b ->
  try_from_range (net_id n) b = Ok n.
Proof. exact range_of_net_roundtrip. Qed.
Print Assumptions C09_range_of_net_roundtrip.

(* ------------------------------------------------------------------ CIDR text *)

(* 1. the text "o1.o2.o3.o4/len" parses to the address and the /len mask it denotes,
   2. and from_cidr to the network (aligned block) it denotes *)
Theorem C09_cidr_denotes :
  (forall o1 o2 o3 o4 len,
  o1 <= 255 -> o2 <= 255 -> o3 <= 255 -> o4 <= 255 -> len <= 32 ->
  cidr_to_ip (render_cidr o1 o2 o3 o4 len) = Ok (from_be_bytes [o1; o2; o3; o4], prefix_mask len)) /\
  (forall o1 o2 o3 o4 len,
  o1 <= 255 -> o2 <= 255 -> o3 <= 255 -> o4 <= 255 -> len <= 32 ->
  let ip := from_be_bytes [o1; o2; o3; o4] in
  from_cidr (render_cidr o1 o2 o3 o4 len) = Ok (mkNet (ip - ip mod 2 ^ (32 - len)) (prefix_mask len))).
Proof. exact (conj cidr_to_ip_denotes from_cidr_denotes). Qed.
Print Assumptions C09_cidr_denotes.

(* whatever text is given: no panic, and anything accepted is a well-formed network *)
Theorem C09_from_cidr_sound : forall s,
  (exists n, from_cidr s = Ok n /\ wf_net n) \/ (exists e, from_cidr s = Err e).
Proof. exact from_cidr_sound. Qed.
Print Assumptions C09_from_cidr_sound.

(* OBSERVATION (outside the property): cidr_to_ip also accepts texts that are not CIDR notation:
   "1.2.3.4/33" (as /32), "1.2.3.4/8/x", "1.2.3.4/+8", "1.2.3.4/008" (all as /8) *)
Theorem C09_cidr_leniencies_observed :
  cidr_to_ip [49;46;50;46;51;46;52;47;51;51] = Ok (16909060, prefix_mask 32) /\
  cidr_to_ip [49;46;50;46;51;46;52;47;56;47;120] = Ok (16909060, prefix_mask 8) /\
  cidr_to_ip [49;46;50;46;51;46;52;47;43;56] = Ok (16909060, prefix_mask 8) /\
  cidr_to_ip [49;46;50;46;51;46;52;47;48;48;56] = Ok (16909060, prefix_mask 8).
Proof. repeat split; reflexivity. Qed.
Print Assumptions C09_cidr_leniencies_observed.

(* ------------------------------------------------------------------ the table is a finite map *)

(* 1. one step: never panics on callable arguments, keeps the invariant, is the point update of
      the finite map, and returns the previous binding (add / remove / remove_direct);
   2. any history of add / remove / add_direct / remove_direct / add_cidr / remove_cidr from the
      empty table has the finite-map semantics (last add wins by definition of upd) *)
Theorem C09_ops_denote_map :
  (forall (V : Type) (t : table V) (o : op V), tbl_inv t -> op_ok o ->
  exists t', step_obs t o = Ok (t', returned t o) /\ tbl_inv t' /\
             forall k, find t' k = denote_step (find t) o k) /\
  (forall (V : Type) (ops : list (op V)), Forall op_ok ops ->
  exists t, run ops [] = Ok t /\ tbl_inv t /\ forall k, find t k = denote ops fempty k).
Proof. exact (conj (@step_obs_spec) (@run_from_empty)). Qed.
Print Assumptions C09_ops_denote_map.

(* 1. the table is a function of the denoted map: histories with the same meaning (reordered,
      with repeated or cancelled steps) end in the very same table;
   2. adding a network twice replaces its value;
   3. adds / removes of different networks commute, anywhere in a history *)
Theorem C09_history_order_irrelevant :
  (forall (V : Type) (ops1 ops2 : list (op V)),
  Forall op_ok ops1 -> Forall op_ok ops2 ->
  (forall k, denote ops1 fempty k = denote ops2 fempty k) -> run ops1 [] = run ops2 []) /\
  (forall (V : Type) (ops : list (op V)) n (v1 v2 : V),
  Forall op_ok ops -> wf_net n ->
  run (ops ++ [OAdd n v1; OAdd n v2]) [] = run (ops ++ [OAdd n v2]) []) /\
  (forall (V : Type) (ops : list (op V)) n1 (o1 : option V) n2 (o2 : option V) rest,
  Forall op_ok ops -> Forall op_ok rest -> wf_net n1 -> wf_net n2 -> n1 <> n2 ->
  let mk (n : net) (o : option V) := match o with Some v => OAdd n v | None => ORemove n end in
  run (ops ++ [mk n1 o1; mk n2 o2] ++ rest) [] = run (ops ++ [mk n2 o2; mk n1 o1] ++ rest) []).
Proof. exact (conj (@run_canonical) (conj (@add_twice_replaces) (@unrelated_steps_commute))). Qed.
Print Assumptions C09_history_order_irrelevant.

(* the one documented panic *)
Theorem C09_remove_cidr_malformed_panics : forall (V : Type) (t : table V) s e,
  from_cidr s = Err e -> step t (ORemoveCidr s) = Panic site_remove_cidr.
Proof. exact @step_remove_cidr_malformed. Qed.
Print Assumptions C09_remove_cidr_malformed_panics.

(* ------------------------------------------------------------------ lookup is longest-prefix match *)

(* table level: 1. a value is returned exactly when it belongs to a containing network of
   maximal mask length;  2. nothing is returned exactly when no network contains the address *)
Theorem C09_lpm :
  (forall (V : Type) (t : table V) a (v : V), tbl_inv t ->
  (get_recipient t a = Some v <->
   exists n, In (n, v) (tbl_iter t) /\ contains n a = true /\
             forall n' v', In (n', v') (tbl_iter t) -> contains n' a = true -> masklen n' <= masklen n)) /\
  (forall (V : Type) (t : table V) a,
  get_recipient t a = None <-> forall n (v : V), In (n, v) (tbl_iter t) -> contains n a = false).
Proof. exact (conj (@lpm_some) (@get_recipient_none)). Qed.
Print Assumptions C09_lpm.

(* uniqueness of the winner *)
Theorem C09_winner_unique : forall n n' a, wf_net n -> wf_net n' ->
  contains n a = true -> contains n' a = true -> masklen n = masklen n' -> n = n'.
Proof. exact contains_same_len. Qed.
Print Assumptions C09_winner_unique.

(* history level: 1. after ANY history the lookup is the longest-prefix match over the finite
   map the history denotes, hence independent of the order of adds and removes;
   2. iteration yields exactly the bindings of the denoted map, in the comparator's order *)
Theorem C09_lpm_history :
  (forall (V : Type) (ops : list (op V)), Forall op_ok ops ->
  exists t, run ops [] = Ok t /\
    (forall a (v : V),
       get_recipient t a = Some v <->
       exists n, denote ops fempty n = Some v /\ contains n a = true /\
                 forall n' v', denote ops fempty n' = Some v' -> contains n' a = true ->
                               masklen n' <= masklen n) /\
    (forall a,
       get_recipient t a = None <->
       forall n v, denote ops fempty n = Some v -> contains n a = false)) /\
  (forall (V : Type) (ops : list (op V)), Forall op_ok ops ->
  exists t, run ops [] = Ok t /\ sorted (tbl_iter t) /\
    forall n (v : V), In (n, v) (tbl_iter t) <-> denote ops fempty n = Some v).
Proof. exact (conj (@lpm_history) (@iter_history)). Qed.
Print Assumptions C09_lpm_history.

(* the hypotheses are satisfiable *)
Example C09_wf_net_inhabited : wf_net (mkNet 167772160 (prefix_mask 8)).
Proof. exact wf_net_example. Qed.
Example C09_tbl_inv_inhabited : tbl_inv ([] : table N).
Proof. exact tbl_inv_nil. Qed.
