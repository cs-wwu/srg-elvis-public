(* C02 - socket I/O across the full stack is intact, ordered and bounded.
   Property theorems only; each is closed by a lemma of Proofs/ or derived from general ones in a few lines; statements are pinned.

   Model: Model/SocketRecv.v (socket.rs recv / recv_msg / accept, socket_session.rs, the routing part of
   socket_api.rs, the hand-off of writes to the TCP session).  A Message is its byte list; the mpsc channel
   between session and socket is a list with its capacity 255.
     recv false = Socket::recv as it is in the repository  (compares with, and takes, the requested [bytes])
     recv true  = the minimal repair /verif/.cache/c02/fix-recv.patch (uses bytes - buf.len())
   [pending s] = everything still readable from socket s, in reading order (stored remainder, then the queue).
   [run fixed evs s] executes a script of pushes (messages arriving from the transport), recv(n), recv_msg and
   set_blocking calls and returns the observations and the final socket.

   What is NOT a theorem here: that the per-write hand-offs reach the TCP session in issue order.  That is the
   hypothesis [fifo arrival = true] of C02_fifo_stream: Socket::send (socket.rs:221) and TcpSession::send
   (tcp_session.rs:157) each tokio::spawn a task per write and the order in which an executor runs freshly
   spawned tasks is not specified (measured: permuted on the multi-thread runtime; see checks/C02.py).
   The TCP transfer itself (the peer's TCP hands up, in order, exactly the sender's outgoing text) is the
   hypothesis [concat pre ++ concat (pushed evs) = outgoing_text arrival]: that is property C01. *)
From Coq Require Import Permutation.
From Elvis Require Import Model.Base Model.SocketRecv Proofs.SocketRecvFacts.

(* ---- a read that asks for at most n bytes never returns more than n (repaired code) *)
Theorem C02_recv_bound : forall (n : nat) (s : sock) (out : bytes) (s' : sock),
  recv true n s = RData out s' -> length out <= n.
Proof. exact recv_bound. Qed.
Print Assumptions C02_recv_bound.

(* ---- the code as it is violates the bound: 2 bytes stored, "cdef" queued, recv(4) returns 6 bytes *)
Theorem C02_recv_bound_refuted : exists (n : nat) (s : sock) (out : bytes) (s' : sock),
  recv false n s = RData out s' /\ n < length out /\
  n = 4 /\ s = mkSock (Some [1%N; 2%N]) [[3%N; 4%N; 5%N; 6%N]] true /\ length out = 6.
Proof.
  exists 4, (mkSock (Some [1%N; 2%N]) [[3%N; 4%N; 5%N; 6%N]] true), [1%N; 2%N; 3%N; 4%N; 5%N; 6%N], (mkSock None [] true).
  cbn. repeat split; lia.
Qed.
Print Assumptions C02_recv_bound_refuted.

(* ---- same for a message longer than what is missing: take(bytes) ignores what is already buffered *)
Theorem C02_recv_bound_refuted_long :
  recv false 4 (mkSock (Some [1%N; 2%N]) [[3%N; 4%N; 5%N; 6%N; 7%N; 8%N; 9%N]] true)
  = RData [1%N; 2%N; 3%N; 4%N; 5%N; 6%N] (mkSock (Some [7%N; 8%N; 9%N]) [] true) /\
  recv true 4 (mkSock (Some [1%N; 2%N]) [[3%N; 4%N; 5%N; 6%N]] true)
  = RData [1%N; 2%N; 3%N; 4%N] (mkSock (Some [5%N; 6%N]) [] true).
Proof. split; reflexivity. Qed.
Print Assumptions C02_recv_bound_refuted_long.

(* ---- one read neither loses, duplicates nor reorders bytes (both variants of recv; a parked call has
        consumed nothing but empty messages; recv never returns an error from a connected socket) *)
Theorem C02_recv_conserves : forall (fixed : bool) (n : nat) (s : sock),
  match recv fixed n s with
  | RData out s' => out ++ pending s' = pending s /\ blocking s' = blocking s
  | RBlock s' => pending s' = pending s /\ blocking s' = blocking s
  | RErr _ => False
  end.
Proof. exact recv_conserves. Qed.
Print Assumptions C02_recv_conserves.

Theorem C02_recv_msg_conserves : forall (s : sock),
  match recv_msg s with
  | RData out s' => out ++ pending s' = pending s /\ blocking s' = blocking s
  | RBlock s' => s' = s
  | RErr s' => s' = s
  end.
Proof. exact recv_msg_conserves. Qed.
Print Assumptions C02_recv_msg_conserves.

(* ---- successive reads, interleaved in any way with arriving messages: what was read, followed by what is
        still readable, is what was readable at the start followed by the accepted arrivals *)
Theorem C02_reads_conserve : forall (fixed : bool) (evs : list ev) (s : sock) (os : list obs) (s' : sock),
  run fixed evs s = (os, s') ->
  concat (map obs_bytes os) ++ pending s' = pending s ++ concat (accepted evs os).
Proof. exact run_conserves. Qed.
Print Assumptions C02_reads_conserve.

Theorem C02_reads_bounded : forall (evs : list ev) (s : sock) (os : list obs) (s' : sock),
  run true evs s = (os, s') ->
  forall n out, In (ORead n out) os -> length out <= n.
Proof.
  intros evs s os s' H n out Hin. pose proof (run_bounded _ _ _ _ H) as Hb.
  rewrite forallb_forall in Hb. exact (proj1 (Nat.leb_le _ _) (Hb _ Hin)).
Qed.
Print Assumptions C02_reads_bounded.

(* ---- stream sockets: IF the per-write hand-offs reach the TCP session in issue order (FIFO hypothesis) and
        the TCP hands the outgoing text up to the peer's socket layer unchanged (C01), in any chunking, any of
        it before accept(), THEN what the peer reads (any read sizes, any interleaving, no channel overflow)
        followed by what it can still read is the concatenation of the writes in issue order *)
Theorem C02_fifo_stream :
  forall (fixed : bool) (ws : list bytes) (arrival : list (nat * bytes)) (pre : list bytes)
         (evs : list ev) (s0 : sock) (os : list obs) (s' : sock),
  Permutation arrival (tag ws) ->
  fifo arrival = true ->
  concat pre ++ concat (pushed evs) = outgoing_text arrival ->
  accept_replay pre = Ok s0 ->
  run fixed evs s0 = (os, s') ->
  ~ In OPushFull os ->
  concat (map obs_bytes os) ++ pending s' = concat ws.
Proof.
  intros fixed ws arrival pre evs s0 os s' Hp Hf Htcp Hacc Hrun Hno.
  rewrite (run_conserves _ _ _ _ _ Hrun), (accepted_all _ _ _ _ _ Hrun Hno), (proj1 (accept_replay_ok _ _ Hacc)), Htcp.
  rewrite (fifo_arrival_is_tag _ _ Hp Hf). apply outgoing_text_tag.
Qed.
Print Assumptions C02_fifo_stream.

Theorem C02_fifo_stream_satisfiable :
  exists fixed ws arrival pre evs s0 os s',
    Permutation arrival (tag ws) /\ fifo arrival = true /\
    concat pre ++ concat (pushed evs) = outgoing_text arrival /\
    accept_replay pre = Ok s0 /\ run fixed evs s0 = (os, s') /\ ~ In OPushFull os /\
    concat (map obs_bytes os) = concat ws /\ ws <> [].
Proof. exact fifo_stream_satisfiable. Qed.
Print Assumptions C02_fifo_stream_satisfiable.

(* ---- the FIFO hypothesis cannot be dropped: two writes handed over in the other order give another stream;
        in general the stream is the concatenation of SOME permutation of the writes (the recorded class) *)
Theorem C02_fifo_needed :
  let ws := [[1%N]; [2%N]] in
  let arrival := [(1, [2%N]); (0, [1%N])] in
  Permutation arrival (tag ws) /\ fifo arrival = false /\ outgoing_text arrival <> concat ws.
Proof. cbn. split; [apply perm_swap |]. split; [reflexivity | discriminate]. Qed.
Print Assumptions C02_fifo_needed.

Theorem C02_unordered_is_permutation : forall (ws : list bytes) (arrival : list (nat * bytes)),
  Permutation arrival (tag ws) ->
  exists ws', Permutation ws' ws /\ outgoing_text arrival = concat ws'.
Proof.
  intros ws arrival Hp. exists (map snd arrival). split; [| reflexivity].
  apply (Permutation_map snd) in Hp. unfold tag in Hp. rewrite map_snd_combine_seq in Hp. exact Hp.
Qed.
Print Assumptions C02_unordered_is_permutation.

(* ---- datagram sockets (read with recv_msg): every datagram handed to the application is, whole, one of the
        datagrams the peer sent (dropped ones never appear, a duplicated frame may appear twice), and the
        sequence handed out is a prefix of the sequence that arrived: nothing split, merged or invented *)
Theorem C02_datagram :
  forall (fixed : bool) (sent : list (bytes * fate)) (pre : list bytes) (evs : list ev)
         (s0 : sock) (os : list obs) (s' : sock),
  pre ++ pushed evs = arrivals sent ->
  accept_replay pre = Ok s0 ->
  forallb msg_only evs = true ->
  run fixed evs s0 = (os, s') ->
  (forall d, In d (concat (map obs_msgs os)) -> In d (map fst sent)) /\
  (exists rest, concat (map obs_msgs os) ++ rest = pre ++ accepted evs os).
Proof. exact datagram_whole. Qed.
Print Assumptions C02_datagram.

(* ---- to the connected peer only: a message demultiplexed for (local, r) changes the session of r and of no
        other remote endpoint, and is appended there whole *)
Theorem C02_datagram_peer_only : forall (r : N) (m : bytes) (a a' : api) (r' : N),
  demux r m a = Ok a' -> r' <> r -> lookup r' (sessions a') = lookup r' (sessions a).
Proof. exact demux_peer_only. Qed.
Print Assumptions C02_datagram_peer_only.

Theorem C02_demux_whole : forall (r : N) (m : bytes) (a a' : api) (q : list bytes),
  demux r m a = Ok a' ->
  sess_msgs (lookup r (sessions a)) = Some q ->
  sess_msgs (lookup r (sessions a')) = Some (q ++ [m]).
Proof. exact demux_whole. Qed.
Print Assumptions C02_demux_whole.

(* ---- accept() gives the new socket exactly the messages stored before it existed, in order *)
Theorem C02_accept_replays : forall (a : api) (r : N) (a' : api) (st : list bytes),
  accept a = AOk r a' ->
  lookup r (sessions a) = Some (SPending st) ->
  exists s, lookup r (sessions a') = Some (SActive s) /\ stored s = None /\ queue s = st /\
            (forall r', r' <> r -> lookup r' (sessions a') = lookup r' (sessions a)).
Proof. exact accept_replays. Qed.
Print Assumptions C02_accept_replays.

(* ---- soundness of the validators run on the implementation's traces *)
Theorem C02_validate_stream_sound : forall (fixed : bool) (writes : list bytes) (reads : list (nat * bytes)),
  validate_stream fixed writes reads = true ->
  concat (map snd reads) = concat writes /\
  (fixed = true -> Forall (fun r => length (snd r) <= fst r) reads).
Proof.
  intros fixed writes reads H. apply andb_prop in H. destruct H as [H1 H2].
  split; [exact (beq_eq _ _ H1) | exact (reads_within _ _ H2)].
Qed.
Print Assumptions C02_validate_stream_sound.

(* on the multi-thread runtime the FIFO hypothesis is not available: the validator then checks what the model
   guarantees without it (C02_unordered_is_permutation) *)
Theorem C02_validate_stream_unordered_sound :
  forall (fixed : bool) (writes : list bytes) (reads : list (nat * bytes)),
  validate_stream_unordered fixed writes reads = true ->
  (exists ws', Permutation ws' writes /\ concat (map snd reads) = concat ws') /\
  (fixed = true -> Forall (fun r => length (snd r) <= fst r) reads).
Proof.
  intros fixed writes reads H. apply andb_prop in H. destruct H as [H1 H2].
  split; [exact (perm_concat_sound _ _ _ H1) | exact (reads_within _ _ H2)].
Qed.
Print Assumptions C02_validate_stream_unordered_sound.

Theorem C02_validate_dgram_sound : forall (sent : list (bytes * nat)) (got : list bytes),
  validate_dgram sent got = true ->
  (forall g, In g got -> In g (map fst sent)) /\
  (exists rest, Permutation (copies sent) (got ++ rest)).
Proof. exact validate_dgram_sound. Qed.
Print Assumptions C02_validate_dgram_sound.

(* ---- remark: the channel between session and socket holds 255 messages; the 256th unread message is refused
        (SocketSession::receive -> Err(ClosedSession)) and its bytes are gone; hence [~ In OPushFull os] above *)
Theorem C02_remark_queue_overflow :
  let evs := map (fun _ => EPush [7%N]) (seq 0 256) in
  let '(os, s') := run true evs (mkSock None [] true) in
  In OPushFull os /\ length (pending s') = 255 /\ length (concat (pushed evs)) = 256.
Proof.
  (* the run stays folded, so that each conjunct is one evaluation to a small value *)
  cbv zeta. rewrite (surjective_pairing (run true _ _)).
  split; [apply (nth_error_In _ 255) | split]; vm_compute; reflexivity.
Qed.
Print Assumptions C02_remark_queue_overflow.

(* ---- remark: accept() panics when more than 255 messages were stored before it (socket.rs:207 unwrap) *)
Theorem C02_remark_accept_overflow_panics :
  accept_replay (repeat [7%N] 256) = Panic P_ACCEPT_REPLAY /\ is_ok (accept_replay (repeat [7%N] 255)) = true.
Proof. split; vm_compute; reflexivity. Qed.
Print Assumptions C02_remark_accept_overflow_panics.
