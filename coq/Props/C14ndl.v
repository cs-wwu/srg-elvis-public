(* C14, NDL part: no text makes the network description parser panic.  [core_parse] is the model
   of core_parser after the repair .cache/ndl/fix.patch (texts = lists of Unicode scalar values;
   a file that is not UTF-8 is outside the model: fs::read_to_string(..).expect(..) panics on it).
   The unchanged tree is refuted by two independent witnesses. *)
From Elvis Require Import Model.Base Model.Ndl Proofs.NdlFacts.

Theorem C14_ndl_total : forall txt,
  (exists s, core_parse txt = Ok s) \/ (exists e, core_parse txt = Err e).
Proof. intros txt. exact (answers_cases _ (core_parse_total txt)). Qed.
Print Assumptions C14_ndl_total.

Theorem C14_ndl_never_panics : forall txt site, core_parse txt <> Panic site.
Proof. intros txt site H. pose proof (core_parse_total txt) as T. rewrite H in T. exact T. Qed.
Print Assumptions C14_ndl_never_panics.

(* "[IPtype]": get_type accepts the word, DecType::from has no arm for it *)
Theorem C14_ndl_orig_refuted_iptype : core_parse_orig witness_iptype = Panic SITE_UNIMPL.
Proof. vm_compute. reflexivity. Qed.
Print Assumptions C14_ndl_orig_refuted_iptype.

(* "[Networ<U+212A>]": tag_no_case matches the Kelvin sign against 'k' and splits inside it *)
Theorem C14_ndl_orig_refuted_kelvin : core_parse_orig witness_kelvin = Panic SITE_SPLIT.
Proof. vm_compute. reflexivity. Qed.
Print Assumptions C14_ndl_orig_refuted_kelvin.

(* the repaired parser returns errors on both *)
Theorem C14_ndl_fixed_on_witnesses :
  core_parse witness_iptype = Err (ecode E_EXTRA 1) /\ core_parse witness_kelvin = Err (ecode E_DECTYPE (-1)).
Proof. split; vm_compute; reflexivity. Qed.
Print Assumptions C14_ndl_fixed_on_witnesses.
