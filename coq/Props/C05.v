(* C05 - the simulated link delivers frames as configured, to the right taps.
   Property theorems only; each is closed by a lemma of Proofs/ or derived from general ones in a few lines; statements are pinned.

   Model: Model/Link.v (network.rs, pci.rs, pci/pci_session.rs transcribed: allocator and tap
   registration, MTU test of send_pci, unicast lookup / broadcast fan-out of Network::send,
   DemuxInfo of PciSession::receive, Latency::next / Throughput::next, and the timing of
   Network::send as a FIFO single server (the throughput permit) followed by the latency).
   [net_inv], [winv], [job_ok], [txf_ok], [total_bound_fails]: Proofs/LinkFacts.v;
   [TraceOK], [send_ok], [accepted_ok], [window_ok]: Proofs/LinkTrace.v.

   Timing is parametric in
     g       the timer tick (1 = ideal clock, 10^6 = tokio's millisecond wheel),
     j_wait  a scheduler delay >= 0 per frame before it takes the permit (any interleaving of
             a real runtime; 0 under paused virtual time),
     j_thr, j_lat  the rate / latency drawn for the frame (constant: the base values;
             variable: any value in the range of C05_variable_settings),
     the order of the job list = the order in which frames obtain the permit (arbitrary).
   The transmission time of the MAIN model is that of the repaired code (rounded up to whole
   ns, .cache/c05/fix.patch); [tx_time_orig] is the code as it stands (whole ms, rounded
   down), for which the throughput clause is REFUTED below.

   Not covered by theorems (runtime behaviour, validated by traces only): that tokio's Notify
   hands the permit on, spawn/wake-up order, the loss branch (loss_rate = 0 throughout), a
   target protocol missing on the receiving machine.
   A broadcast also reaches the sender's own tap as coded; the property says "every other
   tap", so this is neither required nor forbidden: C05_remark_broadcast_reaches_sender. *)
From Elvis Require Import Model.Base Model.Link Proofs.ListFacts Proofs.LinkFacts Proofs.LinkTrace.
Local Open Scope Z_scope.

(* ---- to the right taps *)

(* a frame sent to a hardware address is delivered to the tap owning that address and to no other *)
Theorem C05_unicast_only_owner : forall n d, net_inv n -> d <> BROADCAST_MAC ->
  forall T, In T (route n (Some d)) <-> (In T (n_taps n) /\ t_mac T = d).
Proof. exact route_unicast. Qed.
Print Assumptions C05_unicast_only_owner.

Theorem C05_unicast_at_most_one : forall n d, d <> BROADCAST_MAC -> (length (route n (Some d)) <= 1)%nat.
Proof.
  intros n d Hd. unfold route. destruct (d =? BROADCAST_MAC) eqn:E; [lia |]. destruct (find _ _); cbn; lia.
Qed.
Print Assumptions C05_unicast_at_most_one.

(* an address nobody owns reaches nobody *)
Theorem C05_unknown_address_nobody : forall n d, d <> BROADCAST_MAC ->
  (forall T, In T (n_taps n) -> t_mac T <> d) -> route n (Some d) = [].
Proof. exact route_unknown. Qed.
Print Assumptions C05_unknown_address_nobody.

(* a broadcast frame (destination None or the broadcast address) is delivered to every other tap *)
Theorem C05_broadcast_all_others : forall n dst src T,
  dst = None \/ dst = Some BROADCAST_MAC ->
  In T (n_taps n) -> t_mac T <> src -> In T (route n dst).
Proof. intros n dst src T Hd HT _. rewrite (route_broadcast n dst Hd). exact HT. Qed.
Print Assumptions C05_broadcast_all_others.

Theorem C05_remark_broadcast_reaches_sender : forall n dst T,
  dst = None \/ dst = Some BROADCAST_MAC -> In T (n_taps n) -> In T (route n dst).
Proof. intros n dst T Hd HT. rewrite (route_broadcast n dst Hd). exact HT. Qed.
Print Assumptions C05_remark_broadcast_reaches_sender.

(* ---- unchanged, exactly once *)

(* what the target protocol is given: the sender address, the destination, the network's MTU
   and the payload of the frame, on the machine and slot of a tap the routing function names *)
Theorem C05_payload_sender_unchanged : forall (A : Type) n (f : frame A) r, In r (deliver n f) ->
  exists T, In T (route n (f_dst f)) /\
    rx_machine r = t_machine T /\ rx_slot r = t_slot T /\
    rx_src r = f_src f /\ rx_dst r = f_dst f /\ rx_mtu r = n_mtu n /\ rx_payload r = f_payload f.
Proof.
  intros A n f r H. unfold deliver in H. apply in_map_iff in H. destruct H as (T & <- & HT).
  exists T. cbn. repeat split. exact HT.
Qed.
Print Assumptions C05_payload_sender_unchanged.

(* loss-free network: one reception per tap named by the routing function, no tap named twice *)
Theorem C05_exactly_once : forall (A : Type) n (f : frame A), net_inv n ->
  NoDup (map t_mac (route n (f_dst f))) /\
  incl (route n (f_dst f)) (n_taps n) /\
  deliver n f = map (fun t => mkRx (t_machine t) (t_slot t) (f_src f) (f_dst f) (n_mtu n) (f_payload f))
                    (route n (f_dst f)).
Proof. intros A n f H. exact (conj (route_nodup n _ H) (conj (route_incl n _) eq_refl)). Qed.
Print Assumptions C05_exactly_once.

(* ---- MTU *)

(* a frame longer than the MTU is refused with an error (carrying the MTU); the wire is unchanged *)
Theorem C05_mtu_refused : forall (A : Type) n src (payload : list A) dst proto wire,
  n_mtu n < Z.of_nat (length payload) ->
  send_pci n src payload dst proto wire = (Err (n_mtu n), wire).
Proof.
  intros A n src payload dst proto wire H. unfold send_pci.
  destruct (n_mtu n <? Z.of_nat (length payload)) eqn:E; [reflexivity | lia].
Qed.
Print Assumptions C05_mtu_refused.

(* up to and including the MTU it is accepted and goes on the wire as it is *)
Theorem C05_mtu_accepted : forall (A : Type) n src (payload : list A) dst proto wire,
  Z.of_nat (length payload) <= n_mtu n ->
  send_pci n src payload dst proto wire = (Ok tt, wire ++ [mkFrame src dst proto payload]).
Proof.
  intros A n src payload dst proto wire H. unfold send_pci.
  destruct (n_mtu n <? Z.of_nat (length payload)) eqn:E; [lia | reflexivity].
Qed.
Print Assumptions C05_mtu_accepted.

(* ---- addresses *)

(* one attach: the invariant (addresses pairwise distinct, below the counter, nobody
   overwritten) is kept, the new tap gets the counter's value, every earlier tap stays *)
Theorem C05_attach_step : forall n m s T n', net_inv n -> attach n m s = Ok (T, n') ->
  net_inv n' /\
  T = mkTap (n_next_mac n) m s /\
  n_taps n' = T :: n_taps n /\
  n_next_mac n' = n_next_mac n + 1 /\
  n_mtu n' = n_mtu n /\ n_lat_base n' = n_lat_base n /\ n_lat_rand n' = n_lat_rand n /\
  n_thr_base n' = n_thr_base n /\ n_thr_rand n' = n_thr_rand n.
Proof. exact attach_spec. Qed.
Print Assumptions C05_attach_step.

Theorem C05_new_network_inv : forall mtu lb lr tb tr, net_inv (new_net mtu lb lr tb tr).
Proof. exact net_inv_new. Qed.
Print Assumptions C05_new_network_inv.

(* any number of networks, machines and taps per machine: every tap on a network has a
   distinct hardware address (pairs (network, address) are pairwise distinct), every network
   satisfies the invariant and every tap is registered on its network *)
Theorem C05_macs_distinct : forall c w ts, build c = Ok (w, ts) ->
  Forall net_inv w /\
  NoDup (map tap_key ts) /\
  (forall it, In it ts -> exists n, nth_error w (fst it) = Some n /\ In (snd it) (n_taps n)).
Proof. exact build_inv. Qed.
Print Assumptions C05_macs_distinct.

(* the allocator never returns an error value, and only panics when 2^64 - 1 addresses are used up *)
Theorem C05_attach_total : forall n m s, n_next_mac n < U64_MAX -> exists T n', attach n m s = Ok (T, n').
Proof. intros n m s H. unfold attach. destruct (U64_MAX <=? n_next_mac n) eqn:E; [lia |]. eauto. Qed.
Print Assumptions C05_attach_total.

(* ---- timing *)

(* no frame is delivered earlier than the latency drawn for it (>= the configured base:
   C05_variable_settings); any tick, any rate, any scheduler delay, any transmission-time function *)
Theorem C05_latency_lb : forall txf g, 0 < g -> txf_ok txf -> forall js b, Forall job_ok js ->
  Forall2 (fun j k => j_arr j + j_lat j <= k_dlv k) js (sched txf g b js).
Proof.
  intros txf g Hg Htx js b Hok. eapply Forall2_imp; [| exact (sched_slots txf g Hg Htx js b Hok)]. cbn. tauto.
Qed.
Print Assumptions C05_latency_lb.

(* transmissions on a throttled network do not overlap *)
Theorem C05_serialised : forall txf g, 0 < g -> txf_ok txf -> forall js b p q jp jq kp kq,
  Forall job_ok js -> (p < q)%nat ->
  nth_error js p = Some jp -> nth_error js q = Some jq ->
  nth_error (sched txf g b js) p = Some kp -> nth_error (sched txf g b js) q = Some kq ->
  j_thr jp <> 0 -> j_thr jq <> 0 ->
  k_start kp <= k_end kp /\ k_end kp <= k_start kq.
Proof. exact sched_serialised. Qed.
Print Assumptions C05_serialised.

(* throughput, every window: the bytes handed over at or after s and delivered by e take at
   most (e - max(s, busy)) at the largest rate M any of the frames was given *)
Theorem C05_throughput_window : forall g M, 0 < g -> 0 < M -> forall js b s e,
  Forall job_ok js -> Forall (fun j => 0 < j_thr j <= M) js ->
  wbytes s e js (sched tx_time g b js) <= M * Z.max 0 (e - Z.max s b).
Proof. exact sched_window. Qed.
Print Assumptions C05_throughput_window.

(* throughput, the property's form: deliver_n - send_0 >= 10^9 * sum len_i / rate  (ns) *)
Theorem C05_throughput_bound : forall g M, 0 < g -> 0 < M -> forall js b s e,
  Forall job_ok js -> Forall (fun j => 0 < j_thr j <= M) js ->
  Forall2 (fun j k => s <= j_arr j /\ k_dlv k <= e) js (sched tx_time g b js) ->
  total_len js * NS <= M * Z.max 0 (e - s).
Proof.
  intros g M Hg HM js b s e Hok Hthr Hall. rewrite <- (wbytes_all s e js _ Hall).
  apply Z.le_trans with (1 := sched_window g M Hg HM js b s e Hok Hthr). apply Z.mul_le_mono_nonneg_l; lia.
Qed.
Print Assumptions C05_throughput_bound.

(* REFUTED for the code as it stands (network.rs:107, whole milliseconds rounded down): the same
   statement with [tx_time_orig] fails; minimal witness: one 1-byte frame at 1001 B/s is
   delivered at the instant it is sent *)
Theorem C05_throughput_bound_orig_refuted :
  exists g M js b s e, total_bound_fails tx_time_orig g M js b s e.
Proof. exists 1, 1001, (burst 1 1 1001), 0, 0, 0. apply burst_fails; lia. Qed.
Print Assumptions C05_throughput_bound_orig_refuted.

Theorem C05_throughput_bound_orig_refuted_minimal :
  total_bound_fails tx_time_orig 1 1001 [mkJob 0 1 1001 0 0] 0 0 0.
Proof. apply (burst_fails 1 1); lia. Qed.
Print Assumptions C05_throughput_bound_orig_refuted_minimal.

(* 999 one-byte frames at 1001 B/s, all handed over at 0, are all delivered at 0 (they need
   998 ms); with the ideal clock and with tokio's millisecond tick *)
Theorem C05_throughput_bound_orig_refuted_999 :
  total_bound_fails tx_time_orig 1 1001 (burst 999 1 1001) 0 0 0 /\
  total_bound_fails tx_time_orig 1000000 1001 (burst 999 1 1001) 0 0 0.
Proof. split; apply burst_fails; lia. Qed.
Print Assumptions C05_throughput_bound_orig_refuted_999.

(* variable settings: only the bounds are claimed *)
Theorem C05_variable_settings : forall n u,
  (0 <= n_lat_rand n -> n_lat_base n <= lat_next n u <= n_lat_base n + n_lat_rand n) /\
  (forall r, 0 <= n_thr_rand n -> thr_next n u = Ok r -> n_thr_base n <= r <= thr_max n).
Proof. exact (fun n u => conj (lat_next_ge n u) (thr_next_range n u)). Qed.
Print Assumptions C05_variable_settings.

(* the hypotheses are satisfiable: both transmission-time functions are admissible, and a
   concrete schedule (1 byte at 1001 B/s, then 1500 bytes at 12.5 MB/s with 2 ms latency) *)
Theorem C05_example_hypotheses :
  txf_ok tx_time /\ txf_ok tx_time_orig /\
  let js := [mkJob 0 1 1001 0 0; mkJob 0 1500 12500000 2000000 0] in
  Forall job_ok js /\ Forall (fun j => 0 < j_thr j <= 12500000) js /\
  sched tx_time 1 0 js = [mkSlot 0 999001 999001; mkSlot 999001 1119001 3119001].
Proof. exact (conj tx_time_nonneg (conj tx_time_orig_nonneg sched_example)). Qed.
Print Assumptions C05_example_hypotheses.

(* ---- traces of the real simulation *)

(* what a trace accepted by the extracted validator satisfies *)
Theorem C05_validate_sound : forall c tr, validate c tr = true -> TraceOK c tr.
Proof. exact validate_sound. Qed.
Print Assumptions C05_validate_sound.

(* the per-tap clauses of [accepted_ok] read through the routing theorems *)
Theorem C05_trace_recipients : forall n d m,
  (net_inv n -> d <> BROADCAST_MAC -> 0 <= d ->
     (mem_mac m (route n (dst_of d)) = true <-> (m = d /\ mem_mac d (n_taps n) = true))) /\
  (d < 0 \/ d = BROADCAST_MAC -> mem_mac m (route n (dst_of d)) = mem_mac m (n_taps n)).
Proof.
  intros n d m. split; [exact (mem_mac_route_unicast n d m) |].
  intros H. unfold dst_of. destruct (d <? 0) eqn:E; [reflexivity |]. destruct H as [H | ->]; [lia | reflexivity].
Qed.
Print Assumptions C05_trace_recipients.

(* the throughput clause of an accepted trace in the property's form: from the first
   hand-over a to the last delivery b, all bytes of the network's frames *)
Theorem C05_trace_throughput_total : forall thr fs a b, window_ok thr fs -> In a fs -> In b fs ->
  (forall f, In f fs -> fr_arr a <= fr_arr f /\ fr_dlv f <= fr_dlv b) ->
  fr_arr a <= fr_dlv b ->
  total_fr fs * NS <= thr * (fr_dlv b - fr_arr a).
Proof.
  intros thr fs a b Hw Ha Hb Hall Hab. rewrite <- (win_bytes_all (fr_arr a) (fr_dlv b) fs Hall). apply Hw; assumption.
Qed.
Print Assumptions C05_trace_throughput_total.
