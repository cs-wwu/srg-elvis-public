(* C03 parts (b) and (c) - property theorems only.  Same closed system and hypotheses as C01. *)
From Elvis Require Import Model.Base Model.U32 Model.Tcb Model.TcpNet
  Proofs.TcbSafetyDefs Proofs.TcbSafetyThms Proofs.TcbLiveThm Proofs.TcbLiveEnd Proofs.TcbLiveWinRound
  Proofs.TcbLiveCloseSys Proofs.TcbLiveClose2Sys Proofs.TcbLiveWin Proofs.TcbLiveFinData Proofs.TcbLiveFinDataSys Proofs.TcbLiveClose3Sys.
Local Open Scope Z_scope.

(* (b) when both sides are synchronised, each side's IRS is the peer's ISS and its next expected
   sequence number lies between the peer's ISS+1 and the peer's SND.NXT (distances measured
   from ISS+1, all below 2^31), i.e. it equals what the peer has sent *)
Theorem C03_sync : forall (c : config) (b : bool) (ls : list label) (x : side) (t t' : tcb),
  u32 (issA c) -> u32 (issB c) -> 100 <= mtuA c <= 65535 -> 100 <= mtuB c <= 65535 ->
  closed_trace ls ->
  let s := run c (init_sys b) ls in
  zlen (subA s) < 2 ^ 31 - 2 ^ 17 -> zlen (subB s) < 2 ^ 31 - 2 ^ 17 ->
  end_of s x = ELive t -> end_of s (other x) = ELive t' ->
  st t <> SynSent -> st t <> SynReceived -> st t' <> SynSent -> st t' <> SynReceived ->
  let peer_base := wadd (iss_of c (other x)) 1 in
  rcv_irs t = iss_of c (other x) /\
  wsub (rcv_nxt t) peer_base <= wsub (snd_nxt t') peer_base /\
  wsub (snd_nxt t') peer_base <= zlen (sub_of s (other x)) + 1.
Proof. intros. eapply inv_sync; [eapply reach| | |]; eassumption. Qed.
Print Assumptions C03_sync.

(* (c) in every state in which an endpoint has consumed the peer's FIN, everything the peer ever
   submitted has been handed to (or is buffered for) the application, and the peer cannot
   submit more *)
Theorem C03_data_before_fin : forall (c : config) (b : bool) (ls : list label) (y : side) (t : tcb),
  u32 (issA c) -> u32 (issB c) -> 100 <= mtuA c <= 65535 -> 100 <= mtuB c <= 65535 ->
  closed_trace ls ->
  let s := run c (init_sys b) ls in
  zlen (subA s) < 2 ^ 31 - 2 ^ 17 -> zlen (subB s) < 2 ^ 31 - 2 ^ 17 ->
  end_of s y = ELive t ->
  (st t = CloseWait \/ st t = Closing \/ st t = LastAck \/ st t = TimeWait) ->
  delivered s y ++ in_text t = sub_of s (other y) /\
  match end_of s (other y) with
  | ELive t' => accepts_send (st t') = false
  | EDead => True
  | _ => False
  end.
Proof.
  intros c b ls y t H1 H2 H3 H4 Hcl s Ha Hb El Hst. apply fin_consumed_iff in Hst.
  destruct (inv_data_before_fin c s y t (reach c b ls H1 H2 H3 H4 Hcl Ha Hb) El Hst) as [A B].
  split; [exact A|destruct (end_of s (other y)); auto; apply B].
Qed.
Print Assumptions C03_data_before_fin.

(* (d), PARTIAL: release after both sides have closed.  [close_trace] = A closes, one loss-free
   round, B closes, two loss-free rounds, then A's 2*MSL timer expires (LTick SA 2001).  From EVERY
   quiescent state both endpoints are released (B by the final ACK of its FIN in LAST-ACK, A by the
   2*MSL wait in TIME-WAIT), nothing is left in flight, nothing was reset, and no data is lost.
   Missing for the full clause (see also the simultaneous close below): B closing first, closes
   with data still queued or in flight, and arbitrary fair schedules. *)
Theorem C03_release_sequential_partial : forall (c : config) (s : sys) (a b : Z),
  Quiescent c s a b ->
  let s' := run c s close_trace in
  endA s' = EDead /\ endB s' = EDead /\ netA s' = [] /\ netB s' = [] /\ panicked s' = false /\
  subA s' = subA s /\ subB s' = subB s /\ delivered s' SA = delivered s SA /\ delivered s' SB = delivered s SB.
Proof. intros c s a b HQ s'. subst s'. unfold close_trace. rewrite (close_sequential c s a b HQ). cbn. auto 10. Qed.
Print Assumptions C03_release_sequential_partial.

(* the whole life of a connection, for every configuration: open (passive or simultaneous), any
   sequence of writes of any size in both directions (each followed by its loss-free rounds), then
   the closing sequence: both endpoints are released and every byte written was delivered to the
   peer application exactly once and in order *)
Theorem C03_connection_lifecycle_partial :
  forall (c : config) (listenB : bool) (ws : list (side * list Z)),
  u32 (issA c) -> u32 (issB c) -> 100 <= mtuA c <= 65535 -> 100 <= mtuB c <= 65535 ->
  (forall w, In w ws -> 0 < zlen (snd w)) ->
  let s := run c (init_sys listenB) (open_trace listenB ++ any_write_trace ws ++ close_trace) in
  endA s = EDead /\ endB s = EDead /\ netA s = [] /\ netB s = [] /\ panicked s = false /\
  forall x, sub_of s x = concat (chunks x ws) /\ delivered s (other x) = concat (chunks x ws).
Proof. intros c l ws H1 H2 H3 H4 _. exact (lifecycle c l ws close_trace H1 H2 H3 H4 (close_sequential c)). Qed.
Print Assumptions C03_connection_lifecycle_partial.

(* (d), simultaneous close: [close_both_trace] = both sides close, two loss-free rounds, then both
   2*MSL timers expire.  Both endpoints go FIN-WAIT-1 -> CLOSING -> TIME-WAIT (at A the ACKs of its
   FIN overtake B's FIN, wait in the reassembly heap and are processed right after the FIN) and are
   released by the 2*MSL wait, from EVERY quiescent state; nothing is reset, lost or left in flight. *)
Theorem C03_release_simultaneous_partial : forall (c : config) (s : sys) (a b : Z),
  Quiescent c s a b ->
  let s' := run c s close_both_trace in
  endA s' = EDead /\ endB s' = EDead /\ netA s' = [] /\ netB s' = [] /\ panicked s' = false /\
  subA s' = subA s /\ subB s' = subB s /\ delivered s' SA = delivered s SA /\ delivered s' SB = delivered s SB.
Proof. intros c s a b HQ s'. subst s'. unfold close_both_trace. rewrite (close_simultaneous c s a b HQ). cbn. auto 10. Qed.
Print Assumptions C03_release_simultaneous_partial.

Theorem C03_connection_lifecycle_simultaneous_partial :
  forall (c : config) (listenB : bool) (ws : list (side * list Z)),
  u32 (issA c) -> u32 (issB c) -> 100 <= mtuA c <= 65535 -> 100 <= mtuB c <= 65535 ->
  (forall w, In w ws -> 0 < zlen (snd w)) ->
  let s := run c (init_sys listenB) (open_trace listenB ++ any_write_trace ws ++ close_both_trace) in
  endA s = EDead /\ endB s = EDead /\ netA s = [] /\ netB s = [] /\ panicked s = false /\
  forall x, sub_of s x = concat (chunks x ws) /\ delivered s (other x) = concat (chunks x ws).
Proof. intros c l ws H1 H2 H3 H4 _. exact (lifecycle c l ws close_both_trace H1 H2 H3 H4 (close_simultaneous c)). Qed.
Print Assumptions C03_connection_lifecycle_simultaneous_partial.

(* (c) at system level, with an explicit trace: side x writes up to one window of bytes and closes AT
   ONCE, while the text is still queued (the TCB goes to FIN-WAIT-1 with the FIN deferred).  One
   emission puts on the wire a flight of contiguous data segments ([flight]: plain ACK headers, no
   FIN bit, sequence numbers from p) carrying exactly the written bytes, FOLLOWED by a single FIN
   whose sequence number is p + n, right after the last byte.  After in-order delivery and a read,
   the peer's application has received every byte, the peer is in CLOSE-WAIT with RCV.NXT = p + n + 1
   (data and FIN consumed, in that order) and nothing is left in the network or the reassembly heap.
   From EVERY quiescent state, either side.  (Partial w.r.t. the whole close: the way back - the
   peer's ACKs, FIN-WAIT-2, the peer's own close and the release of both TCBs - is proved only for a
   close issued with nothing queued, see C03_release_* (A first, both at once, B first).) *)
Theorem C03_close_with_queued_data_partial : forall (c : config) (s : sys) (a b : Z) (x : side) (bytes : list Z),
  Quiescent c s a b -> 0 < zlen bytes <= 65535 ->
  let n := zlen bytes in
  let p := sel x a b in
  let q := sel x b a in
  let s1 := run c s [LSend x bytes; LClose x; LEmit x] in
  let s2 := run c s1 (repeat (LDeliver x 0) (length (net_of s1 x)) ++ [LRecv (other x)]) in
  (exists lp rp segs, net_of s1 x = segs ++ [mkSeg (fin_hdr lp rp (wadd p n) q) []] /\
      flight lp rp q p segs /\ flight_bytes segs = bytes) /\
  (exists tx ty, end_of s2 x = ELive tx /\ end_of s2 (other x) = ELive ty /\
      st tx = FinWait1 /\ snd_una tx = p /\ snd_nxt tx = wadd (wadd p n) 1 /\ out_text tx = [] /\
      st ty = CloseWait /\ rcv_nxt ty = wadd (wadd p n) 1 /\ in_text ty = [] /\ in_segs ty = []) /\
  net_of s2 x = [] /\ net_of s2 (other x) = [] /\ panicked s2 = false /\
  sub_of s2 x = sub_of s x ++ bytes /\ sub_of s2 (other x) = sub_of s (other x) /\
  delivered s2 (other x) = delivered s (other x) ++ bytes /\ delivered s2 x = delivered s x.
Proof. exact close_after_write. Qed.
Print Assumptions C03_close_with_queued_data_partial.

(* (d), B closes first: [close_trace_B] = [LClose SB; LFair 1; LClose SA; LFair 2; LTick SB 2001].
   Not the mirror image of C03_release_sequential_partial, because in every round A's half still runs
   first: A (ESTABLISHED -> CLOSE-WAIT -> LAST-ACK) sends the two ACKs of B's FIN and its own FIN with
   its copy in ONE emission, so B goes FIN-WAIT-1 -> FIN-WAIT-2 -> TIME-WAIT within a single half-round;
   B's ACKs then delete A's TCB, and B is released by its 2*MSL timer.  From EVERY quiescent state. *)
Theorem C03_release_B_first_partial : forall (c : config) (s : sys) (a b : Z),
  Quiescent c s a b ->
  let s' := run c s close_trace_B in
  endA s' = EDead /\ endB s' = EDead /\ netA s' = [] /\ netB s' = [] /\ panicked s' = false /\
  subA s' = subA s /\ subB s' = subB s /\ delivered s' SA = delivered s SA /\ delivered s' SB = delivered s SB.
Proof. intros c s a b HQ s'. subst s'. unfold close_trace_B. rewrite (close_sequential_B c s a b HQ). cbn. auto 10. Qed.
Print Assumptions C03_release_B_first_partial.

Theorem C03_connection_lifecycle_B_first_partial :
  forall (c : config) (listenB : bool) (ws : list (side * list Z)),
  u32 (issA c) -> u32 (issB c) -> 100 <= mtuA c <= 65535 -> 100 <= mtuB c <= 65535 ->
  (forall w, In w ws -> 0 < zlen (snd w)) ->
  let s := run c (init_sys listenB) (open_trace listenB ++ any_write_trace ws ++ close_trace_B) in
  endA s = EDead /\ endB s = EDead /\ netA s = [] /\ netB s = [] /\ panicked s = false /\
  forall x, sub_of s x = concat (chunks x ws) /\ delivered s (other x) = concat (chunks x ws).
Proof. intros c l ws H1 H2 H3 H4 _. exact (lifecycle c l ws close_trace_B H1 H2 H3 H4 (close_sequential_B c)). Qed.
Print Assumptions C03_connection_lifecycle_B_first_partial.
