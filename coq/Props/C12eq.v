(* C12, equivariance part - property theorems only.  Each is closed by a lemma of
   Proofs/ or derived from general ones in a few lines; statements are pinned.

   Reading guide.  [trel dO dP t t'] (Proofs/TcbShift.v) says: t' is t with
   SND.UNA/NXT/ISS, the seq of every queued outgoing header and the ack of every
   queued incoming segment moved by dO, RCV.IRS/NXT and SND.WL1 (once the state
   is not SYN-SENT; before that they hold raw zeros), the seq of every queued
   incoming segment and the flagged ack of every outgoing header moved by dP,
   everything else equal - EXCEPT SND.WL2, which is unconstrained (see
   C12_wl2_plain_shift_refuted for why it has to be).  [srel dA dB s s'] lifts
   this to the two-endpoint system.
   [tinv]/[sinv] is a well-formedness invariant of the ORIGINAL run only (all
   sequence fields in u32 range; every SYN/ACK-bearing header advertises the
   constant window DEFAULT_WND); it is proved to hold from init_sys, so the
   trace theorems do not assume it.  [run_ok] says that no segment is delivered
   to a never-opened endpoint (its RST reply carries the literal seq 0, which is
   outside any connection) and that injected segments, if any, are [sok]. *)
From Elvis Require Import Model.Base Model.U32 Model.Tcb Model.TcpNet
  Proofs.U32Facts Proofs.TcbShift Proofs.TcbShiftInv Proofs.TcbShiftOps
  Proofs.TcbShiftNet Proofs.TcbShiftObs Proofs.TcbShiftEx.
Local Open Scope Z_scope.

(* every operation of Model/Tcb.v maps related TCBs and shifted arguments to
   related TCBs and shifted results *)
Theorem C12_tcb_ops_equivariant : forall dO dP,
  (forall lp rp iss m, trel dO dP (tcb_open lp rp iss m) (tcb_open lp rp (wadd iss dO) m)) /\
  (forall s iss m, sok s ->
     lrel dO dP (arrives_listen s iss m) (arrives_listen (sh_seg dP dO s) (wadd iss dO) m)) /\
  (forall t t' s, trel dO dP t t' -> tinv t -> sok s ->
     rrel (pp_rel dO dP) (process_segment t s) (process_segment t' (sh_seg dP dO s))) /\
  (forall t t' s, trel dO dP t t' -> tinv t -> sok s ->
     rrel (pa_rel dO dP) (segment_arrives t s) (segment_arrives t' (sh_seg dP dO s))) /\
  (forall t t' b, trel dO dP t t' -> trel dO dP (tcb_send t b) (tcb_send t' b)) /\
  (forall t t', trel dO dP t t' ->
     trel dO dP (fst (tcb_receive t)) (fst (tcb_receive t')) /\ snd (tcb_receive t') = snd (tcb_receive t)) /\
  (forall t t', trel dO dP t t' -> tinv t ->
     trel dO dP (fst (tcb_close t)) (fst (tcb_close t')) /\ snd (tcb_close t') = snd (tcb_close t)) /\
  (forall t t' dt, trel dO dP t t' ->
     trel dO dP (fst (advance_time t dt)) (fst (advance_time t' dt)) /\
     snd (advance_time t' dt) = snd (advance_time t dt)) /\
  (forall t t', trel dO dP t t' -> tinv t -> rrel (ps_rel dO dP) (tcb_segments t) (tcb_segments t')).
Proof.
  intros dO dP. refine (conj (tcb_open_rel dO dP) (conj (arrives_listen_rel dO dP) (conj _ (conj _
    (conj (tcb_send_rel dO dP) (conj (tcb_receive_rel dO dP) (conj _ (conj (advance_time_rel dO dP) _)))))))); intros.
  - eapply rrel_rel, process_segment_ok; [split|]; eassumption.
  - eapply rrel_rel, segment_arrives_ok; [split|]; eassumption.
  - eapply rel_part, tcb_close_ok. split; eassumption.
  - eapply rrel_rel, tcb_segments_ok. split; eassumption.
Qed.
Print Assumptions C12_tcb_ops_equivariant.

(* the stages of process_segment, one by one *)
Theorem C12_tcb_stages_equivariant : forall dO dP,
  (forall t t' h, trel dO dP t t' -> tinv t -> hok h ->
     trel dO dP (fst (ps_ack t h)) (fst (ps_ack t' (sh_hdr dP dO h))) /\
     snd (ps_ack t' (sh_hdr dP dO h)) = snd (ps_ack t h)) /\
  (forall t t' h, trel dO dP t t' -> opsr_rel (ps_rst t h) (ps_rst t' (sh_hdr dP dO h))) /\
  (forall t t' h, trel dO dP t t' -> tinv t -> hok h ->
     trel dO dP (fst (ps_syn t h)) (fst (ps_syn t' (sh_hdr dP dO h))) /\
     snd (ps_syn t' (sh_hdr dP dO h)) = snd (ps_syn t h)) /\
  (forall t t' h text, trel dO dP t t' -> tinv t -> u32 (h_seq h) -> is_synsent (st t) = false ->
     rrel (trel dO dP) (ps_text t h text) (ps_text t' (sh_hdr dP dO h) text)) /\
  (forall t t' h n, trel dO dP t t' -> tinv t -> u32 (h_seq h) ->
     trel dO dP (ps_fin t h n) (ps_fin t' (sh_hdr dP dO h) n)) /\
  (forall t t', trel dO dP t t' -> tinv t -> trel dO dP (queue_pending_fin t) (queue_pending_fin t')).
Proof.
  intros dO dP. refine (conj _ (conj (ps_rst_rel dO dP) (conj _ (conj _ (conj _ _))))); intros.
  - eapply rel_part, ps_ack_ok; [split|]; eassumption.
  - eapply rel_part, ps_syn_ok; [split|]; eassumption.
  - eapply rrel_rel, ps_text_ok; [split| |]; eassumption.
  - eapply ps_fin_ok; [split|]; eassumption.
  - eapply queue_pending_fin_ok. split; eassumption.
Qed.
Print Assumptions C12_tcb_stages_equivariant.

(* with a valid SND.WL2 the window update is exactly equivariant, whatever
   windows the segments advertise (no appeal to the constant window) *)
Theorem C12_ack_est_exact : forall dO dP g t h,
  wl_valid dO dP g t -> g_nxt g = wadd (rcv_nxt t) dP ->
  u32 (snd_una t) -> u32 (snd_nxt t) -> u32 (snd_wl1 t) -> u32 (snd_wl2 t) ->
  u32 (h_ack h) -> u32 (h_seq h) -> c_ack (h_ctl h) = true ->
  exists g', ack_est (gsh dO dP g t) (sh_hdr dP dO h) = (gsh dO dP g' (fst (ack_est t h)), snd (ack_est t h)) /\
             wl_valid dO dP g' (fst (ack_est t h)) /\ g_irs g' = g_irs g /\ g_nxt g' = g_nxt g.
Proof. intros. eapply ack_est_wl_valid; eassumption. Qed.
Print Assumptions C12_ack_est_exact.

(* the invariant assumed of the original TCB is established and preserved *)
Theorem C12_tinv_preserved :
  (forall lp rp iss m, u32 iss -> tinv (tcb_open lp rp iss m)) /\
  (forall s iss m t, u32 iss -> sok s -> arrives_listen s iss m = LTcb t -> tinv t) /\
  (forall t s t1 r, tinv t -> sok s -> segment_arrives t s = Ok (t1, r) -> tinv t1) /\
  (forall t b, tinv t -> tinv (tcb_send t b)) /\
  (forall t, tinv t -> tinv (fst (tcb_receive t))) /\
  (forall t, tinv t -> tinv (fst (tcb_close t))) /\
  (forall t dt, tinv t -> tinv (fst (advance_time t dt))) /\
  (forall t t1 out, tinv t -> tcb_segments t = Ok (t1, out) -> tinv t1 /\ Forall sok out).
Proof.
  refine (conj tinv_tcb_open (conj tinv_arrives_listen (conj _ (conj tinv_tcb_send (conj tinv_tcb_receive
    (conj _ (conj tinv_advance_time _))))))).
  - intros t s t1 r Hi Hs. apply (rrel_inv _ _ _ _ (segment_arrives_ok 0 0 _ _ s (trok_self t Hi) Hs) (t1, r)).
  - intros t Hi. apply (inv_part (tcb_close_ok 0 0 _ _ (trok_self t Hi))).
  - intros t t1 out Hi. apply (rrel_inv _ _ _ _ (tcb_segments_ok 0 0 _ _ (trok_self t Hi)) (t1, out)).
Qed.
Print Assumptions C12_tinv_preserved.

(* one system step *)
Theorem C12_equivariance : forall dA dB c s s' l,
  srel dA dB s s' -> sinv c s -> lbl_ok s l ->
  srel dA dB (fst (sys_step c s l)) (fst (sys_step (shift_cfg dA dB c) s' (shift_label dA dB l))) /\
  snd (sys_step (shift_cfg dA dB c) s' (shift_label dA dB l)) = shift_obs dA dB l (snd (sys_step c s l)) /\
  sinv c (fst (sys_step c s l)).
Proof.
  intros dA dB c s s' l HR Hi Hok.
  destruct (sys_step_ok dA dB c s s' l (mkSrok _ _ _ _ _ HR Hi) Hok) as [[A C] B]. auto.
Qed.
Print Assumptions C12_equivariance.

(* every trace from the initial state, any pair of ISNs, any pair of shifts:
   related after every prefix, and the observation lists agree up to the shift *)
Theorem C12_trace : forall c dA dB listenB ls,
  u32 (issA c) -> u32 (issB c) -> run_ok c (init_sys listenB) ls ->
  let c' := shift_cfg dA dB c in
  let ls' := map (shift_label dA dB) ls in
  (forall n, srel dA dB (run c (init_sys listenB) (firstn n ls)) (run c' (init_sys listenB) (firstn n ls'))) /\
  run_obs c' (init_sys listenB) ls' = shift_obs_list dA dB ls (run_obs c (init_sys listenB) ls).
Proof.
  intros c dA dB b ls HA HB Hok. pose proof (srok_init dA dB c b HA HB) as H. cbv zeta.
  split; [intros n; rewrite firstn_map|]; apply (trace_ok dA dB c); auto using run_ok_firstn.
Qed.
Print Assumptions C12_trace.

(* observables: the ISN-relative normal form of the whole system state and of
   every emitted segment is identical; delivered and submitted bytes, endpoint
   states, the panic flag are equal; in-flight segments are the shifted ones *)
Theorem C12_observables : forall c dA dB listenB ls,
  u32 (issA c) -> u32 (issB c) -> run_ok c (init_sys listenB) ls ->
  let c' := shift_cfg dA dB c in
  let ls' := map (shift_label dA dB) ls in
  let s := run c (init_sys listenB) ls in
  let s' := run c' (init_sys listenB) ls' in
  nz_sys c' s' = nz_sys c s /\
  nz_obs_list c' ls' (run_obs c' (init_sys listenB) ls') = nz_obs_list c ls (run_obs c (init_sys listenB) ls) /\
  (forall x, delivered s' x = delivered s x /\ sub_of s' x = sub_of s x /\
             ep_state (end_of s' x) = ep_state (end_of s x) /\
             net_of s' x = map (sh_seg (dsh dA dB x) (dsh dA dB (other x))) (net_of s x)) /\
  panicked s' = panicked s.
Proof.
  intros c dA dB b ls HA HB Hok. cbv zeta.
  destruct (trace_ok dA dB c ls _ _ (srok_init dA dB c b HA HB) Hok) as [[A _] B].
  rewrite B. destruct (srel_observables dA dB c _ _ A) as (O1 & O2 & O3). auto using nz_obs_list_shift.
Qed.
Print Assumptions C12_observables.

(* closed-system traces (no LInject): the very same label list drives both runs *)
Theorem C12_closed_traces : forall c dA dB listenB ls,
  u32 (issA c) -> u32 (issB c) -> forallb closed_label ls = true ->
  run_ok c (init_sys listenB) ls ->
  let c' := shift_cfg dA dB c in
  (forall n, srel dA dB (run c (init_sys listenB) (firstn n ls)) (run c' (init_sys listenB) (firstn n ls))) /\
  nz_sys c' (run c' (init_sys listenB) ls) = nz_sys c (run c (init_sys listenB) ls) /\
  nz_obs_list c' ls (run_obs c' (init_sys listenB) ls) = nz_obs_list c ls (run_obs c (init_sys listenB) ls).
Proof.
  intros c dA dB b ls HA HB Hcl Hok.
  destruct (C12_trace c dA dB b ls HA HB Hok) as [T _]. destruct (C12_observables c dA dB b ls HA HB Hok) as (O1 & O2 & _).
  cbv zeta in *. rewrite (shift_label_closed dA dB ls Hcl) in *. auto.
Qed.
Print Assumptions C12_closed_traces.

(* the hypotheses are satisfiable on a wrap-forcing pair of ISNs ... *)
Example C12_example_hyps :
  u32 (issA exC) /\ u32 (issB exC) /\ forallb closed_label exT = true /\ run_ok exC (init_sys true) exT.
Proof. exact ex_hyps. Qed.
Print Assumptions C12_example_hyps.

(* ... both runs evaluated separately give the same ISN-relative views ... *)
Example C12_example_agree :
  nz_sys (shift_cfg ex_dA ex_dB exC) (run (shift_cfg ex_dA ex_dB exC) (init_sys true) exT) =
  nz_sys exC (run exC (init_sys true) exT) /\
  nz_obs_list (shift_cfg ex_dA ex_dB exC) exT (run_obs (shift_cfg ex_dA ex_dB exC) (init_sys true) exT) =
  nz_obs_list exC exT (run_obs exC (init_sys true) exT).
Proof. exact ex_agree. Qed.
Print Assumptions C12_example_agree.

(* ... and the original run really wraps while the shifted one does not *)
Example C12_example_wraps :
  option_map (fun t => (snd_iss t, snd_una t, snd_nxt t)) (live (endA (run exC (init_sys true) (firstn 10 exT)))) =
    Some (4294967290, 4294967291, 5) /\
  option_map (fun t => (snd_iss t, snd_una t, snd_nxt t))
             (live (endA (run (shift_cfg ex_dA ex_dB exC) (init_sys true) (firstn 10 exT)))) =
    Some (94, 95, 105) /\
  delivered (run exC (init_sys true) exT) SB = [1;2;3;4;5;6;7;8;9;10] /\
  delivered (run (shift_cfg ex_dA ex_dB exC) (init_sys true) exT) SB = [1;2;3;4;5;6;7;8;9;10] /\
  delivered (run exC (init_sys true) exT) SA = [7;7] /\
  panicked (run exC (init_sys true) exT) = false.
Proof. exact ex_wraps. Qed.
Print Assumptions C12_example_wraps.

(* A plain functional shift of the whole TCB is NOT preserved: SND.WL2 takes the
   raw ack field of an ACK-less SYN (tcb.rs l.539-540, l.870-871) and the
   comparison at l.716-717 then depends on the absolute ISN.  Closed-system
   trace, simultaneous open, close in SYN-RECEIVED, peer's SYN-ACK: SND.WL2 is 6
   with ISS 5 but stays 0 with ISS 3000000000.  SND.WND is 65535 either way (the
   stack never advertises another window), so nothing observable differs. *)
Theorem C12_wl2_plain_shift_refuted :
  u32 (issA wC) /\ u32 (issB wC) /\ forallb closed_label wT = true /\ run_ok wC (init_sys false) wT /\
  option_map (fun t => (st t, snd_wl1 t, snd_wl2 t, snd_wnd t))
             (live (endA (run wC (init_sys false) wT))) = Some (FinWait1, 77, 6, 65535) /\
  option_map (fun t => (st t, snd_wl1 t, snd_wl2 t, snd_wnd t))
             (live (endA (run (shift_cfg w_dA 0 wC) (init_sys false) wT))) = Some (FinWait1, 77, 0, 65535) /\
  wadd 6 w_dA = 3000000001.
Proof. exact wl2_not_shifted. Qed.
Print Assumptions C12_wl2_plain_shift_refuted.
