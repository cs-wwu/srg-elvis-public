(* C08, part ARP / DNS / DHCP - property theorems only.  Each is closed by a lemma of
   Proofs/ or derived from general ones in a few lines; statements are pinned.

   decode : bytes -> result (value * unconsumed rest); a byte string is a
   [list Z] with [bytes bs = true]; X_wf are the value ranges of the Rust
   types plus the property's quantifier (48-bit MACs, DNS names without the
   0x20 delimiter, DHCP strings - valid UTF-8 because they are Strings -
   without the 0x00 terminator, rdlength = |rdata| which the public API
   maintains).  The DHCP theorems are about the decoder after
   .cache/codecapp/fix-dhcp.patch; on values and accepted strings it equals the
   decoder as it was (C14app.C14_dhcp_repair_conservative). *)
From Elvis Require Import Model.Base Model.AppBytes Model.Arp Model.Dns Model.Dhcp
  Proofs.AppBytesFacts Proofs.ArpFacts Proofs.DnsFacts Proofs.DhcpFacts.
Local Open Scope Z_scope.

(* ---- ARP ---- *)
Theorem C08_Arp_decode_encode : forall h rest, arp_wf h = true ->
  arp_from_bytes (arp_build h ++ rest) = Ok (h, rest).
Proof. exact arp_decode_encode. Qed.
Print Assumptions C08_Arp_decode_encode.

Example C08_Arp_wf_satisfiable :
  arp_wf (mkArp 65535 65535 255 255 Reply 281474976710655 4294967295 281474976710655 4294967295) = true.
Proof. reflexivity. Qed.

(* accepted strings: the consumed bytes are the encoding of the result, the
   result is in range, exactly 28 bytes are consumed *)
Theorem C08_Arp_encode_decode : forall bs h rest, bytes bs = true ->
  arp_from_bytes bs = Ok (h, rest) ->
  bs = arp_build h ++ rest /\ arp_wf h = true /\ bytes rest = true.
Proof. exact arp_encode_decode. Qed.
Print Assumptions C08_Arp_encode_decode.

Theorem C08_Arp_encode_decode_firstn : forall bs h rest, bytes bs = true ->
  arp_from_bytes bs = Ok (h, rest) ->
  arp_build h = firstn (length bs - length rest) bs /\ (length bs - length rest = 28)%nat.
Proof.
  intros bs h rest B H. destruct (arp_encode_decode bs h rest B H) as (E & _ & _).
  split; [exact (consumed_firstn _ _ _ E) | rewrite E at 1; rewrite app_length, arp_build_length; lia].
Qed.
Print Assumptions C08_Arp_encode_decode_firstn.

(* every value of the Rust type (Mac = u64): the MACs come back mod 2^48;
   outside the property's quantifier, recorded for completeness *)
Theorem C08_Arp_decode_encode_any_u64_mac : forall h rest, arp_repr h = true ->
  arp_from_bytes (arp_build h ++ rest) = Ok (arp_trunc h, rest).
Proof. exact arp_decode_encode_repr. Qed.
Print Assumptions C08_Arp_decode_encode_any_u64_mac.

Theorem C08_Arp_wide_mac_truncated :
  exists h, arp_repr h = true /\
            arp_from_bytes (arp_build h) = Ok (arp_trunc h, []) /\ arp_trunc h <> h.
Proof.
  exists (mkArp 1 2048 6 4 Request 281474976710656 0 0 0).
  split; [reflexivity|]. split; [vm_compute; reflexivity | vm_compute; discriminate].
Qed.
Print Assumptions C08_Arp_wide_mac_truncated.

(* ---- DNS ---- *)
Theorem C08_Dns_decode_encode : forall m rest, dns_wf m = true ->
  dns_from_bytes (dns_to_message m ++ rest) = Ok (m, rest).
Proof. exact dns_decode_encode. Qed.
Print Assumptions C08_Dns_decode_encode.

Example C08_Dns_wf_satisfiable :
  dns_wf (mkDnsMessage (mkDnsHeader 65535 65535 65535 65535 65535 65535)
            (mkDnsQuestion [255; 0; 33] 65535 65535)
            (mkDnsRr [] 65535 65535 4294967295 3 [32; 32; 255])) = true.
Proof. reflexivity. Qed.

Theorem C08_Dns_encode_decode : forall bs m rest, bytes bs = true ->
  dns_from_bytes bs = Ok (m, rest) ->
  bs = dns_to_message m ++ rest /\ dns_wf m = true /\ bytes rest = true.
Proof. exact dns_encode_decode. Qed.
Print Assumptions C08_Dns_encode_decode.

Theorem C08_Dns_encode_decode_firstn : forall bs m rest, bytes bs = true ->
  dns_from_bytes bs = Ok (m, rest) ->
  dns_to_message m = firstn (length bs - length rest) bs.
Proof. intros bs m rest B H. exact (consumed_firstn _ _ _ (proj1 (dns_encode_decode bs m rest B H))). Qed.
Print Assumptions C08_Dns_encode_decode_firstn.

(* the hypotheses of C08_Dns_decode_encode are needed *)
Theorem C08_Dns_delimiter_in_name_refuted :
  exists m, dns_from_bytes (dns_to_message m) <> Ok (m, []) /\
            dns_question_wf (m_question m) = false.
Proof.
  exists (mkDnsMessage (mkDnsHeader 0 0 0 0 0 0) (mkDnsQuestion [97; 32; 98] 1 1) (mkDnsRr [] 1 1 0 0 [])).
  split; [vm_compute; discriminate | reflexivity].
Qed.
Print Assumptions C08_Dns_delimiter_in_name_refuted.

Theorem C08_Dns_rdlength_mismatch_refuted :
  exists m, dns_from_bytes (dns_to_message m) <> Ok (m, []) /\ dns_rr_wf (m_answer m) = false.
Proof.
  exists (mkDnsMessage (mkDnsHeader 0 0 0 0 0 0) (mkDnsQuestion [] 1 1) (mkDnsRr [] 1 1 0 0 [7])).
  split; [vm_compute; discriminate | reflexivity].
Qed.
Print Assumptions C08_Dns_rdlength_mismatch_refuted.

(* ---- DHCP ---- *)
Theorem C08_Dhcp_decode_encode : forall h rest, dhcp_wf h = true ->
  dhcp_from_bytes (dhcp_to_message h ++ rest) = Ok (h, rest).
Proof. exact dhcp_decode_encode. Qed.
Print Assumptions C08_Dhcp_decode_encode.

Example C08_Dhcp_wf_satisfiable :
  dhcp_wf (mkDhcp 255 255 255 255 4294967295 65535 255 4294967295 4294967295 4294967295
             4294967295 65535 [83; 195; 169] [] Release) = true.
Proof. reflexivity. Qed.

Theorem C08_Dhcp_encode_decode : forall bs h rest, bytes bs = true ->
  dhcp_from_bytes bs = Ok (h, rest) ->
  bs = dhcp_to_message h ++ rest /\ dhcp_wf h = true /\ bytes rest = true.
Proof. exact dhcp_encode_decode. Qed.
Print Assumptions C08_Dhcp_encode_decode.

Theorem C08_Dhcp_encode_decode_firstn : forall bs h rest, bytes bs = true ->
  dhcp_from_bytes bs = Ok (h, rest) ->
  dhcp_to_message h = firstn (length bs - length rest) bs.
Proof. intros bs h rest B H. exact (consumed_firstn _ _ _ (proj1 (dhcp_encode_decode bs h rest B H))). Qed.
Print Assumptions C08_Dhcp_encode_decode_firstn.

Theorem C08_Dhcp_terminator_in_string_refuted :
  exists h, dhcp_from_bytes (dhcp_to_message h) <> Ok (h, []) /\ free_of 0 (h_sname h) = false.
Proof.
  exists (mkDhcp 1 1 1 1 0 0 0 0 0 0 0 0 [97; 0; 98] [] Discover).
  split; [vm_compute; discriminate | reflexivity].
Qed.
Print Assumptions C08_Dhcp_terminator_in_string_refuted.
