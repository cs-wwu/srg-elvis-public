(* C01 - property theorems only.  Each is closed by a lemma of Proofs/ or derived from general ones in a few lines; statements are pinned.
   The system: Model/TcpNet.v (two endpoints of Model/Tcb.v, two in-flight multisets,
   application histories).  [closed_trace] = no forged segments (LInject): the network only
   drops, duplicates, reorders and delays what the two endpoints emitted.
   The 2^31 - 2^17 bound on each submitted stream is part of the theorem: with a 32-bit
   sequence space and unbounded duplication/delay the statement is false without it. *)
From Elvis Require Import Model.Base Model.U32 Model.Tcb Model.TcpNet
  Proofs.TcbSafetyDefs Proofs.TcbSafetyEx Proofs.TcbSafetyThms Proofs.TcbLiveSys Proofs.TcbLiveThm Proofs.TcbLiveEnd Proofs.TcbLiveWinRound Proofs.TcbLiveLossRound Proofs.TcbHeap Proofs.TcbLiveAckRound.
From Coq Require Import Permutation.
Local Open Scope Z_scope.

(* safety: in every reachable state of every closed trace (any interleaving of open / write /
   read / close / timer / emit / deliver-any / drop / dup / fair rounds; any write sizes; any
   ISNs; any MTUs >= 100) the implementation has not panicked and, in both directions at once,
   what was handed to the receiving application is a prefix of what the sender submitted *)
Theorem C01_safety : forall (c : config) (b : bool) (ls : list label),
  u32 (issA c) -> u32 (issB c) -> 100 <= mtuA c <= 65535 -> 100 <= mtuB c <= 65535 ->
  closed_trace ls ->
  let s := run c (init_sys b) ls in
  zlen (subA s) < 2 ^ 31 - 2 ^ 17 -> zlen (subB s) < 2 ^ 31 - 2 ^ 17 ->
  panicked s = false /\
  (exists rest, subA s = delivered s SB ++ rest) /\
  (exists rest, subB s = delivered s SA ++ rest).
Proof. intros. eapply inv_safety, reach; eassumption. Qed.
Print Assumptions C01_safety.

(* the sender half of the invariant, for every live endpoint of a reachable state: unsent text
   is a suffix of the submitted stream, SND.NXT counts exactly the bytes put into segments (+1
   once the FIN is queued), and every text-bearing segment in the retransmission queue or in
   flight carries the slice of the stream at its sequence number *)
Theorem C01_sender_consistent : forall (c : config) (b : bool) (ls : list label) (x : side) (t : tcb),
  u32 (issA c) -> u32 (issB c) -> 100 <= mtuA c <= 65535 -> 100 <= mtuB c <= 65535 ->
  closed_trace ls ->
  let s := run c (init_sys b) ls in
  zlen (subA s) < 2 ^ 31 - 2 ^ 17 -> zlen (subB s) < 2 ^ 31 - 2 ^ 17 ->
  end_of s x = ELive t ->
  let S := sub_of s x in
  let sent := zlen S - zlen (out_text t) in
  snd_iss t = iss_of c x /\
  0 <= sent /\ out_text t = skipn (Z.to_nat sent) S /\
  snd_nxt t = wadd (wadd (iss_of c x) 1) (sent + b2z (finq t)) /\
  (forall seg, In seg (map t_seg (retx t) ++ net_of s x) -> s_text seg <> [] ->
     let off := wsub (h_seq (s_hdr seg)) (wadd (iss_of c x) 1) in
     s_text seg = firstn (length (s_text seg)) (skipn (Z.to_nat off) S) /\
     off + zlen (s_text seg) <= sent /\
     c_syn (h_ctl (s_hdr seg)) = false /\ c_fin (h_ctl (s_hdr seg)) = false).
Proof. intros. eapply inv_sender; [eapply reach|]; eassumption. Qed.
Print Assumptions C01_sender_consistent.

(* the hypotheses are satisfiable and data gets through: a concrete trace with a handshake,
   a write in SYN-RECEIVED, three writes, a lost and a duplicated segment, out-of-order
   delivery, late reads and a retransmission (ISS of A wraps during the transfer) *)
Theorem C01_example :
  u32 (issA ex_cfg) /\ u32 (issB ex_cfg) /\ 100 <= mtuA ex_cfg <= 65535 /\ 100 <= mtuB ex_cfg <= 65535 /\
  closed_trace ex_trace /\
  zlen (subA ex_final) < 2 ^ 31 - 2 ^ 17 /\ zlen (subB ex_final) < 2 ^ 31 - 2 ^ 17 /\
  length (delivered ex_mid SB) = 50%nat /\ delivered ex_mid SB = firstn 50 (subA ex_mid) /\
  length (subA ex_final) = 140%nat /\ delivered ex_final SB = subA ex_final /\
  length (subB ex_final) = 30%nat /\ delivered ex_final SA = subB ex_final.
Proof. exact example_explicit. Qed.
Print Assumptions C01_example.

(* ---- liveness: PARTIAL.  What is proved, for all ISNs, MTUs and contents:
   [Quiescent c s a b] (Proofs/TcbLiveThm.v) = both endpoints ESTABLISHED with nothing unsent,
   nothing unacknowledged (SND.UNA = SND.NXT = a at A, = b at B; RCV.NXT of the peer equal to it),
   empty reassembly heap / receive buffer / ACK queue, timers at rest, nothing in flight.
   From such a state, any sequence of application writes in either direction, each of at most one
   MSS (mtu - 50) and each followed by two loss-free rounds [LFair 2] (= one retransmission
   timeout per side and round), ends in a quiescent state again with every written byte delivered
   to the peer application exactly once and in order.
   What is missing for the full property (kept as the Definition [C01_liveness_full_stmt], not
   claimed): writes larger than one MSS / one window in a single round, convergence from arbitrary
   reachable states (retransmission queue / heap / window in arbitrary condition), arbitrary fair
   schedules instead of the canonical round. *)
Theorem C01_liveness_partial : forall (c : config) (ws : list (side * list Z)) (s : sys) (a b : Z),
  Quiescent c s a b ->
  (forall w, In w ws -> 0 < zlen (snd w) <= mtu_of c (fst w) - 50) ->
  let s' := run c s (write_trace ws) in
  (exists a' b', Quiescent c s' a' b') /\
  forall x, sub_of s' x = sub_of s x ++ concat (chunks x ws) /\
            delivered s' (other x) = delivered s (other x) ++ concat (chunks x ws).
Proof.
  intros c ws s a b HQ Hw. destruct (quiescent_mtu c s a b HQ) as [MA MB].
  rewrite (write_trace_mss c ws MA MB Hw). exact (writes_delivered_any c ws s a b HQ).
Qed.
Print Assumptions C01_liveness_partial.

(* a quiescent system has everything acknowledged and both endpoints have stopped transmitting:
   segments() returns nothing, also after the retransmission timer has expired *)
Theorem C01_quiescent_silent : forall (c : config) (s : sys) (a b : Z) (x : side) (t : tcb),
  Quiescent c s a b -> end_of s x = ELive t ->
  st t = Established /\ retx t = [] /\ out_text t = [] /\ oneshot t = [] /\ snd_una t = snd_nxt t /\
  net_of s x = [] /\
  exists t', tcb_segments t = Ok (t', []) /\
  exists t'', tcb_segments (fst (advance_time t' 101)) = Ok (t'', []).
Proof. intros c s a b x t. exact (quiescent_silent c s a b x t 101). Qed.
Print Assumptions C01_quiescent_silent.

(* in every reachable quiescent state everything submitted has been delivered (safety invariant
   + sequence numbers), whatever happened before *)
Theorem C01_quiescent_delivered : forall (c : config) (bl : bool) (ls : list label) (a b : Z),
  u32 (issA c) -> u32 (issB c) -> 100 <= mtuA c <= 65535 -> 100 <= mtuB c <= 65535 ->
  closed_trace ls ->
  let s := run c (init_sys bl) ls in
  zlen (subA s) < 2 ^ 31 - 2 ^ 17 -> zlen (subB s) < 2 ^ 31 - 2 ^ 17 ->
  Quiescent c s a b ->
  delivered s SB = subA s /\ delivered s SA = subB s.
Proof. exact quiescent_delivered_explicit. Qed.
Print Assumptions C01_quiescent_delivered.

(* quiescent states are reachable (hs_state = three-way handshake = LOpen; LFair 2 on the example
   configuration) and the hypotheses of C01_liveness_partial are satisfiable: handshake, then
   writes of 50 (= one MSS at A), 37, 1 and 1450 (= one MSS at B) bytes in alternating directions *)
Theorem C01_liveness_example :
  closed_trace (hs_trace ++ write_trace ex_writes) /\
  (forall w, In w ex_writes -> 0 < zlen (snd w) <= mtu_of ex_cfg (fst w) - 50) /\
  Quiescent ex_cfg hs_state (wadd (issA ex_cfg) 1) (wadd (issB ex_cfg) 1) /\
  let s := run ex_cfg (init_sys true) (hs_trace ++ write_trace ex_writes) in
  (exists a b, Quiescent ex_cfg s a b) /\
  delivered s SB = subA s /\ delivered s SA = subB s /\
  length (subA s) = 51%nat /\ length (subB s) = 1487%nat.
Proof. exact liveness_example_explicit. Qed.
Print Assumptions C01_liveness_example.

(* quiescent states are reachable for EVERY configuration: passive open (B listens, A opens) and
   simultaneous open (both open actively) complete within two loss-free rounds and leave both
   endpoints ESTABLISHED and quiescent with SND.NXT = ISS+1 on both sides
   ([open_trace true] = [LOpen SA; LFair 2], [open_trace false] = [LOpen SA; LOpen SB; LFair 2]) *)
Theorem C01_handshake_quiescent : forall (c : config) (listenB : bool),
  u32 (issA c) -> u32 (issB c) -> 100 <= mtuA c <= 65535 -> 100 <= mtuB c <= 65535 ->
  let s := run c (init_sys listenB) (open_trace listenB) in
  Quiescent c s (wadd (issA c) 1) (wadd (issB c) 1) /\
  subA s = [] /\ subB s = [] /\ delA s = [] /\ delB s = [].
Proof. exact handshake_explicit. Qed.
Print Assumptions C01_handshake_quiescent.

(* end to end, for every configuration: open, then any sequence of writes of at most one MSS in
   either direction, each followed by two loss-free rounds: every byte written is delivered to the
   peer application exactly once and in order, and the system is quiescent (everything
   acknowledged, both endpoints silent - C01_quiescent_silent) *)
Theorem C01_liveness_from_start_partial : forall (c : config) (listenB : bool) (ws : list (side * list Z)),
  u32 (issA c) -> u32 (issB c) -> 100 <= mtuA c <= 65535 -> 100 <= mtuB c <= 65535 ->
  (forall w, In w ws -> 0 < zlen (snd w) <= mtu_of c (fst w) - 50) ->
  let s := run c (init_sys listenB) (open_trace listenB ++ write_trace ws) in
  (exists a b, Quiescent c s a b) /\
  forall x, sub_of s x = concat (chunks x ws) /\ delivered s (other x) = concat (chunks x ws).
Proof.
  intros c l ws H1 H2 H3 H4 Hw. rewrite (write_trace_mss c ws (proj2 H3) (proj2 H4) Hw).
  exact (from_start_any c l ws H1 H2 H3 H4).
Qed.
Print Assumptions C01_liveness_from_start_partial.

(* writes of ANY size up to one window (65535 bytes, i.e. up to ceil(65535/MSS) segments per
   flight): from a quiescent state, any sequence of such writes in either direction, each followed
   by two loss-free rounds, is delivered exactly once and in order, everything is acknowledged and
   the system is quiescent again.  (Still partial w.r.t. the full property: writes above the window,
   lost segments, arbitrary fair schedules - see C01_liveness_full_stmt.) *)
Theorem C01_liveness_window_partial : forall (c : config) (ws : list (side * list Z)) (s : sys) (a b : Z),
  Quiescent c s a b ->
  (forall w, In w ws -> 0 < zlen (snd w) <= 65535) ->
  let s' := run c s (write_trace ws) in
  (exists a' b', Quiescent c s' a' b') /\
  forall x, sub_of s' x = sub_of s x ++ concat (chunks x ws) /\
            delivered s' (other x) = delivered s (other x) ++ concat (chunks x ws).
Proof.
  intros c ws s a b HQ Hw. rewrite (write_trace_any ws Hw). exact (writes_delivered_any c ws s a b HQ).
Qed.
Print Assumptions C01_liveness_window_partial.

(* the same end to end, for every configuration: open (passive or simultaneous), then any sequence
   of writes of up to one window *)
Theorem C01_liveness_from_start_window_partial :
  forall (c : config) (listenB : bool) (ws : list (side * list Z)),
  u32 (issA c) -> u32 (issB c) -> 100 <= mtuA c <= 65535 -> 100 <= mtuB c <= 65535 ->
  (forall w, In w ws -> 0 < zlen (snd w) <= 65535) ->
  let s := run c (init_sys listenB) (open_trace listenB ++ write_trace ws) in
  (exists a b, Quiescent c s a b) /\
  forall x, sub_of s x = concat (chunks x ws) /\ delivered s (other x) = concat (chunks x ws).
Proof.
  intros c l ws H1 H2 H3 H4 Hw. rewrite (write_trace_any ws Hw). exact (from_start_any c l ws H1 H2 H3 H4).
Qed.
Print Assumptions C01_liveness_from_start_window_partial.

(* writes of ARBITRARY size, including above the 64 KiB window: [any_write_trace] follows each
   write of n bytes by [rounds_for n] = ceil(n / 65535) + 1 loss-free rounds (one flight of at most
   65535 bytes per round).  From a quiescent state every byte of every write is delivered exactly
   once and in order, everything is acknowledged and the system is quiescent again.  The bound on
   the number of rounds (= retransmission timeouts per side) is explicit in the trace. *)
Theorem C01_liveness_any_size_partial : forall (c : config) (ws : list (side * list Z)) (s : sys) (a b : Z),
  Quiescent c s a b ->
  (forall w, In w ws -> 0 < zlen (snd w)) ->
  let s' := run c s (any_write_trace ws) in
  (exists a' b', Quiescent c s' a' b') /\
  forall x, sub_of s' x = sub_of s x ++ concat (chunks x ws) /\
            delivered s' (other x) = delivered s (other x) ++ concat (chunks x ws).
Proof. intros c ws s a b HQ _. exact (writes_delivered_any c ws s a b HQ). Qed.
Print Assumptions C01_liveness_any_size_partial.

Theorem C01_liveness_from_start_any_size_partial :
  forall (c : config) (listenB : bool) (ws : list (side * list Z)),
  u32 (issA c) -> u32 (issB c) -> 100 <= mtuA c <= 65535 -> 100 <= mtuB c <= 65535 ->
  (forall w, In w ws -> 0 < zlen (snd w)) ->
  let s := run c (init_sys listenB) (open_trace listenB ++ any_write_trace ws) in
  (exists a b, Quiescent c s a b) /\
  forall x, sub_of s x = concat (chunks x ws) /\ delivered s (other x) = concat (chunks x ws).
Proof. intros c l ws H1 H2 H3 H4 _. exact (from_start_any c l ws H1 H2 H3 H4). Qed.
Print Assumptions C01_liveness_from_start_any_size_partial.

(* loss recovered by the retransmission timeout: a write of up to one window is emitted
   ([LEmit]: nseg segments in flight), then the network loses the last j segments of the flight,
   for ANY j <= nseg - the tail, or the whole flight ([drops x nseg j] = j times "drop the last
   in-flight segment").  The retransmission timer fires in the next loss-free round, the whole
   flight is retransmitted, and after two rounds every byte has been delivered exactly once, in
   order, everything is acknowledged and the system is quiescent.  (Partial: losses in the middle
   of a flight go through the reassembly heap and are not covered; nor are lost ACKs.) *)
Theorem C01_liveness_tail_loss_partial : forall (c : config) (s : sys) (a b : Z) (x : side) (bytes : list Z),
  Quiescent c s a b -> 0 < zlen bytes <= 65535 ->
  let s1 := run c s [LSend x bytes; LEmit x] in
  let nseg := length (net_of s1 x) in
  forall j, (j <= nseg)%nat ->
  let s' := run c s1 (drops x nseg j ++ [LFair 2]) in
  (exists a' b', Quiescent c s' a' b') /\
  sub_of s' x = sub_of s x ++ bytes /\ sub_of s' (other x) = sub_of s (other x) /\
  delivered s' (other x) = delivered s (other x) ++ bytes /\ delivered s' x = delivered s x.
Proof.
  intros c s a b x bytes HQ Hn s1 nseg j _.
  destruct (loss_recovery c s a b x bytes _ HQ Hn (drops_is_drop x j nseg)) as (H & R). split; [eauto|exact R].
Qed.
Print Assumptions C01_liveness_tail_loss_partial.

(* ---- the reassembly heap (std BinaryHeap<Segment> transcribed in Model/Tcb.v), heaps of ANY size.
   [heap_ordered v]: every element is <= its parent in the model's order seg_le (reversed circular
   comparison of sequence numbers, so the root carries the smallest sequence number).
   [in_range base s]: the sequence number of s lies less than 2^31 after base - the circular order
   is a total preorder only on such a half-space, so this hypothesis is part of the theorems. *)
(* push (sift_up) keeps the heap ordered and adds exactly the pushed element *)
Theorem C01_heap_push_ordered : forall (base : Z) (v : list segment) (x : segment),
  Forall (in_range base) (x :: v) -> heap_ordered v ->
  heap_ordered (heap_push v x) /\ Permutation (x :: v) (heap_push v x).
Proof. exact heap_push_ordered. Qed.
Print Assumptions C01_heap_push_ordered.

(* pop (swap_remove, sift_down_to_bottom, sift_up) returns an element with the smallest sequence
   number (a maximum of the model's order) and leaves an ordered heap *)
Theorem C01_heap_pop_min : forall (base : Z) (v : list segment) (m : segment) (rest : list segment),
  Forall (in_range base) v -> heap_ordered v -> heap_pop v = Some (m, rest) ->
  (forall y, In y v -> seg_le y m = true /\ seg_key base m <= seg_key base y) /\
  heap_ordered rest.
Proof.
  intros base v m rest H1 H2 H3. destruct (heap_pop_ordered base v m rest H1 H2 H3) as (A & _ & C). auto.
Qed.
Print Assumptions C01_heap_pop_min.

(* pop preserves the multiset of elements (and fails only on the empty heap) *)
Theorem C01_heap_multiset : forall (base : Z) (v : list segment),
  Forall (in_range base) v -> heap_ordered v ->
  match heap_pop v with
  | Some (m, rest) => Permutation v (m :: rest)
  | None => v = []
  end.
Proof.
  intros base v _ _. destruct (heap_pop v) as [[m rest]|] eqn:E; [apply heap_pop_perm, E|apply heap_pop_none, E].
Qed.
Print Assumptions C01_heap_multiset.

(* one segment lost at an ARBITRARY position of the flight (index i < nseg, dropped by [LDrop x i]):
   the segments behind the gap are parked in the reassembly heap (any number of them - this uses
   the heap theorems above), the retransmission timer fires in the next loss-free round, the whole
   flight is retransmitted, the gap is filled and the heap is drained in sequence order; after two
   rounds every byte has been delivered exactly once and in order, everything is acknowledged and
   the system is quiescent.  (Partial w.r.t. the full property: an arbitrary SUBSET of the flight
   lost - more than one gap - is not covered; the tail case is C01_liveness_tail_loss_partial.) *)
Theorem C01_liveness_one_loss_partial : forall (c : config) (s : sys) (a b : Z) (x : side) (bytes : list Z),
  Quiescent c s a b -> 0 < zlen bytes <= 65535 ->
  let s1 := run c s [LSend x bytes; LEmit x] in
  let nseg := length (net_of s1 x) in
  forall i, (i < nseg)%nat ->
  let s' := run c s1 [LDrop x i; LFair 2] in
  (exists a' b', Quiescent c s' a' b') /\
  sub_of s' x = sub_of s x ++ bytes /\ sub_of s' (other x) = sub_of s (other x) /\
  delivered s' (other x) = delivered s (other x) ++ bytes /\ delivered s' x = delivered s x.
Proof.
  intros c s a b x bytes HQ Hn s1 nseg i _.
  destruct (loss_recovery c s a b x bytes [LDrop x i] HQ Hn) as (H & R); [repeat constructor; eexists; reflexivity|].
  split; [eauto|exact R].
Qed.
Print Assumptions C01_liveness_one_loss_partial.

(* lost ACKs: the whole flight is delivered in order ([LDeliver x 0], nseg times) and read by the
   application, the receiver emits its ACKs (exactly nseg of them) and EVERY one of them is dropped.
   In the next loss-free round the sender's retransmission timer fires and the whole flight is sent
   again; for the receiver all of it is old data: it is not delivered a second time, each copy is
   answered with a duplicate ACK, and the first of these - one cumulative ACK covering several
   segments - empties the sender's queue.  After two rounds the system is quiescent; the delivered
   history is the same as right after the first delivery (each byte exactly once).  (Partial w.r.t.
   the full property: ALL ACKs of the round are lost; an arbitrary subset of ACKs lost, or data and
   ACK loss mixed in the same round, is not covered.) *)
Theorem C01_liveness_lost_acks_partial : forall (c : config) (s : sys) (a b : Z) (x : side) (bytes : list Z),
  Quiescent c s a b -> 0 < zlen bytes <= 65535 ->
  let s1 := run c s [LSend x bytes; LEmit x] in
  let nseg := length (net_of s1 x) in
  let s2 := run c s1 (repeat (LDeliver x 0) nseg ++ [LRecv (other x); LEmit (other x)]) in
  let s' := run c s2 (repeat (LDrop (other x) 0) nseg ++ [LFair 2]) in
  (net_of s2 x = [] /\ length (net_of s2 (other x)) = nseg /\
   delivered s2 (other x) = delivered s (other x) ++ bytes) /\
  (exists a' b', Quiescent c s' a' b') /\
  sub_of s' x = sub_of s x ++ bytes /\ sub_of s' (other x) = sub_of s (other x) /\
  delivered s' (other x) = delivered s (other x) ++ bytes /\ delivered s' x = delivered s x.
Proof.
  intros c s a b x bytes HQ Hn. destruct (lost_acks_recovery c s a b x bytes HQ Hn) as (H0 & H1 & R).
  split; [exact H0|split; [eauto|exact R]].
Qed.
Print Assumptions C01_liveness_lost_acks_partial.
