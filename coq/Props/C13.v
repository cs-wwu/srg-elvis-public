(* C13 - property theorems only.  Each is closed by a lemma of Proofs/ or derived from general ones in a few lines; statements are pinned.
   Model: Model/Startup.v.  Outside the model: tokio's Barrier / broadcast / scheduler implementations, the
   discipline of user-written protocols, what protocols do after start (Proofs are about the start bodies as
   action lists and about the decision logic of run_internet). *)
From Elvis Require Import Model.Base Model.Startup Proofs.StartupFacts.
From Coq Require Import NArith.

(* ---- the barrier.  For ALL configurations (any number of tasks, 0 included), ALL interleavings of the start
   tasks, helper tasks and deliveries, ALL numbers of frames an action emits: if no start puts a frame on a
   network before its barrier wait, then every frame and every delivery (hence every demux, and every
   PciSession::receive) comes after EVERY task has arrived at the barrier. *)
Theorem C13_barrier : forall (cfg : list (bool * list action)) (sched : list choice),
  (forall x, In x cfg -> frame_free_before_wait (fst x) (snd x) = true) ->
  forall pre ev post, run (init cfg) sched = pre ++ ev :: post -> net_event ev = true ->
  forall i, i < length cfg -> In (EvAct i ABarrierWait) pre.
Proof. exact barrier_all_interleavings. Qed.
Print Assumptions C13_barrier.

Example C13_barrier_hypothesis_satisfiable :
  forall x, In x (map (fun p => (true, row p)) [PUdp; PIpv4; PPci; PArp; PCapture; PSendMessage]) ->
            frame_free_before_wait (fst x) (snd x) = true.
Proof. exact barrier_hypothesis_satisfiable. Qed.
Print Assumptions C13_barrier_hypothesis_satisfiable.

(* ---- the built-in start bodies.  `forallb frame_free_before_wait builtin_table = true` is FALSE when AOpen
   resolves through ARP (res = true: the machine has Arp and the route's recipient has no MAC): *)
Theorem C13_builtin_discipline_refuted :
  forallb (fun r => frame_free_before_wait true (snd r)) builtin_table = false /\
  (exists r, In r builtin_table /\ frame_free_before_wait true (snd r) = false) /\
  offenders true = [PForward].
Proof.
  split; [vm_compute; reflexivity |]. split; [| vm_compute; reflexivity].
  exists (PForward, row PForward). split; [apply builtin_table_rows | reflexivity].
Qed.
Print Assumptions C13_builtin_discipline_refuted.

(* the offending row, run: a frame and a delivery to another machine before anybody arrived at the barrier *)
Theorem C13_forward_refuted :
  run (init [(true, row PForward); (true, row PPci)]) [CStep 0 1; CDeliver 1] =
  [EvAct 0 AOpen; EvFrame 0; EvDeliver 1].
Proof. vm_compute. reflexivity. Qed.
Print Assumptions C13_forward_refuted.

(* positive statement with the exact exclusion: every other row, and every row (Forward included) on a
   machine that does not resolve through ARP, is frame-free before its single barrier wait *)
Theorem C13_builtin_discipline :
  forallb (fun r => disciplined true (snd r))
          (filter (fun r => match fst r with PForward => false | _ => true end) builtin_table) = true /\
  forallb (fun r => disciplined false (snd r)) builtin_table = true /\
  (forall p, In (p, row p) builtin_table).
Proof. split; [vm_compute; reflexivity |]. split; [vm_compute; reflexivity | exact builtin_table_rows]. Qed.
Print Assumptions C13_builtin_discipline.

(* hence, for any mix of built-in protocols on any number of machines, Forward only where its open does not
   resolve: the barrier property for all interleavings *)
Theorem C13_barrier_builtin : forall (cfg : list (bool * proto)) sched,
  (forall res p, In (res, p) cfg -> p = PForward -> res = false) ->
  forall pre ev post,
    run (init (map (fun x => (fst x, row (snd x))) cfg)) sched = pre ++ ev :: post -> net_event ev = true ->
    forall i, i < length cfg -> In (EvAct i ABarrierWait) pre.
Proof.
  intros cfg sched H pre ev post E Hnet i Hi.
  eapply barrier_all_interleavings; try eassumption; [| rewrite map_length; assumption].
  intros x Hx. apply in_map_iff in Hx. destruct Hx as [[res p] [<- Hin]]. apply row_ffbw. intro Ep. eapply H; eassumption.
Qed.
Print Assumptions C13_barrier_builtin.

(* the rows are lexical call lists; an executed path is a subsequence that keeps the top-level wait *)
Theorem C13_paths : forall res l' l,
  subseq l' l -> nwaits l = 1 -> nwaits l' = 1 ->
  frame_free_before_wait res l = true -> frame_free_before_wait res l' = true.
Proof. exact ffbw_subseq. Qed.
Print Assumptions C13_paths.

(* ---- the run.  Whatever happens to the run task (requests, joins, closes, polls, the outer deadline, in any
   order and number), it returns at most once; *)
Theorem C13_once : forall evs s, length (rrun s evs) <= 1.
Proof. exact (once_gen recv). Qed.
Print Assumptions C13_once.

(* with the status that was requested FIRST among everything requested before the returning poll (the timeout
   task's TimedOut is one of the requests), however many requests are queued (since commit 0cf74903 the first
   one is remembered in Shutdown.first and returned when the receiver lags); Exited when all senders are gone;
   TimedOut without a request only from the outer deadline *)
Theorem C13_status : forall evs t st,
  rrun rinit evs = [(t, st)] ->
  exists pre e post, evs = pre ++ (t, e) :: post /\ (e = RPoll \/ e = RDeadline) /\
    (forall first more, reqs_of pre = first :: more -> st = first) /\
    (reqs_of pre = [] -> (closed_in pre = true /\ st = Exited) \/ (e = RDeadline /\ st = TimedOut)).
Proof. exact run_status. Qed.
Print Assumptions C13_status.

(* the code BEFORE that commit (rrun_orig: on Lagged continue with the oldest retained message) lost the first
   status when 17 requests were queued before the run task was polled; the repaired code returns it *)
Theorem C13_status_lag_orig_refuted :
  exists evs first, reqs_of evs = first :: tl (reqs_of evs) /\ first = Status 1 /\
    rrun_orig rinit evs = [(0%N, Status 2)] /\ rrun rinit evs = [(0%N, Status 1)].
Proof.
  exists seventeen, (Status 1). split; [reflexivity|]. split; [reflexivity|].
  split; vm_compute; reflexivity.
Qed.
Print Assumptions C13_status_lag_orig_refuted.

(* the plain shut_down() (Exited in the queue) and shut_down_with_status(k) are the same kind of request: with 18
   of them queued before the poll, the first one wins whichever kind it is *)
Theorem C13_status_lag_plain_and_explicit :
  rrun rinit plain_then_explicit = [(0%N, Exited)] /\ rrun rinit explicit_then_plain = [(0%N, Status 5)].
Proof. split; vm_compute; reflexivity. Qed.
Print Assumptions C13_status_lag_plain_and_explicit.

(* with a timeout d and prompt polling: the first application request if made strictly before d, else TimedOut
   at d -- exactly once *)
Theorem C13_status_timeout : forall d reqs,
  run_with_timeout d reqs =
  [match reqs with
   | (t, s) :: _ => if N.ltb t d then (t, s) else (d, TimedOut)
   | [] => (d, TimedOut)
   end].
Proof. exact run_with_timeout_closed_form. Qed.
Print Assumptions C13_status_timeout.

(* the deadline: whatever the machines do (they may never finish, nobody may ever be polled in time), the run
   returns exactly once and no later than d + 1 s *)
Theorem C13_deadline : forall d evs,
  Forall (fun x => (fst x <= d + second_ns)%N) evs ->
  exists t st, rrun rinit (evs ++ [((d + second_ns)%N, RDeadline)]) = [(t, st)] /\ (t <= d + second_ns)%N.
Proof. intros. apply (deadline_from recv); [reflexivity | assumption]. Qed.
Print Assumptions C13_deadline.

(* remark (finding): these starts wait in `.await.unwrap()` after the barrier; a shutdown request that
   arrives then makes them panic, and run_internet's panic hook exits the process instead of returning *)
Theorem C13_remark_starts_that_panic_on_shutdown :
  shutdown_panickers = [PDnsServer; PDnsTestClient; PDnsTestServer; PSocketServer; PTcpListenerServer; PTcpStreamClient].
Proof. vm_compute. reflexivity. Qed.
Print Assumptions C13_remark_starts_that_panic_on_shutdown.

(* ---- the validator run on recorded traces of the implementation *)
Theorem C13_validate_sound : forall c tr st t,
  validate c tr st t = Accept ->
  (all_disciplined (v_machines c) = true ->
   forall pre o post, tr = pre ++ o :: post -> obs_net o = true ->
   forall i, i < v_napps c -> In (OArrive i) pre) /\
  (forall d, v_timeout c = Some d ->
     (t <= d + second_ns + v_slack c)%N) /\
  (v_paused c = true -> (v_napps c <> 0 \/ existsb (status_eqb st) (v_builtin_sts c) = false) ->
     check_paused (v_timeout c) tr st t = true).
Proof. exact validate_sound. Qed.
Print Assumptions C13_validate_sound.

Theorem C13_validate_predict : forall d tr st t,
  check_paused (Some d) tr st t = true ->
  (forall s, first_req tr <> Some (s, d)) ->
  (st, t) = predict (Some d) (first_req tr).
Proof. exact check_paused_predict. Qed.
Print Assumptions C13_validate_predict.

Theorem C13_predict_is_run_model : forall d reqs,
  run_with_timeout d reqs =
  [let '(s, t) := predict (Some d) (match reqs with (t, s) :: _ => Some (s, t) | [] => None end) in (t, s)].
Proof.
  intros d reqs. rewrite run_with_timeout_closed_form. destruct reqs as [|[t s] r]; simpl; [reflexivity |].
  destruct (N.ltb t d); reflexivity.
Qed.
Print Assumptions C13_predict_is_run_model.
