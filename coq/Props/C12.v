(* C12 - property theorems only.  Each is closed by a lemma of Proofs/ or derived from general ones in a few lines; statements are pinned. *)
From Elvis Require Import Model.Base Model.U32 Proofs.U32Facts.
Local Open Scope Z_scope.

(* the strict order is the mathematical circular order for all pairs < 2^31 apart *)
Theorem C12_mod_lt_circular : forall a d, u32 a -> 0 < d < H31 ->
  mod_lt a (wadd a d) = true /\ mod_lt (wadd a d) a = false.
Proof. exact mod_lt_spec. Qed.
Print Assumptions C12_mod_lt_circular.

Theorem C12_mod_leq_circular : forall a d, u32 a -> 0 <= d < H31 ->
  mod_leq a (wadd a d) = true /\ mod_geq (wadd a d) a = true.
Proof. exact mod_leq_dist. Qed.
Print Assumptions C12_mod_leq_circular.

Theorem C12_mod_leq_circular_neg : forall a d, u32 a -> 0 < d < H31 ->
  mod_leq (wadd a d) a = false /\ mod_geq a (wadd a d) = false.
Proof. exact mod_leq_dist_neg. Qed.
Print Assumptions C12_mod_leq_circular_neg.

(* mutual consistency *)
Theorem C12_leq_is_lt_or_eq : forall a b, mod_leq a b = ((a =? b) || mod_lt a b).
Proof. exact mod_leq_spec. Qed.
Print Assumptions C12_leq_is_lt_or_eq.
Theorem C12_geq_is_gt_or_eq : forall a b, mod_geq a b = ((a =? b) || mod_gt a b).
Proof. exact mod_geq_spec. Qed.
Print Assumptions C12_geq_is_gt_or_eq.
Theorem C12_lt_asym : forall a b, u32 a -> u32 b -> mod_lt a b = true -> mod_lt b a = false.
Proof. exact mod_lt_asym. Qed.
Print Assumptions C12_lt_asym.

(* bounded-between is cyclic betweenness *)
Theorem C12_bounded_is_arc : forall a ab b bc c, u32 a -> u32 b -> u32 c ->
  0 < wsub c a < H31 ->
  mod_bounded a ab b bc c =
    ((match ab with CLt => 0 <? wsub b a | CLeq => true end) &&
     (match bc with CLt => wsub b a <? wsub c a | CLeq => wsub b a <=? wsub c a end)).
Proof. exact mod_bounded_arc. Qed.
Print Assumptions C12_bounded_is_arc.

(* independence from absolute values: every primitive commutes with a shift *)
Theorem C12_lt_shift : forall a b d, mod_lt (wadd a d) (wadd b d) = mod_lt a b.
Proof. exact mod_lt_shift. Qed.
Print Assumptions C12_lt_shift.
Theorem C12_leq_shift : forall a b d, u32 a -> u32 b -> mod_leq (wadd a d) (wadd b d) = mod_leq a b.
Proof. exact mod_leq_shift. Qed.
Print Assumptions C12_leq_shift.
Theorem C12_bounded_shift : forall a ab b bc c d, u32 a -> u32 b -> u32 c ->
  mod_bounded (wadd a d) ab (wadd b d) bc (wadd c d) = mod_bounded a ab b bc c.
Proof. exact mod_bounded_shift. Qed.
Print Assumptions C12_bounded_shift.
