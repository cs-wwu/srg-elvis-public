(* C04 - datagrams reach exactly the listener bound to their address and port.
   Property theorems only; each is closed by a lemma of Proofs/ or derived from general ones in a few lines; statements are pinned.

   Vocabulary (Model/Demux.v, Proofs/DemuxFacts.v):
     tbl              a binding table (association list read by first match): (address, port) -> application
                      for Udp.listen_bindings, (address, protocol number) -> upstream for Ipv4.listen_bindings
     tget b k         the entry of key k;   ANY = 0.0.0.0, BCAST = 255.255.255.255
     tlookup b (a,p)  what Udp::demux / Ipv4::demux compute: the entry (a,p), else the entry (ANY,p)
     mstate           one machine: udp_b, ip_b, has_arp, arp_ips, protos (protocols present)
     udp_listen s app e   Udp::listen: (result, state after)
     lop              a bind operation: LUdp (Udp::listen), LOpen (Udp::open_and_listen), LRaw (a non-UDP
                      upstream binding protocol 17 directly at the IPv4 layer)
     udp_op present op    op is a UDP bind by an application that exists on the machine
     mcfg / final_state   a machine description and its state after running its bind operations in order
     dgram P          {d_src; d_dst : endpoint; d_payload : P};  plen : P -> Z the payload length
     udp_send plen mtu mac d   UdpSession::send ; Ipv4Session::send ; send_pci: SOk link-destination | error
     ip_demux s 17 d  the receive pipeline Ipv4::demux ; Ipv4Session::receive ; Udp::demux ;
                      UdpSession::receive on a machine in state s: Deliver app local remote payload | drops
     events_of s m d  the recorder events that arrival of d on machine m produces
     validate plen peqb c tr   the executable trace validator (0 = accept)

   Claim: proof of the decision logic (for ALL binding tables, machines, datagrams, arrival orders of
   the model) + validation of the running stack's traces.  Partial with respect to the property's
   "arbitrary arrival orders" on the real runtime: tokio scheduling, ARP resolution and the link are not
   modelled; the receive pipeline is a pure function of the (static) bindings, which is what makes
   arrival order irrelevant in the model (C04_order_insensitive). *)
From Coq Require Import ZArith List Permutation.
From Elvis Require Import Model.Base Model.Demux Proofs.DemuxFacts.
Import ListNotations.
Local Open Scope Z_scope.

(* an exact binding always wins over the wildcard *)
Theorem C04_lookup_exact_wins : forall (b : tbl) a p x,
  tget b (a, p) = Some x -> tlookup b (a, p) = Some x.
Proof. intros b a p x H. unfold tlookup. rewrite H. reflexivity. Qed.
Print Assumptions C04_lookup_exact_wins.

(* the listener found is the exact binding or, absent one, the wildcard binding of the same port *)
Theorem C04_lookup_sound : forall (b : tbl) a p x,
  tlookup b (a, p) = Some x ->
  tget b (a, p) = Some x \/ (tget b (a, p) = None /\ tget b (ANY, p) = Some x).
Proof. exact lookup_sound. Qed.
Print Assumptions C04_lookup_sound.

(* ... hence it was bound with the SAME port and with the destination address or 0.0.0.0 ... *)
Theorem C04_lookup_binding_key : forall (b : tbl) a p x,
  tlookup b (a, p) = Some x -> exists a', (a' = a \/ a' = ANY) /\ In ((a', p), x) b.
Proof.
  intros b a p x H. apply lookup_sound in H.
  destruct H as [H | [_ H]]; [exists a | exists ANY]; (split; [auto | apply tget_In; exact H]).
Qed.
Print Assumptions C04_lookup_binding_key.

(* ... and a binding with a different port, or with a different specific address, never influences
   who receives a datagram for (a,p): isolation *)
Theorem C04_lookup_ignores_other : forall (b : tbl) a p a' p' y,
  (p' <> p \/ (a' <> a /\ a' <> ANY)) ->
  tlookup (((a', p'), y) :: b) (a, p) = tlookup b (a, p).
Proof. exact lookup_ignores_other. Qed.
Print Assumptions C04_lookup_ignores_other.

(* no binding at all: neither exact nor wildcard *)
Theorem C04_lookup_none : forall (b : tbl) a p,
  tlookup b (a, p) = None <-> tget b (a, p) = None /\ tget b (ANY, p) = None.
Proof.
  intros b a p. unfold tlookup. cbn [snd].
  destruct (tget b (a, p)); split; try discriminate; [intros [H _]; discriminate | |]; tauto.
Qed.
Print Assumptions C04_lookup_none.

(* a second bind of an endpoint already bound is refused and changes nothing (any state) *)
Theorem C04_rebind_refused : forall s up e x,
  tget (udp_b s) e = Some x -> udp_listen s up e = (LExisting, s).
Proof. exact rebind_refused. Qed.
Print Assumptions C04_rebind_refused.

(* a first bind succeeds, installs exactly that binding and leaves every other endpoint alone *)
Theorem C04_bind_vacant : forall s app a p,
  wf s -> tget (udp_b s) (a, p) = None ->
  fst (udp_listen s app (a, p)) = LOk /\
  tget (udp_b (snd (udp_listen s app (a, p)))) (a, p) = Some app /\
  (forall k, k <> (a, p) -> tget (udp_b (snd (udp_listen s app (a, p)))) k = tget (udp_b s) k).
Proof.
  intros s app a p W V. destruct (udp_listen_vacant s app a p W V) as (s' & E & Hu & _).
  rewrite E. cbn [fst snd]. rewrite Hu. split; [reflexivity |].
  split; [apply tget_cons_eq | intros k Hk; apply tget_cons_neq; congruence].
Qed.
Print Assumptions C04_bind_vacant.

(* every state a machine reaches by UDP binds of its own applications is well formed *)
Theorem C04_reachable_wf : forall mc,
  zmem UDP_TID (mc_protos mc) = true -> Forall (udp_op (mc_protos mc)) (mc_listens mc) ->
  wf (final_state mc).
Proof. exact wf_final_state. Qed.
Print Assumptions C04_reachable_wf.

(* end to end, for every machine description, every sequence of binds, every datagram within the MTU
   limit: the send succeeds, and on ANY machine the datagram reaches it is handed to the application the
   lookup names, payload unchanged, local = destination, remote = true source; without a binding it is
   dropped *)
Theorem C04_end_to_end : forall (P : Type) (plen : P -> Z) mc (d : dgram P) mtu mac,
  zmem UDP_TID (mc_protos mc) = true -> Forall (udp_op (mc_protos mc)) (mc_listens mc) ->
  0 <= plen (d_payload d) <= mtu - 28 -> mtu <= 65535 ->
  (exists l, udp_send plen mtu mac d = SOk l) /\
  (forall app, tlookup (udp_b (final_state mc)) (d_dst d) = Some app ->
     ip_demux (final_state mc) UDP_PROTO d = Deliver app (d_dst d) (d_src d) (d_payload d)) /\
  (tlookup (udp_b (final_state mc)) (d_dst d) = None ->
     ip_demux (final_state mc) UDP_PROTO d = DropIpNoBinding \/
     ip_demux (final_state mc) UDP_PROTO d = DropUdpNoBinding).
Proof.
  intros P plen mc d mtu mac Hu Hops Hl Hm. pose proof (wf_final_state mc Hu Hops) as W.
  split; [apply send_within_limit; assumption |].
  rewrite (receive_eq P _ d W). split; [intros app -> ; reflexivity | intros ->; destruct (tlookup (ip_b _) _); auto].
Qed.
Print Assumptions C04_end_to_end.

(* the same through any wire format whose decoder inverts its encoder on datagrams of legal size
   (the byte-level round trips are the codec properties C08/C18) *)
Theorem C04_end_to_end_wire : forall (P : Type) (plen : P -> Z) (W : Type)
  (encode : dgram P -> W) (decode : W -> option (Z * dgram P)),
  (forall d, 0 <= plen (d_payload d) <= 65507 -> decode (encode d) = Some (UDP_PROTO, d)) ->
  forall s (d : dgram P) app,
  wf s -> 0 <= plen (d_payload d) <= 65507 -> tlookup (udp_b s) (d_dst d) = Some app ->
  wire_receive decode s (encode d) = WOut (Deliver app (d_dst d) (d_src d) (d_payload d)).
Proof.
  intros P plen W encode decode RT s d app Wf Hl L. unfold wire_receive. rewrite RT by exact Hl.
  rewrite (receive_eq P s d Wf), L. reflexivity.
Qed.
Print Assumptions C04_end_to_end_wire.

(* one byte more than the MTU allows is refused at the sender (no frame); where a frame goes *)
Theorem C04_send_limit : forall (P : Type) (plen : P -> Z) mtu mac (d : dgram P),
  (mtu - 28 < plen (d_payload d) -> mtu <= 65535 -> is_loopback (fst (d_dst d)) = false ->
   forall l, udp_send plen mtu mac d <> SOk l) /\
  (forall l, udp_send plen mtu mac d = SOk l ->
   l = (if fst (d_dst d) =? BCAST then ToBroadcast
        else if is_loopback (fst (d_dst d)) then ToSelf else ToMac mac)).
Proof.
  exact (fun P plen mtu mac d => conj (fun Hl _ => send_over_limit P plen mtu mac d Hl) (send_link_dst P plen mtu mac d)).
Qed.
Print Assumptions C04_send_limit.

(* a datagram without a binding produces no event, and the events of all other arrivals are the same
   with or without it: nothing else is disturbed (the receive pipeline has no state to disturb) *)
Theorem C04_unbound_dropped : forall (P : Type) s m l1 (d : dgram P) l2,
  wf s -> tlookup (udp_b s) (d_dst d) = None ->
  events_of s m d = [] /\ deliveries P s m (l1 ++ d :: l2) = deliveries P s m (l1 ++ l2).
Proof.
  intros P s m l1 d l2 W L. pose proof (events_of_eq P s m d W) as E. rewrite L in E. split; [exact E |].
  unfold deliveries. rewrite !flat_map_app. cbn [flat_map]. rewrite E. reflexivity.
Qed.
Print Assumptions C04_unbound_dropped.

(* arrival order does not matter *)
Theorem C04_order_insensitive : forall (P : Type) s m (l l' : list (dgram P)),
  Permutation l l' -> Permutation (deliveries P s m l) (deliveries P s m l').
Proof. intros. apply Permutation_flat_map. assumption. Qed.
Print Assumptions C04_order_insensitive.

(* soundness of the validator: in an accepted trace the bind results are the model's, the IPv4 frames
   on the link are exactly the datagrams sent (and the answers of the recorders), the delivery events
   are - as multisets - exactly the predicted ones; every delivery event is the one the lookup predicts
   for an arrival (right application, local = destination, remote = true source, payload unchanged),
   and none is missing *)
Theorem C04_validate_sound : forall (P : Type) (plen : P -> Z) (peqb : P -> P -> bool),
  (forall a b, peqb a b = true -> a = b) ->
  forall c tr,
  validate plen peqb c tr = 0 -> machines_wf P c ->
  map listen_codes (c_machines c) = tr_listen tr /\
  Permutation (expected_frames plen peqb c tr) (observed_frames tr) /\
  Permutation (predicted plen peqb c tr) (tr_dlv tr) /\
  (forall e, In e (tr_dlv tr) ->
     exists m d, In (m, d) (arrivals plen peqb c tr) /\
       tlookup (udp_b (state_at c m)) (d_dst d) = Some (e_app e) /\
       e = mkDev 0 (e_app e) m (d_dst d) (d_src d) (d_payload d)) /\
  (forall m d app, In (m, d) (arrivals plen peqb c tr) ->
     tlookup (udp_b (state_at c m)) (d_dst d) = Some app ->
     In (mkDev 0 app m (d_dst d) (d_src d) (d_payload d)) (tr_dlv tr)).
Proof. exact validate_sound. Qed.
Print Assumptions C04_validate_sound.

(* ... and every IPv4 frame of an accepted trace was addressed on the link as Ipv4Session::send decides:
   a datagram for 255.255.255.255 to the broadcast MAC, otherwise to the MAC of the route of the local
   address (all taps when the route has none and the machine has no ARP) *)
Theorem C04_validate_link_dst : forall (P : Type) (plen : P -> Z) (peqb : P -> P -> bool) c tr f,
  validate plen peqb c tr = 0 -> In f (tr_frames tr) -> frame_to_ok peqb c f = true.
Proof.
  intros P plen peqb c tr f H. destruct (validate_checks P plen peqb c tr H) as (_ & _ & _ & E6 & _).
  rewrite forallb_forall in E6. apply E6.
Qed.
Print Assumptions C04_validate_link_dst.

(* the hypotheses are satisfiable, and the validator is not vacuous: a two-machine scenario (machine 0
   binds application 1 on 10.0.0.1:5000 and application 2 on 0.0.0.0:5000 and 0.0.0.0:5001; machine 1
   broadcasts on the link a datagram for 10.0.0.1:5000 and one for 10.0.0.9:5001) is accepted with the
   right events and rejected (check 5) when the exact binding's event names the wildcard application *)
Theorem C04_example_validate :
  wf (final_state ex_mc0) /\ machines_wf Z ex_cfg /\
  validate (fun n : Z => n) Z.eqb ex_cfg ex_trace_good = 0 /\
  validate (fun n : Z => n) Z.eqb ex_cfg ex_trace_wrong_app = 5 /\
  validate (fun n : Z => n) Z.eqb ex_cfg ex_trace_missing = 5.
Proof. exact example_validate. Qed.
Print Assumptions C04_example_validate.

(* remarks on behaviour of the code as it is, outside the property's universe:
   1. if a non-UDP upstream holds (a, protocol 17) at the IPv4 layer, Udp::listen on (a,p) returns the
      IPv4 error but leaves its own entry behind;
   2. open_and_listen returns an error when the local address has no route, yet the binding is installed;
   3. a datagram to 127.0.0.0/8 is handed to the own tap without the MTU test *)
Theorem C04_remark_as_coded :
  (let s1 := snd (ipv4_listen ex_state0 2 167772161 UDP_PROTO) in
   fst (udp_listen s1 1 (167772161, 5000)) = LIpExists /\
   tget (udp_b (snd (udp_listen s1 1 (167772161, 5000)))) (167772161, 5000) = Some 1) /\
  (fst (run_lop [] ex_state0 (LOpen 1 (167772161, 5000))) = 3 /\
   tget (udp_b (snd (run_lop [] ex_state0 (LOpen 1 (167772161, 5000))))) (167772161, 5000) = Some 1) /\
  udp_send (fun n : Z => n) 100 None (mkDgram (167772161, 1) (2130706433, 2) 5000) = SOk ToSelf.
Proof. vm_compute. repeat split; reflexivity. Qed.
Print Assumptions C04_remark_as_coded.
