(* C15 - address allocation never double-allocates.  Property theorems only; each is closed by a lemma of
   Proofs/ or derived from general ones in a few lines; statements are pinned.

   Vocabulary (Proofs/IpGenFacts.v):  avail g a  = some stored range of g contains a;
   inr r a = start r <= a <= end r;  in_net n a = a lies in the subnet n;
   gen_u32 / range_u32 / u32 = every address involved is a u32;  wf_net = what Ipv4Net::new builds.
   The generator model follows the REPAIRED new_sub_no_ends (.cache/c15/fix.patch); the code
   as it is in the tree is new_sub_no_ends_orig and is refuted below. *)
From Elvis Require Import Model.Base Model.IpGen Proofs.IpGenFacts Model.DhcpProto Proofs.DhcpProtoFacts.
Local Open Scope Z_scope.

(* block: removes exactly the blocked addresses, never panics - also not at 0.0.0.0 / 255.255.255.255 *)
Theorem C15_block_spec : forall g rg, gen_u32 g -> range_u32 rg ->
  exists g', block_range g rg = Ok g' /\ gen_u32 g' /\
    forall a, avail g' a <-> avail g a /\ ~ inr rg a.
Proof. exact block_spec. Qed.
Print Assumptions C15_block_spec.

(* return: adds exactly the returned addresses *)
Theorem C15_return_spec : forall g r a, avail (return_range g r) a <-> avail g a \/ inr r a.
Proof. exact return_spec. Qed.
Print Assumptions C15_return_spec.

(* fetch: the block handed out is aligned to the mask, was entirely available, and is withheld afterwards *)
Theorem C15_fetch_spec : forall g m n g', gen_u32 g -> 0 <= m <= 32 ->
  fetch_net g m = Ok (Some n, g') ->
  wf_net n /\ net_bits n = m /\ gen_u32 g' /\
  (forall a, in_net n a -> avail g a) /\
  (forall a, avail g' a <-> avail g a /\ ~ in_net n a).
Proof. exact fetch_spec. Qed.
Print Assumptions C15_fetch_spec.

(* fetch reports None exactly when no SINGLE stored range contains an aligned block of that mask
   (weaker than "no aligned block is available in the union": see C15_fetch_net_incomplete_witness) *)
Theorem C15_fetch_none_spec : forall g m, gen_u32 g -> 0 <= m <= 32 ->
  forall g', fetch_net g m = Ok (None, g') <->
    (g' = g /\ forall av, In av g -> forall id, ~ fits av m id).
Proof. exact fetch_none_spec. Qed.
Print Assumptions C15_fetch_none_spec.

(* single addresses: Some a = an available address, withheld afterwards; None exactly on exhaustion *)
Theorem C15_fetch_ip_spec : forall g, gen_u32 g ->
  exists oa g', fetch_ip g = Ok (oa, g') /\
    match oa with
    | Some a => avail g a /\ gen_u32 g' /\ (forall b, avail g' b <-> avail g b /\ b <> a)
    | None => g' = g /\ forall a, ~ avail g a
    end.
Proof. exact fetch_ip_spec. Qed.
Print Assumptions C15_fetch_ip_spec.

(* observation (not demanded by the property text): an aligned free /30 spread over four
   individually returned addresses is not found *)
Theorem C15_fetch_net_incomplete_witness :
  let g := return_range (return_range (return_range (return_range gen_none (8,8)) (9,9)) (10,10)) (11,11) in
  (forall a, 8 <= a <= 11 -> avail g a) /\ fetch_net g 30 = Ok (None, g).
Proof. exact fetch_net_incomplete_witness. Qed.
Print Assumptions C15_fetch_net_incomplete_witness.

(* every public operation on every u32 generator: no panic (in particular none of the
   add(..).expect sites, none at the ends of the address space), exact effect on availability,
   and whatever is handed out was available *)
Theorem C15_no_panic : forall g o, gen_u32 g -> op_wf o ->
  exists g' r, apply_op g o = Ok (g', r) /\ gen_u32 g' /\
    (forall a, in_onet (fetched_of r) a -> avail g a) /\
    (forall a, avail g' a <->
       (avail g a /\ ~ in_nets (blocks_of o) a /\ ~ in_onet (fetched_of r) a) \/ in_onet (returns_of o) a) /\
    (returns_of o <> None -> fetched_of r = None /\ blocks_of o = []).
Proof. exact apply_op_spec. Qed.
Print Assumptions C15_no_panic.

Theorem C15_build_ok : forall k, ctor_wf k -> exists g0, build k = Ok g0 /\ gen_u32 g0.
Proof. exact build_ok. Qed.
Print Assumptions C15_build_ok.

(* HISTORY theorem.  For every pool and every sequence of operations (block / fetch_ip /
   fetch_net / return_subnet / return_ip / is_available / block_reserved_ips), with
   held := fetched and not returned since, blocked := blocked and not returned since,
   pool := initially available or returned:  the run never panics; available addresses are
   neither held nor blocked; held addresses are in the pool; nothing in the pool is lost;
   and whatever the NEXT operation hands out lies in the pool and is neither held nor blocked
   (so no address and no overlapping subnet is handed out while held), returned addresses are
   available again, and fetch_ip reports None only when nothing is available. *)
Theorem C15_no_double : forall g0 ops, gen_u32 g0 -> Forall op_wf ops ->
  exists g s, IpGenFacts.run g0 (ghost0 g0) ops = Ok (g, s) /\
    (gen_u32 g /\
     (forall a, avail g a -> ~ held s a /\ ~ blocked s a) /\
     (forall a, held s a -> pool s a) /\
     (forall a, avail g a -> pool s a) /\
     (forall a, pool s a -> avail g a \/ held s a \/ blocked s a)) /\
    forall o, op_wf o ->
      exists g' r, apply_op g o = Ok (g', r) /\
        (forall a, in_onet (fetched_of r) a -> pool s a /\ ~ held s a /\ ~ blocked s a) /\
        (forall a, in_onet (returns_of o) a -> avail g' a) /\
        (r = RIp None -> forall a, ~ avail g a).
Proof. exact no_double. Qed.
Print Assumptions C15_no_double.

(* the set stays a strictly sorted list = a BTreeSet value *)
Theorem C15_set_sorted : forall g o g' r, sorted g -> apply_op g o = Ok (g', r) -> sorted g'.
Proof. exact apply_op_sorted. Qed.
Print Assumptions C15_set_sorted.

(* a generator built for a subnet minus its ends offers exactly the host addresses (repaired code) *)
Theorem C15_no_ends : forall n, wf_net n ->
  exists g, new_sub_no_ends n = Ok g /\ gen_u32 g /\
    forall a, avail g a <-> net_id n < a < net_last n.
Proof. exact no_ends_spec. Qed.
Print Assumptions C15_no_ends.

(* the code as it is in the tree (end = id - 1): offers nothing at all; 10.0.0.0/29 is the witness *)
Theorem C15_no_ends_orig_refuted :
  (forall n a, ~ avail (new_sub_no_ends_orig n) a) /\
  exists n a, wf_net n /\ net_id n < a < net_last n /\ ~ avail (new_sub_no_ends_orig n) a.
Proof. exact (conj no_ends_orig_offers_nothing no_ends_orig_refuted). Qed.
Print Assumptions C15_no_ends_orig_refuted.

(* DHCP.  In every state reachable from n clients starting simultaneously, under every
   ordering, loss and duplication of messages (no release), or under every ordering, loss
   and release (no duplication): addresses acknowledged to distinct clients are distinct, lie
   in the pool, and are still withheld by the server's generator. *)
Theorem C15_dhcp_distinct : forall n g0 tr st, gen_u32 g0 -> no_release tr \/ no_dup tr ->
  DhcpProto.run (init n g0) tr = Ok st ->
  (forall c1 c2 a, acked st c1 a -> acked st c2 a -> c1 = c2) /\
  (forall c a, acked st c a -> avail g0 a /\ ~ avail (srv st) a).
Proof. exact dhcp_distinct. Qed.
Print Assumptions C15_dhcp_distinct.

(* duplication AND release together double-lease (the server takes a Release at face value and a
   stale duplicate Ack re-installs the address).  The real client never sends Release, so this
   needs an application that does. *)
Theorem C15_dhcp_dup_release_refuted :
  exists st, DhcpProto.run (init 2 (gen_new (10, 12))) double_lease_trace = Ok st /\
             acked st 0 10 /\ acked st 1 10.
Proof. eexists. split; [vm_compute; reflexivity|]. split; reflexivity. Qed.
Print Assumptions C15_dhcp_dup_release_refuted.

(* pool exhaustion is a crash of the server (dhcp_server.rs:60), not a double lease ... *)
Theorem C15_dhcp_exhaustion_panics :
  DhcpProto.run (init 2 (gen_new (10, 10))) [Deliver 0; Deliver 0] = Panic 60.
Proof. vm_compute. reflexivity. Qed.
Print Assumptions C15_dhcp_exhaustion_panics.

(* ... and cannot happen while clients + duplications fit into the pool *)
Theorem C15_dhcp_no_panic : forall n g0 tr L, gen_u32 g0 -> no_release tr ->
  NoDup L -> (forall a, In a L -> avail g0 a) -> (n + count_dups tr <= length L)%nat ->
  exists st, DhcpProto.run (init n g0) tr = Ok st.
Proof. exact dhcp_no_panic. Qed.
Print Assumptions C15_dhcp_no_panic.

Theorem C15_dhcp_no_panic_range : forall n s e tr, u32 s -> u32 e -> s <= e -> no_release tr ->
  Z.of_nat (n + count_dups tr) <= e - s + 1 ->
  exists st, DhcpProto.run (init n (gen_new (s, e))) tr = Ok st.
Proof. exact dhcp_no_panic_range. Qed.
Print Assumptions C15_dhcp_no_panic_range.

(* a released address is available to the server again and the next Discover is offered an available address *)
Theorem C15_dhcp_release_returns : forall g m, gen_u32 g -> m_type m = Release -> u32 (m_ip m) ->
  exists g', server_demux g m = Ok (g', []) /\ avail g' (m_ip m) /\
    forall d, m_type d = Discover ->
      exists a g'', server_demux g' d = Ok (g'', [offer (m_cid d) a]) /\ avail g' a.
Proof.
  intros g m Hg Ht Hu. destruct (server_release g m Hg Ht Hu) as (g' & E & Hg' & Hs).
  exists g'. split; [exact E|]. split; [apply Hs; right; reflexivity|]. intros d Hd.
  destruct (server_discover g' d Hg' Hd) as [(a & g'' & E' & Ha & _)|[_ Hno]]; [exists a, g''; auto|].
  exfalso. apply (Hno (m_ip m)), Hs. right. reflexivity.
Qed.
Print Assumptions C15_dhcp_release_returns.

(* each client learns an address: at quiescence of any loss-free run every client holds one *)
Theorem C15_dhcp_all_learn : forall n g0 tr st, forallb is_lossless tr = true ->
  DhcpProto.run (init n g0) tr = Ok st -> net st = [] ->
  forall c, (c < n)%nat -> exists a, acked st c a.
Proof.
  intros n g0 tr st Hl E Hnet c Hc. destruct (InvE_run n g0 tr st Hl E) as [_ Hs].
  destruct (Hs c Hc) as [H|(m & Hin & _)]; [exact H|]. rewrite Hnet in Hin. destruct Hin.
Qed.
Print Assumptions C15_dhcp_all_learn.
