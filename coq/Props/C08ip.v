(* C08 (IPv4 / UDP / TCP part) - property theorems only.
   Models: Model/{Bytes,Checksum,Ipv4Hdr,UdpHdr,TcpHdr}.v.  Switches: ck = cargo feature
   compute_checksum (C08 is about the default build, ck = false; most statements hold for both),
   fck / ftl = the two repairs (true = the code as it is now in /repo, commits c999f3a6 and
   590cc7ad; false = the code before the repair, kept for the refutation witnesses).
   "Header value" of a codec = its Rust struct; "encode" = the serialisation function the
   stack uses for that struct (Ipv4Header::serialize -> Ipv4HeaderBuilder::build,
   build_udp_header, TcpHeaderBuilder::build + TcpHeader::serialize). *)
From Elvis Require Import Model.Base Model.Bytes Model.Checksum Model.Ipv4Hdr Model.UdpHdr Model.TcpHdr
  Proofs.BytesFacts Proofs.ChecksumFacts Proofs.Ipv4HdrFacts Proofs.UdpHdrFacts Proofs.TcpHdrFacts.
Local Open Scope Z_scope.

(* ======================================================================== IPv4 *)

(* decode (encode h ++ payload) = h for every representable header value: all TOS values the
   typed constructor can make (reserved bits 0), all four flag combinations, all fragment
   offsets 0..8191, all total lengths 20..65535, every id / ttl / protocol / address; the
   checksum field is the one the build emits (0 in the default build) *)
Theorem C08_ipv4_decode_encode : forall fck ftl ck h payload, ipv4_wf ck h ->
  exists bs, ipv4_encode ck h = Ok bs /\ length bs = 20%nat /\
             ipv4_decode fck ftl ck (bs ++ payload) = Ok h.
Proof. exact ipv4_decode_encode. Qed.
Print Assumptions C08_ipv4_decode_encode.

(* the hypothesis is satisfiable, e.g. by an extreme header *)
Example C08_ipv4_wf_example :
  ipv4_wf false (mk_ipv4 5 252 65535 65535 8191 3 255 255 0 4294967295 4294967295).
Proof. unfold ipv4_wf, u8, u16, u32. cbn. lia. Qed.
Print Assumptions C08_ipv4_wf_example.

(* every accepted byte string re-encodes to the 20 bytes consumed (default build: ck = false;
   also with checksums whenever the decoder compares exactly) *)
Theorem C08_ipv4_encode_decode : forall fck ck bs h, bytes bs -> (ck = false \/ fck = false) ->
  ipv4_decode fck true ck bs = Ok h -> ipv4_encode ck h = Ok (firstn 20 bs).
Proof. exact ipv4_encode_decode. Qed.
Print Assumptions C08_ipv4_encode_decode.

(* before repair 590cc7ad the clause was false: total_length < 20 was accepted and serialize
   panics on the accepted value (ipv4_parsing.rs l.129) *)
Theorem C08_ipv4_encode_decode_orig_refuted :
  exists h, ipv4_decode false false false ipv4_totlen_witness = Ok h /\
            ipv4_encode false h = Panic 121 /\
            ipv4_decode true true false ipv4_totlen_witness = Err E_TOTLEN.
Proof. exists (mk_ipv4 5 0 0 0 0 0 0 0 0 0 0). vm_compute. auto. Qed.
Print Assumptions C08_ipv4_encode_decode_orig_refuted.
(* ... and held exactly for total_length >= 20 *)
Theorem C08_ipv4_encode_decode_orig : forall fck ck bs h, bytes bs -> (ck = false \/ fck = false) ->
  ipv4_decode fck false ck bs = Ok h -> 20 <= ip_len h -> ipv4_encode ck h = Ok (firstn 20 bs).
Proof. exact ipv4_encode_decode_orig. Qed.
Print Assumptions C08_ipv4_encode_decode_orig.

(* the encoding is the RFC 791 header, written arithmetically from the diagram *)
Theorem C08_ipv4_matches_rfc : forall ck prec d t r plen ident df mf frag ttl proto src dst,
  0 <= prec < 8 -> 0 <= d < 2 -> 0 <= t < 2 -> 0 <= r < 2 ->
  0 <= plen -> plen + 20 <= 65535 -> u16 ident -> 0 <= df < 2 -> 0 <= mf < 2 -> 0 <= frag <= 8191 ->
  u8 ttl -> u8 proto -> u32 src -> u32 dst ->
  let tos := prec * 32 + d * 16 + t * 8 + r * 4 in
  let flags := df * 2 + mf in
  ipv4_build ck tos plen ident frag flags ttl proto src dst =
  Ok (rfc791_bytes 4 5 prec d t r (plen + 20) ident df mf frag ttl proto
        (ipv4_cksum ck tos (plen + 20) ident (flags * 8192 + frag) ttl proto src dst) src dst).
Proof. exact ipv4_matches_rfc. Qed.
Print Assumptions C08_ipv4_matches_rfc.
(* the decoder accepts the RFC 791 encoding of every supported field combination (what any
   conforming encoder, e.g. etherparse, produces) and extracts the same fields *)
Theorem C08_ipv4_decode_rfc : forall fck ftl ck prec d t r plen ident df mf frag ttl proto src dst payload,
  0 <= prec < 8 -> 0 <= d < 2 -> 0 <= t < 2 -> 0 <= r < 2 ->
  0 <= plen -> plen + 20 <= 65535 -> u16 ident -> 0 <= df < 2 -> 0 <= mf < 2 -> 0 <= frag <= 8191 ->
  u8 ttl -> u8 proto -> u32 src -> u32 dst ->
  let tos := prec * 32 + d * 16 + t * 8 + r * 4 in
  let flags := df * 2 + mf in
  let cks := ipv4_cksum ck tos (plen + 20) ident (flags * 8192 + frag) ttl proto src dst in
  ipv4_decode fck ftl ck
    (rfc791_bytes 4 5 prec d t r (plen + 20) ident df mf frag ttl proto cks src dst ++ payload)
  = Ok (mk_ipv4 5 tos (plen + 20) ident frag flags ttl proto cks src dst).
Proof. exact ipv4_decode_rfc. Qed.
Print Assumptions C08_ipv4_decode_rfc.
(* the typed constructors produce exactly the numbers used above *)
Theorem C08_ipv4_tos_new : forall prec d t r, 0 <= prec < 8 -> 0 <= d < 2 -> 0 <= t < 2 -> 0 <= r < 2 ->
  tos_new prec d t r = prec * 32 + d * 16 + t * 8 + r * 4.
Proof. exact tos_new_arith. Qed.
Print Assumptions C08_ipv4_tos_new.
Theorem C08_ipv4_cf_new : forall may last,
  cf_new may last = b2z (negb may) * 2 + b2z (negb last) /\
  cf_may_fragment (cf_new may last) = may /\ cf_is_last (cf_new may last) = last.
Proof. intros [|] [|]; vm_compute; auto. Qed.
Print Assumptions C08_ipv4_cf_new.
(* the decoder extracts exactly the fields of the RFC diagram from whatever it accepts (so in
   particular from the output of any conforming encoder) *)
Theorem C08_ipv4_decode_fields_rfc : forall fck ftl ck bs h, bytes bs ->
  ipv4_decode fck ftl ck bs = Ok h -> h = rfc791_fields bs.
Proof.
  intros fck ftl ck bs h Hb H. apply ipv4_decode_ok_iff in H as (L & _ & _ & ->).
  apply ipv4_view_fields_rfc; assumption.
Qed.
Print Assumptions C08_ipv4_decode_fields_rfc.
(* builder failure paths: exactly the two documented errors *)
Theorem C08_ipv4_build_long : forall ck tos plen ident frag flags ttl proto src dst,
  65535 < plen + 20 -> ipv4_build ck tos plen ident frag flags ttl proto src dst = Err EB_LONG.
Proof. intros. unfold ipv4_build. cbv zeta. replace (65535 <? plen + 20) with true by lia. reflexivity. Qed.
Print Assumptions C08_ipv4_build_long.
Theorem C08_ipv4_build_frag : forall ck tos plen ident frag flags ttl proto src dst,
  plen + 20 <= 65535 -> 8191 < frag ->
  ipv4_build ck tos plen ident frag flags ttl proto src dst = Err EB_FRAG.
Proof.
  intros. unfold ipv4_build. cbv zeta. replace (65535 <? plen + 20) with false by lia.
  replace (8191 <? frag) with true by lia. reflexivity.
Qed.
Print Assumptions C08_ipv4_build_frag.

(* ========================================================================= UDP *)

(* all ports, all addresses, every payload up to the 16-bit limit (65527 bytes): the built
   header is the RFC 768 header and decoding header ++ payload gives the same fields back *)
Theorem C08_udp_decode_encode_rfc : forall ck sa sp da dp text,
  u32 sa -> u16 sp -> u32 da -> u16 dp -> bytes text -> Z.of_nat (length text) + 8 <= 65535 ->
  exists c, u16 c /\
    udp_build ck sa sp da dp text (Z.of_nat (length text)) =
      Ok (rfc768_bytes sp dp (Z.of_nat (length text) + 8) c) /\
    udp_decode ck (rfc768_bytes sp dp (Z.of_nat (length text) + 8) c ++ text)
               (Z.of_nat (length text) + 8) sa da = Ok (mk_udp sp dp (Z.of_nat (length text) + 8) c).
Proof.
  intros ck sa sp da dp text Hsa Hsp Hda Hdp Ht Hlen. assert (Hn : u16 (Z.of_nat (length text) + 8)) by (unfold u16; lia).
  destruct (udp_decode_built ck sa sp da dp text _ Hsa Hsp Hda Hdp Ht Hn) as [Hc Hd].
  eexists. split; [exact Hc|]. rewrite <- udp_matches_rfc by assumption. split; [apply udp_build_ok; lia | exact Hd].
Qed.
Print Assumptions C08_udp_decode_encode_rfc.

(* an accepted datagram (packet_len = its length, as udp.rs l.115 passes) re-encodes to its
   8 header bytes *)
Theorem C08_udp_encode_decode : forall ck bs sa da h, bytes bs -> u32 sa -> u32 da ->
  udp_decode ck bs (Z.of_nat (length bs)) sa da = Ok h ->
  udp_build ck sa (ud_sport h) da (ud_dport h) (skipn 8 bs) (ud_len h - 8) = Ok (firstn 8 bs).
Proof. exact udp_encode_decode. Qed.
Print Assumptions C08_udp_encode_decode.
Theorem C08_udp_decode_fields_rfc : forall ck bs plen sa da h, bytes bs ->
  udp_decode ck bs plen sa da = Ok h -> h = rfc768_fields bs.
Proof. exact udp_decode_fields_rfc. Qed.
Print Assumptions C08_udp_decode_fields_rfc.
(* payloads beyond the limit are the documented error, never a wrapped length *)
Theorem C08_udp_build_long : forall ck sa sp da dp text tlen, 65535 < tlen + 8 -> tlen + 8 <= usize_max ->
  udp_build ck sa sp da dp text tlen = Err EUB_LONG.
Proof.
  intros. unfold udp_build. cbv zeta. replace (usize_max <? tlen + 8) with false by lia.
  replace (65535 <? tlen + 8) with true by lia. reflexivity.
Qed.
Print Assumptions C08_udp_build_long.

(* ========================================================================= TCP *)

(* all ports, seq/ack, windows, urgent pointers, ALL 64 control-bit combinations (ctl < 64 is
   universally quantified), every payload up to 65515 bytes *)
Theorem C08_tcp_decode_encode : forall fck ck h0 sa da text,
  tcp_fields_ok h0 -> u32 sa -> u32 da -> bytes text -> Z.of_nat (length text) + 20 <= 65535 ->
  exists h, tcp_build ck h0 sa da text (Z.of_nat (length text)) = Ok h /\
            length (tcp_encode h) = 20%nat /\
            t_sport h = t_sport h0 /\ t_dport h = t_dport h0 /\ t_seq h = t_seq h0 /\ t_ack h = t_ack h0 /\
            t_doff h = 5 /\ t_ctl h = t_ctl h0 /\ t_wnd h = t_wnd h0 /\ t_urg h = t_urg h0 /\
            tcp_decode fck ck (tcp_encode h ++ text) (Z.of_nat (length text) + 20) sa da = Ok h.
Proof. exact tcp_decode_encode. Qed.
Print Assumptions C08_tcp_decode_encode.
Example C08_tcp_fields_ok_example : tcp_fields_ok (mk_tcp 65535 0 4294967295 0 0 63 65535 65535 0).
Proof. unfold tcp_fields_ok, u16, u32. cbn. lia. Qed.
Print Assumptions C08_tcp_fields_ok_example.

(* the second clause is FALSE for TCP: the decoder masks the reserved bits away (as RFC 9293
   asks of a receiver), so a segment with such a bit set is accepted but not reproduced.
   Recorded finding class `tcp-reserved-bits` = [tcp_reserved_bits bs = true]. *)
Theorem C08_tcp_encode_decode_refuted :
  exists h, tcp_decode true false tcp_reserved_witness 20 0 0 = Ok h /\
            tcp_reserved_bits tcp_reserved_witness = true /\
            tcp_encode h <> firstn 20 tcp_reserved_witness.
Proof.
  exists (mk_tcp 1 2 3 4 5 2 5 6 0). split; [vm_compute; reflexivity|].
  split; [vm_compute; reflexivity | vm_compute; discriminate].
Qed.
Print Assumptions C08_tcp_encode_decode_refuted.
(* outside the class the clause holds ... *)
Theorem C08_tcp_encode_decode : forall fck ck bs plen sa da h, bytes bs ->
  tcp_reserved_bits bs = false ->
  tcp_decode fck ck bs plen sa da = Ok h -> tcp_encode h = firstn 20 bs.
Proof. intros fck ck bs plen sa da h Hb Hr H. apply (tcp_encode_decode_iff fck ck bs plen sa da h Hb H), Hr. Qed.
Print Assumptions C08_tcp_encode_decode.
(* ... the class is exact ... *)
Theorem C08_tcp_encode_decode_iff : forall fck ck bs plen sa da h, bytes bs ->
  tcp_decode fck ck bs plen sa da = Ok h ->
  (tcp_encode h = firstn 20 bs <-> tcp_reserved_bits bs = false).
Proof. exact tcp_encode_decode_iff. Qed.
Print Assumptions C08_tcp_encode_decode_iff.
(* ... and inside it nothing but the reserved bits changes *)
Theorem C08_tcp_encode_decode_masked : forall fck ck bs plen sa da h, bytes bs ->
  tcp_decode fck ck bs plen sa da = Ok h ->
  tcp_encode h = firstn 12 bs ++ [band (nth 12 bs 0) 240; band (nth 13 bs 0) 63] ++ firstn 6 (skipn 14 bs).
Proof. exact tcp_encode_decode_masked. Qed.
Print Assumptions C08_tcp_encode_decode_masked.

Theorem C08_tcp_matches_rfc : forall sp dp seq ack doff u a p r s f wnd cks urgp,
  u16 sp -> u16 dp -> u32 seq -> u32 ack -> 0 <= doff < 16 -> u16 wnd -> u16 cks -> u16 urgp ->
  tcp_encode (mk_tcp sp dp seq ack doff (ctl_new u a p r s f) wnd urgp cks) =
  rfc9293_bytes sp dp seq ack doff 0 0 0 (b2zt u) (b2zt a) (b2zt p) (b2zt r) (b2zt s) (b2zt f) wnd cks urgp.
Proof. exact tcp_matches_rfc. Qed.
Print Assumptions C08_tcp_matches_rfc.
(* builder output = RFC 9293 bytes, and the decoder accepts them with the same fields *)
Theorem C08_tcp_decode_rfc : forall fck ck sp dp seq ack u a p r s f wnd urg sa da text,
  u16 sp -> u16 dp -> u32 seq -> u32 ack -> u16 wnd -> u16 urg -> u32 sa -> u32 da ->
  bytes text -> Z.of_nat (length text) + 20 <= 65535 ->
  let n := Z.of_nat (length text) in
  let ctl := ctl_new u a p r s f in
  exists c, u16 c /\
    tcp_build ck (mk_tcp sp dp seq ack 0 ctl wnd urg 0) sa da text n = Ok (mk_tcp sp dp seq ack 5 ctl wnd urg c) /\
    tcp_decode fck ck
      (rfc9293_bytes sp dp seq ack 5 0 0 0 (b2zt u) (b2zt a) (b2zt p) (b2zt r) (b2zt s) (b2zt f) wnd c urg ++ text)
      (n + 20) sa da = Ok (mk_tcp sp dp seq ack 5 ctl wnd urg c).
Proof. exact tcp_decode_rfc. Qed.
Print Assumptions C08_tcp_decode_rfc.
Theorem C08_tcp_decode_fields_rfc : forall fck ck bs plen sa da h, bytes bs ->
  tcp_decode fck ck bs plen sa da = Ok h ->
  t_sport h = t_sport (rfc9293_fields bs) /\ t_dport h = t_dport (rfc9293_fields bs) /\
  t_seq h = t_seq (rfc9293_fields bs) /\ t_ack h = t_ack (rfc9293_fields bs) /\
  t_doff h = t_doff (rfc9293_fields bs) /\ t_ctl h = t_ctl (rfc9293_fields bs) /\
  t_wnd h = t_wnd (rfc9293_fields bs) /\ t_urg h = t_urg (rfc9293_fields bs) /\
  t_ck h = t_ck (rfc9293_fields bs).
Proof. exact tcp_decode_fields_rfc. Qed.
Print Assumptions C08_tcp_decode_fields_rfc.

(* control bits: sweeps over the finite domains (vm_compute, lifted with forallb_forall) *)
Theorem C08_tcp_ctl_new_spec : forall u a p r s f,
  let c := ctl_new u a p r s f in
  c = ctl_arith u a p r s f /\ 0 <= c < 64 /\
  ctl_urg c = u /\ ctl_ack c = a /\ ctl_psh c = p /\ ctl_rst c = r /\ ctl_syn c = s /\ ctl_fin c = f.
Proof. exact ctl_new_spec. Qed.
Print Assumptions C08_tcp_ctl_new_spec.
Theorem C08_tcp_ctl_all_64 : forall c, 0 <= c < 64 ->
  ctl_new (ctl_urg c) (ctl_ack c) (ctl_psh c) (ctl_rst c) (ctl_syn c) (ctl_fin c) = c.
Proof. exact ctl_all_64. Qed.
Print Assumptions C08_tcp_ctl_all_64.
Theorem C08_tcp_ctl_set_bit : forall c bit st, 0 <= c < 256 -> 0 <= bit < 6 ->
  ctl_bit (ctl_set_bit c bit st) bit = st /\ 0 <= ctl_set_bit c bit st < 256 /\
  forall k, 0 <= k < 8 -> k <> bit -> Z.testbit (ctl_set_bit c bit st) k = Z.testbit c k.
Proof. intros c bit st Hc Hb. apply ctl_set_bit_spec; lia. Qed.
Print Assumptions C08_tcp_ctl_set_bit.
Theorem C08_tcp_build_long : forall ck h sa da text tlen, 65535 < tlen + 20 -> tlen + 20 <= usize_max_t ->
  tcp_build ck h sa da text tlen = Err ETB_LONG.
Proof.
  intros. unfold tcp_build. cbv zeta. replace (usize_max_t <? tlen + 20) with false by lia.
  replace (65535 <? tlen + 20) with true by lia. reflexivity.
Qed.
Print Assumptions C08_tcp_build_long.
