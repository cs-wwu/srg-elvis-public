(* C14 part 1, ARP / DNS / DHCP decoders - property theorems only.

   A Rust panic is the value [Panic site] of the model; the decoders have no
   loop that needs fuel, so "not a panic" leaves only Ok and Err.  ARP and DHCP
   are total over every [list Z] (in particular every byte string of any
   length); the DNS decoder's only site is the checked `i += 1` of the rdata
   loop, excluded because rdlength is read from two bytes.
   The DHCP statement is about the decoder after .cache/codecapp/fix-dhcp.patch
   and DnsQuestion::query_name after fix-dns.patch; the code as it was is
   refuted below. *)
From Elvis Require Import Model.Base Model.AppBytes Model.Arp Model.Dns Model.Dhcp
  Proofs.AppBytesFacts Proofs.ArpFacts Proofs.DnsFacts Proofs.DhcpFacts.
Local Open Scope Z_scope.

Theorem C14_arp_total : forall bs, is_panic (arp_from_bytes bs) = false.
Proof. intros bs. apply answers_no_panic, arp_answers. Qed.
Print Assumptions C14_arp_total.

Theorem C14_arp_value_or_error : forall bs,
  (exists r, arp_from_bytes bs = Ok r) \/ (exists e, arp_from_bytes bs = Err e).
Proof. intros bs. apply answers_cases, arp_answers. Qed.
Print Assumptions C14_arp_value_or_error.

Theorem C14_dns_total : forall bs, bytes bs = true -> is_panic (dns_from_bytes bs) = false.
Proof. intros bs B. apply answers_no_panic, dns_answers, B. Qed.
Print Assumptions C14_dns_total.

Theorem C14_dns_value_or_error : forall bs, bytes bs = true ->
  (exists r, dns_from_bytes bs = Ok r) \/ (exists e, dns_from_bytes bs = Err e).
Proof. exact dns_value_or_error. Qed.
Print Assumptions C14_dns_value_or_error.

Theorem C14_dns_query_name_total : forall q, is_panic (dns_query_name q) = false.
Proof. intros q. unfold dns_query_name. destruct (utf8_valid _); reflexivity. Qed.
Print Assumptions C14_dns_query_name_total.

Theorem C14_dhcp_total : forall bs, is_panic (dhcp_from_bytes bs) = false.
Proof. intros bs. apply answers_no_panic, dhcp_answers. Qed.
Print Assumptions C14_dhcp_total.

Theorem C14_dhcp_value_or_error : forall bs,
  (exists r, dhcp_from_bytes bs = Ok r) \/ (exists e, dhcp_from_bytes bs = Err e).
Proof. intros bs. apply answers_cases, dhcp_answers. Qed.
Print Assumptions C14_dhcp_value_or_error.

(* ---- the code as it was ---- *)
Theorem C14_dhcp_orig_refuted :
  exists bs, bytes bs = true /\ is_panic (dhcp_from_bytes_orig bs) = true.
Proof. exists (dhcp_fixed29 ++ [0; 0; 0]). split; reflexivity. Qed.
Print Assumptions C14_dhcp_orig_refuted.

(* one witness per site: unreachable!(), unwrap of InvalidDhcpType, the two
   from_utf8 unwraps *)
Theorem C14_dhcp_orig_sites :
  dhcp_from_bytes_orig (dhcp_fixed29 ++ [0; 0; 0]) = Panic 31 /\
  dhcp_from_bytes_orig (dhcp_fixed29 ++ [8; 0; 0]) = Panic 32 /\
  dhcp_from_bytes_orig (dhcp_fixed29 ++ [1; 255; 0; 0]) = Panic 33 /\
  dhcp_from_bytes_orig (dhcp_fixed29 ++ [1; 0; 195; 0]) = Panic 34.
Proof. repeat split; vm_compute; reflexivity. Qed.
Print Assumptions C14_dhcp_orig_sites.

(* the repair is conservative: same answer wherever the old decoder did not
   panic, InvalidDhcpType / InvalidString where it did *)
Theorem C14_dhcp_repair_conservative : forall bs,
  (is_panic (dhcp_from_bytes_orig bs) = false -> dhcp_from_bytes bs = dhcp_from_bytes_orig bs) /\
  (is_panic (dhcp_from_bytes_orig bs) = true ->
   dhcp_from_bytes bs = Err 2 \/ dhcp_from_bytes bs = Err 3).
Proof. exact (fun bs => conj (dhcp_orig_agrees bs) (dhcp_orig_panic_now_error bs)). Qed.
Print Assumptions C14_dhcp_repair_conservative.

(* query_name on an accepted request *)
Theorem C14_dns_query_name_orig_refuted :
  exists bs m rest, bytes bs = true /\ dns_from_bytes bs = Ok (m, rest) /\
                    is_panic (dns_query_name_orig (m_question m)) = true.
Proof.
  exists [0;0; 0;0; 0;0; 0;0; 0;0; 0;0; 255; 32; 0;1; 0;1; 32; 0;1; 0;1; 0;0;0;0; 0;0].
  eexists. eexists. split; [reflexivity|]. split; [vm_compute; reflexivity | reflexivity].
Qed.
Print Assumptions C14_dns_query_name_orig_refuted.

Theorem C14_dns_query_name_repair_conservative : forall q r,
  dns_query_name_orig q = r -> is_panic r = false -> dns_query_name q = r.
Proof.
  unfold dns_query_name_orig, dns_query_name. intros q r. destruct (utf8_valid _); intros <- P;
    [reflexivity | discriminate].
Qed.
Print Assumptions C14_dns_query_name_repair_conservative.
