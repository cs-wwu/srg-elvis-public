(* C17 - property theorems only.  Each is closed by a lemma of Proofs/ or derived from general ones in a few lines; statements are pinned.
   Inv, wf_seg, wf_op, apply_op, run_ops are defined in Proofs/TcbInv.v; unacceptable,
   reply_only, same_but_oneshot, entirely_outside, within_snd_window in Proofs/TcbC17.v. *)
From Elvis Require Import Model.Base Model.U32 Model.Tcb Model.TcpNet Proofs.U32Facts Proofs.TcbEdges Proofs.TcbInv Proofs.TcbC17.
Local Open Scope Z_scope.

(* ---- the invariant holds initially ... ---- *)
Theorem C17_inv_open : forall lp rp iss mtu0, u16 lp -> u16 rp -> u32 iss ->
  SPACE_FOR_HEADERS <= mtu0 <= 65535 -> Inv (tcb_open lp rp iss mtu0).
Proof. exact tcb_open_inv. Qed.
Print Assumptions C17_inv_open.

Theorem C17_inv_listen : forall s iss mtu0 t, wf_seg s -> u32 iss ->
  SPACE_FOR_HEADERS <= mtu0 <= 65535 -> arrives_listen s iss mtu0 = LTcb t -> Inv t.
Proof. exact arrives_listen_inv. Qed.
Print Assumptions C17_inv_listen.

(* ---- ... and every operation, fed ANY well-formed segment, returns normally
   (no Panic, no OutOfFuel, no Err) and re-establishes it ---- *)
Theorem C17_arrives : forall t s, Inv t -> wf_seg s ->
  exists t' r, segment_arrives t s = Ok (t', r) /\ Inv t'.
Proof. exact segment_arrives_ok. Qed.
Print Assumptions C17_arrives.

Theorem C17_segments : forall t, Inv t ->
  exists t' segs, tcb_segments t = Ok (t', segs) /\ Inv t' /\ Forall wf_seg segs.
Proof. exact tcb_segments_ok. Qed.
Print Assumptions C17_segments.

Theorem C17_send : forall t b, Inv t -> Inv (tcb_send t b).
Proof. exact tcb_send_inv. Qed.
Print Assumptions C17_send.
Theorem C17_receive : forall t, Inv t -> Inv (fst (tcb_receive t)).
Proof. exact tcb_receive_inv. Qed.
Print Assumptions C17_receive.
Theorem C17_close : forall t, Inv t -> Inv (fst (tcb_close t)).
Proof. exact tcb_close_inv. Qed.
Print Assumptions C17_close.
Theorem C17_advance_time : forall t dt, Inv t -> 0 <= dt -> Inv (fst (advance_time t dt)).
Proof. exact advance_time_inv. Qed.
Print Assumptions C17_advance_time.

(* ---- no crash: one operation, then any sequence of operations ---- *)
Theorem C17_no_crash_step : forall t o, Inv t -> wf_op o ->
  exists r, apply_op t o = Ok r /\ Inv_opt r.
Proof. exact apply_op_ok. Qed.
Print Assumptions C17_no_crash_step.

Theorem C17_no_crash : forall ops t, Inv t -> Forall wf_op ops ->
  exists r, run_ops t ops = Ok r /\ Inv_opt r.
Proof. exact (run_ops_rule Inv apply_op_ok). Qed.
Print Assumptions C17_no_crash.

(* ---- unacceptable segments are inert ---- *)
Theorem C17_unacceptable_inert : forall t s, unacceptable t s ->
  exists t' r, process_segment t s = Ok (t', r) /\ should_delete r = false /\
    reply_only t s t' /\ same_but_oneshot t t'.
Proof.
  intros t s H. destruct (process_segment_unacceptable t s H) as (t' & r & Hp & Hd & Hr).
  exists t', r. repeat split; try assumption; apply (reply_only_same _ _ _ Hr).
Qed.
Print Assumptions C17_unacceptable_inert.

Theorem C17_unacceptable_inert_arrives : forall t s, in_segs t = [] -> unacceptable t s ->
  exists t', segment_arrives t s = Ok (t', AOk) /\ same_but_oneshot t t' /\
    ((in_segs t' = [] /\ reply_only t s t') \/ (t' = set_in_segs t [s] /\ st t <> SynSent /\
       mod_gt (h_seq (s_hdr s)) (rcv_nxt t) = true)).
Proof. exact unacceptable_inert_arrives. Qed.
Print Assumptions C17_unacceptable_inert_arrives.

(* CLOSING is covered since fix commit bbbdf8a3 (the code used to skip the sequence
   check there).  The former refutation witness - an ACK of our FIN and a RST, both
   2^31 beyond RCV.NXT, met in CLOSING - is now an instance of the theorem above,
   and computes to "state unchanged, nothing deleted". *)
Theorem C17_closing_witness_unacceptable :
  Inv closing_tcb /\ wf_seg far_ack /\ wf_seg far_rst /\
  unacceptable closing_tcb far_ack /\ unacceptable closing_tcb far_rst.
Proof. exact (conj (proj1 closing_witness_wf) (conj (proj1 (proj2 closing_witness_wf))
         (conj (proj2 (proj2 closing_witness_wf)) closing_far_unacceptable))). Qed.
Print Assumptions C17_closing_witness_unacceptable.

Theorem C17_closing_witness_inert :
  match segment_arrives closing_tcb far_ack, segment_arrives closing_tcb far_rst with
  | Ok (t1, AOk), Ok (t2, AOk) => st t1 = Closing /\ st t2 = Closing
  | _, _ => False
  end.
Proof. exact closing_now_inert. Qed.
Print Assumptions C17_closing_witness_inert.

(* is_seq_ok = false is "entirely outside [RCV.NXT-1, RCV.NXT+RCV.WND)" *)
Theorem C17_outside_is_unacceptable : forall t len seq syn fin,
  0 < rcv_wnd t <= 65535 -> u32 seq -> 0 <= len ->
  entirely_outside t seq (len + b2z fin + b2z syn) -> is_seq_ok t len seq syn fin = false.
Proof. exact outside_not_ok. Qed.
Print Assumptions C17_outside_is_unacceptable.

Theorem C17_unacceptable_is_outside : forall t len seq syn fin,
  0 < rcv_wnd t <= 65535 -> u32 seq -> 0 <= len ->
  len + b2z fin + b2z syn <= rcv_wnd t + 1 ->
  is_seq_ok t len seq syn fin = false -> entirely_outside t seq (len + b2z fin + b2z syn).
Proof. exact not_ok_outside. Qed.
Print Assumptions C17_unacceptable_is_outside.

(* ---- the send window ---- *)
Theorem C17_window : forall t t' segs, u32 (snd_wnd t) -> tcb_segments t = Ok (t', segs) ->
  snd_una t' = snd_una t /\ snd_wnd t' = snd_wnd t /\
  exists news,
    segs = map (fun h => mkSeg h []) (oneshot t) ++ map t_seg (filter t_needs (retx t)) ++ news /\
    Forall (fun s => s_text s <> [] -> within_snd_window (snd_una t') (snd_wnd t') s) news.
Proof. intros t t' segs _. apply tcb_segments_window. Qed.
Print Assumptions C17_window.

Theorem C17_window_seq : forall t t' segs, u32 (snd_wnd t) -> old_behind t ->
  tcb_segments t = Ok (t', segs) ->
  forall s, In s segs -> s_text s <> [] -> mod_geq (h_seq (s_hdr s)) (snd_nxt t) = true ->
    within_snd_window (snd_una t') (snd_wnd t') s.
Proof. intros t t' segs _. apply tcb_segments_window_seq. Qed.
Print Assumptions C17_window_seq.

(* ---- the same bound for "text-bearing and starting at or after the SND.NXT the
   call found", under the stronger invariant InvR (position of the retransmission
   queue), which is itself initial and preserved by every operation ---- *)
Theorem C17_window_new_data : forall t t' segs, InvR t -> tcb_segments t = Ok (t', segs) ->
  forall s, In s segs -> s_text s <> [] -> mod_geq (h_seq (s_hdr s)) (snd_nxt t) = true ->
    within_snd_window (snd_una t') (snd_wnd t') s.
Proof. intros t t' segs HR. apply tcb_segments_window_seq, InvR_old_behind, HR. Qed.
Print Assumptions C17_window_new_data.

Theorem C17_invR_open : forall lp rp iss mtu0, u16 lp -> u16 rp -> u32 iss ->
  SPACE_FOR_HEADERS <= mtu0 <= 65535 -> InvR (tcb_open lp rp iss mtu0).
Proof. exact tcb_open_InvR. Qed.
Print Assumptions C17_invR_open.

Theorem C17_invR_listen : forall s iss mtu0 t, wf_seg s -> u32 iss ->
  SPACE_FOR_HEADERS <= mtu0 <= 65535 -> arrives_listen s iss mtu0 = LTcb t -> InvR t.
Proof. exact arrives_listen_InvR. Qed.
Print Assumptions C17_invR_listen.

Theorem C17_invR_step : forall t o, InvR t -> wf_op o ->
  exists r, apply_op t o = Ok r /\ InvR_opt r.
Proof. exact apply_op_InvR. Qed.
Print Assumptions C17_invR_step.

Theorem C17_invR_run : forall ops t, InvR t -> Forall wf_op ops ->
  exists r, run_ops t ops = Ok r /\ InvR_opt r.
Proof. exact (run_ops_rule InvR apply_op_InvR). Qed.
Print Assumptions C17_invR_run.

(* finding kept as a theorem: an ACK exactly 2^31 ahead of SND.UNA = SND.NXT is
   accepted and SND.UNA jumps past SND.NXT *)
Theorem C17_ack_antipode_accepted :
  InvR idle_tcb /\ wf_seg antipode_ack /\
  match segment_arrives idle_tcb antipode_ack with
  | Ok (t', AOk) => snd_una t' = 101 + H31 /\ snd_nxt t' = 101 /\ flight t' = H31
  | _ => False
  end.
Proof. exact ack_antipode. Qed.
Print Assumptions C17_ack_antipode_accepted.

(* ---- the closed two-endpoint system of Model/TcpNet.v (opens, sends, reads,
   closes, ticks, delivery / loss / duplication / reordering of the endpoints'
   own segments) with forged well-formed segments injected at any point: no
   step ever raises the panicked flag ---- *)
Theorem C17_no_crash_sys : forall c b ls, wf_cfg c -> Forall wf_label ls ->
  panicked (run c (init_sys b) ls) = false /\ SysInv (run c (init_sys b) ls).
Proof.
  intros c b ls Hc Hls. pose proof (run_inv c ls Hc Hls _ (init_sys_inv b)) as H. split; [apply H|exact H].
Qed.
Print Assumptions C17_no_crash_sys.

(* ---- the two side conditions of Inv / wf_seg are needed ---- *)
Theorem C17_small_mtu_refuted : tcb_segments (tcb_open 1000 80 0 49) = Panic 5.
Proof. exact small_mtu_panics. Qed.
Print Assumptions C17_small_mtu_refuted.

Theorem C17_oversized_text_refuted : segment_arrives idle_tcb oversized_seg = Panic 2.
Proof. exact oversized_text_panics. Qed.
Print Assumptions C17_oversized_text_refuted.
