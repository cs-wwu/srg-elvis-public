(* C18 - checksums (cargo feature compute_checksum = model switch ck = true) - property
   theorems only.  fck = receive-side repair c999f3a6 (true = the code as it is now).
   Notions: [words] = big-endian 16-bit words with a zero-padded odd tail; [oc_sum] = fold of
   the end-around-carry addition = one's-complement sum; [rfc1071_verifies bs] = that sum over
   all words INCLUDING the checksum field is 0xffff; for UDP / TCP the summed string is the
   12-byte pseudo header followed by the segment. *)
From Elvis Require Import Model.Base Model.Bytes Model.Checksum Model.Ipv4Hdr Model.UdpHdr Model.TcpHdr
  Proofs.BytesFacts Proofs.ChecksumFacts Proofs.Ipv4HdrFacts Proofs.UdpHdrFacts Proofs.TcpHdrFacts.
Local Open Scope Z_scope.

(* ------------------------------------------------------------------ the arithmetic *)
(* the Rust adder (overflowing_add + carry) is the end-around-carry addition and cannot panic *)
Theorem C18_add16_is_code : forall acc v, u16 acc -> u16 v -> add_u16_checked acc v = Ok (add16 acc v).
Proof. exact add_u16_checked_ok. Qed.
Print Assumptions C18_add16_is_code.
(* one's-complement sum = integer sum modulo 65535, in closed form *)
Theorem C18_oc_sum_norm : forall ws, Forall u16 ws -> oc_sum ws = oc_norm (zsum ws).
Proof. exact oc_sum_norm. Qed.
Print Assumptions C18_oc_sum_norm.
Theorem C18_acc_congr : forall ws, Forall u16 ws -> oc_sum ws mod 65535 = zsum ws mod 65535.
Proof. exact acc_congr. Qed.
Print Assumptions C18_acc_congr.
Theorem C18_oc_sum_zero_iff : forall ws, Forall u16 ws -> (oc_sum ws = 0 <-> Forall (fun w => w = 0) ws).
Proof. exact oc_sum_zero_iff. Qed.
Print Assumptions C18_oc_sum_zero_iff.
(* the deferred-carry formulation of RFC 1071 4.1 is the same function *)
Theorem C18_fold32 : forall s, 0 <= s < 4294967296 -> fold32 s = oc_norm s.
Proof. exact fold32_norm. Qed.
Print Assumptions C18_fold32.
(* as_u16 against the conforming value 65535 - sum: equal except that for a sum of 0xffff the
   code emits 0xffff where a conforming IPv4 / TCP sender emits 0x0000 (both verify) *)
Theorem C18_as_u16_conforming : forall s, 0 < s ->
  (oc_norm s <> 65535 -> as_u16 true (oc_norm s) = 65535 - oc_norm s) /\
  (oc_norm s = 65535 -> as_u16 true (oc_norm s) = 65535 /\ 65535 - oc_norm s = 0).
Proof. exact as_u16_conforming. Qed.
Print Assumptions C18_as_u16_conforming.
Theorem C18_emitted_sum_verifies : forall s, 0 <= s -> oc_norm (s + as_u16 true (oc_norm s)) = 65535.
Proof. exact emitted_sum_verifies. Qed.
Print Assumptions C18_emitted_sum_verifies.

(* ------------------------------------------------------------------ emitted packets verify *)
Theorem C18_ipv4_emitted_verifies : forall tos plen ident frag flags ttl proto src dst bs,
  u8 tos -> 0 <= plen -> plen + 20 <= 65535 -> u16 ident -> 0 <= frag <= 8191 -> 0 <= flags < 8 ->
  u8 ttl -> u8 proto -> u32 src -> u32 dst ->
  ipv4_build true tos plen ident frag flags ttl proto src dst = Ok bs ->
  length bs = 20%nat /\ rfc1071_verifies bs = true.
Proof. exact ipv4_emitted_verifies. Qed.
Print Assumptions C18_ipv4_emitted_verifies.
(* every payload content and length, odd and empty included; the field is never 0x0000 *)
Theorem C18_udp_emitted_verifies : forall sa sp da dp text hdr,
  u32 sa -> u16 sp -> u32 da -> u16 dp -> bytes text -> Z.of_nat (length text) + 8 <= 65535 ->
  udp_build true sa sp da dp text (Z.of_nat (length text)) = Ok hdr ->
  length hdr = 8%nat /\
  rfc1071_verifies (pseudo sa da 17 (Z.of_nat (length text) + 8) ++ hdr ++ text) = true /\
  of_be16 (nth 6 hdr 0) (nth 7 hdr 0) <> 0.
Proof. exact udp_emitted_verifies. Qed.
Print Assumptions C18_udp_emitted_verifies.
Theorem C18_tcp_emitted_verifies : forall h0 sa da text h,
  tcp_fields_ok h0 -> u32 sa -> u32 da -> bytes text -> Z.of_nat (length text) + 20 <= 65535 ->
  tcp_build true h0 sa da text (Z.of_nat (length text)) = Ok h ->
  rfc1071_verifies (pseudo sa da 6 (Z.of_nat (length text) + 20) ++ tcp_encode h ++ text) = true.
Proof. exact tcp_emitted_verifies. Qed.
Print Assumptions C18_tcp_emitted_verifies.

(* ------------------------------------------------------------------ what the decoders accept *)
Theorem C18_ipv4_accept_iff : forall bs, bytes bs -> (20 <= length bs)%nat ->
  ((exists h, ipv4_decode true true true bs = Ok h) <->
   ipv4_struct_ok bs = true /\ rfc1071_verifies (firstn 20 bs) = true).
Proof. exact ipv4_accept_iff. Qed.
Print Assumptions C18_ipv4_accept_iff.
Theorem C18_udp_accept_iff : forall bs plen sa da, bytes bs -> (8 <= length bs)%nat -> u32 sa -> u32 da ->
  let len := of_be16 (nth 4 bs 0) (nth 5 bs 0) in
  let field := of_be16 (nth 6 bs 0) (nth 7 bs 0) in
  ((exists h, udp_decode true bs plen sa da = Ok h) <->
   plen = len /\ field <> 0 /\ rfc1071_verifies (pseudo sa da 17 len ++ bs) = true).
Proof. exact udp_accept_iff. Qed.
Print Assumptions C18_udp_accept_iff.
Theorem C18_tcp_accept_iff : forall bs plen sa da, bytes bs -> (20 <= length bs)%nat -> u32 sa -> u32 da -> 0 <= plen ->
  ((exists h, tcp_decode true true bs plen sa da = Ok h) <->
   shr (nth 12 bs 0) 4 = 5 /\ plen <= 65535 /\ rfc1071_verifies (pseudo sa da 6 plen ++ bs) = true).
Proof. exact tcp_accept_iff. Qed.
Print Assumptions C18_tcp_accept_iff.

(* conforming senders are accepted (after repair c999f3a6) *)
Theorem C18_ipv4_accepts_reference : forall b1 b2 b3 b4 b5 b6 b7 b8 b9 b12 b13 b14 b15 b16 b17 b18 b19 rest,
  bytes [b1; b2; b3; b4; b5; b6; b7; b8; b9; b12; b13; b14; b15; b16; b17; b18; b19] ->
  let zeroed := [69; b1; b2; b3; b4; b5; b6; b7; b8; b9; 0; 0; b12; b13; b14; b15; b16; b17; b18; b19] in
  let c := rfc1071_checksum zeroed in
  let hdr := [69; b1; b2; b3; b4; b5; b6; b7; b8; b9; c / 256 mod 256; c mod 256;
              b12; b13; b14; b15; b16; b17; b18; b19] in
  ipv4_struct_ok hdr = true ->
  exists h, ipv4_decode true true true (hdr ++ rest) = Ok h /\ h = rfc791_fields hdr.
Proof.
  intros b1 b2 b3 b4 b5 b6 b7 b8 b9 b12 b13 b14 b15 b16 b17 b18 b19 rest Hb zeroed c hdr Hs.
  exact (ipv4_accepts_reference_c b1 b2 b3 b4 b5 b6 b7 b8 b9 b12 b13 b14 b15 b16 b17 b18 b19 rest c Hb eq_refl Hs).
Qed.
Print Assumptions C18_ipv4_accepts_reference.
Theorem C18_udp_accepts_reference : forall sa sp da dp text,
  u32 sa -> u16 sp -> u32 da -> u16 dp -> bytes text -> Z.of_nat (length text) + 8 <= 65535 ->
  let len := Z.of_nat (length text) + 8 in
  let zeroed := be16 sp ++ be16 dp ++ be16 len ++ [0; 0] in
  let c0 := rfc1071_checksum (pseudo sa da 17 len ++ zeroed ++ text) in
  let c := if c0 =? 0 then 65535 else c0 in
  udp_decode true ((be16 sp ++ be16 dp ++ be16 len ++ be16 c) ++ text) len sa da
    = Ok (mk_udp sp dp len c).
Proof. exact udp_accepts_reference. Qed.
Print Assumptions C18_udp_accepts_reference.
Theorem C18_tcp_accepts_reference : forall sp dp seq ack ctl wnd urg sa da text,
  u16 sp -> u16 dp -> u32 seq -> u32 ack -> 0 <= ctl < 64 -> u16 wnd -> u16 urg -> u32 sa -> u32 da ->
  bytes text -> Z.of_nat (length text) + 20 <= 65535 ->
  let len := Z.of_nat (length text) + 20 in
  let c := rfc1071_checksum (pseudo sa da 6 len ++ tcp_encode (mk_tcp sp dp seq ack 5 ctl wnd urg 0) ++ text) in
  tcp_decode true true (tcp_encode (mk_tcp sp dp seq ack 5 ctl wnd urg c) ++ text) len sa da
    = Ok (mk_tcp sp dp seq ack 5 ctl wnd urg c).
Proof. exact tcp_accepts_reference. Qed.
Print Assumptions C18_tcp_accepts_reference.
(* before the repair this was false for IPv4 and TCP whenever the other words sum to 0xffff:
   witnesses (conforming field 0x0000, rejected with "expected 0, actual 0xffff") *)
Theorem C18_ipv4_accepts_reference_orig_refuted :
  rfc1071_verifies ipv4_ffff_witness = true /\
  nth 10 ipv4_ffff_witness 0 * 256 + nth 11 ipv4_ffff_witness 0 = rfc1071_checksum ipv4_ffff_witness /\
  ipv4_decode false true true ipv4_ffff_witness = Err (E_CK 0 65535) /\
  is_ok (ipv4_decode true true true ipv4_ffff_witness) = true.
Proof. vm_compute. auto. Qed.
Print Assumptions C18_ipv4_accepts_reference_orig_refuted.
Theorem C18_tcp_accepts_reference_orig_refuted :
  rfc1071_verifies (pseudo 0 0 6 20 ++ tcp_ffff_witness) = true /\
  rfc1071_checksum (pseudo 0 0 6 20 ++ tcp_ffff_witness) = 0 /\
  tcp_decode false true tcp_ffff_witness 20 0 0 = Err (ET_CK 0 65535) /\
  is_ok (tcp_decode true true tcp_ffff_witness 20 0 0) = true.
Proof. vm_compute. auto. Qed.
Print Assumptions C18_tcp_accepts_reference_orig_refuted.

(* ------------------------------------------------------------------ corruption *)
(* "altered in a way the Internet checksum can detect" = the covered word sum changes modulo
   65535 (the pseudo header is the same on both sides, so it cancels) *)
Theorem C18_ipv4_corruption_detected : forall fck ftl bs bs' h, bytes bs -> bytes bs' ->
  ipv4_decode fck ftl true bs = Ok h ->
  wsum (firstn 20 bs') mod 65535 <> wsum (firstn 20 bs) mod 65535 ->
  forall h', ipv4_decode fck ftl true bs' <> Ok h'.
Proof.
  intros fck ftl. exact (corruption_detected (ipv4_decode fck ftl true) (firstn 20) [] (Forall_nil _) eq_refl
                           (bytes_firstn 20) (ipv4_accepted_verifies fck ftl)).
Qed.
Print Assumptions C18_ipv4_corruption_detected.
Theorem C18_udp_corruption_detected : forall bs bs' plen sa da h, bytes bs -> bytes bs' -> u32 sa -> u32 da ->
  udp_decode true bs plen sa da = Ok h ->
  wsum bs' mod 65535 <> wsum bs mod 65535 ->
  forall h', udp_decode true bs' plen sa da <> Ok h'.
Proof.
  intros bs bs' plen sa da h Hb Hb' Hsa Hda.
  exact (corruption_detected (fun bs => udp_decode true bs plen sa da) (fun bs => bs) (pseudo sa da 17 plen)
           (pseudo_bytes _ _ _ _ (byte_lit 17 eq_refl)) eq_refl (fun _ B => B) (udp_accepted_verifies plen sa da Hsa Hda) bs bs' h Hb Hb').
Qed.
Print Assumptions C18_udp_corruption_detected.
Theorem C18_tcp_corruption_detected : forall fck bs bs' plen sa da h, bytes bs -> bytes bs' -> u32 sa -> u32 da ->
  0 <= plen ->
  tcp_decode fck true bs plen sa da = Ok h ->
  wsum bs' mod 65535 <> wsum bs mod 65535 ->
  forall h', tcp_decode fck true bs' plen sa da <> Ok h'.
Proof.
  intros fck bs bs' plen sa da h Hb Hb' Hsa Hda Hp.
  exact (corruption_detected (fun bs => tcp_decode fck true bs plen sa da) (fun bs => bs) (pseudo sa da 6 plen)
           (pseudo_bytes _ _ _ _ (byte_lit 6 eq_refl)) eq_refl (fun _ B => B) (tcp_accepted_verifies fck plen sa da Hsa Hda Hp) bs bs' h Hb Hb').
Qed.
Print Assumptions C18_tcp_corruption_detected.

(* a single flipped bit always changes the sum (2^k is no multiple of 65535) ... *)
Theorem C18_single_flip_changes_sum : forall bs i j extra, (i < length bs)%nat -> bytes bs -> 0 <= j < 8 ->
  (extra + wsum (flip_at bs i j)) mod 65535 <> (extra + wsum bs) mod 65535.
Proof. exact single_flip_changes_sum. Qed.
Print Assumptions C18_single_flip_changes_sum.
(* ... so every single-bit corruption of an accepted packet is rejected *)
Theorem C18_ipv4_single_flip_rejected : forall fck ftl bs h i j, bytes bs ->
  ipv4_decode fck ftl true bs = Ok h -> (i < 20)%nat -> 0 <= j < 8 ->
  forall h', ipv4_decode fck ftl true (flip_at bs i j) <> Ok h'.
Proof.
  intros fck ftl bs h i j Hb H Hi.
  exact (single_flip_rejected (ipv4_decode fck ftl true) (firstn 20) [] (Forall_nil _) eq_refl (bytes_firstn 20)
           (firstn_flip_cover 20) (ipv4_accepted_verifies fck ftl) bs h i j Hb H (firstn20_length _ _ _ _ _ _ H Hi)).
Qed.
Print Assumptions C18_ipv4_single_flip_rejected.
Theorem C18_udp_single_flip_rejected : forall bs plen sa da h i j, bytes bs -> u32 sa -> u32 da ->
  udp_decode true bs plen sa da = Ok h -> (i < length bs)%nat -> 0 <= j < 8 ->
  forall h', udp_decode true (flip_at bs i j) plen sa da <> Ok h'.
Proof.
  intros bs plen sa da h i j Hb Hsa Hda.
  exact (single_flip_rejected (fun bs => udp_decode true bs plen sa da) (fun bs => bs) (pseudo sa da 17 plen)
           (pseudo_bytes _ _ _ _ (byte_lit 17 eq_refl)) eq_refl (fun _ B => B) (fun _ _ _ _ => eq_refl)
           (udp_accepted_verifies plen sa da Hsa Hda) bs h i j Hb).
Qed.
Print Assumptions C18_udp_single_flip_rejected.
Theorem C18_tcp_single_flip_rejected : forall fck bs plen sa da h i j, bytes bs -> u32 sa -> u32 da -> 0 <= plen ->
  tcp_decode fck true bs plen sa da = Ok h -> (i < length bs)%nat -> 0 <= j < 8 ->
  forall h', tcp_decode fck true (flip_at bs i j) plen sa da <> Ok h'.
Proof.
  intros fck bs plen sa da h i j Hb Hsa Hda Hp.
  exact (single_flip_rejected (fun bs => tcp_decode fck true bs plen sa da) (fun bs => bs) (pseudo sa da 6 plen)
           (pseudo_bytes _ _ _ _ (byte_lit 6 eq_refl)) eq_refl (fun _ B => B) (fun _ _ _ _ => eq_refl)
           (tcp_accepted_verifies fck plen sa da Hsa Hda Hp) bs h i j Hb).
Qed.
Print Assumptions C18_tcp_single_flip_rejected.

(* two flipped bits: the sum is unchanged exactly for the compensating pairs - same bit position
   in two 16-bit words, one bit was 0 and the other 1 *)
Theorem C18_double_flip_unchanged_iff : forall bs i1 j1 i2 j2 extra,
  (i1 < length bs)%nat -> (i2 < length bs)%nat -> bytes bs -> 0 <= j1 < 8 -> 0 <= j2 < 8 ->
  (i1 <> i2 \/ j1 <> j2) ->
  ((extra + wsum (flip_at (flip_at bs i1 j1) i2 j2)) mod 65535 = (extra + wsum bs) mod 65535
   <-> bit_exp i1 j1 = bit_exp i2 j2 /\
       Z.testbit (nth i1 bs 0) j1 <> Z.testbit (nth i2 bs 0) j2).
Proof. exact double_flip_unchanged_iff. Qed.
Print Assumptions C18_double_flip_unchanged_iff.
Theorem C18_ipv4_double_flip_rejected : forall fck ftl bs h i1 j1 i2 j2, bytes bs ->
  ipv4_decode fck ftl true bs = Ok h -> (i1 < 20)%nat -> (i2 < 20)%nat -> 0 <= j1 < 8 -> 0 <= j2 < 8 ->
  (i1 <> i2 \/ j1 <> j2) ->
  ~ (bit_exp i1 j1 = bit_exp i2 j2 /\ Z.testbit (nth i1 bs 0) j1 <> Z.testbit (nth i2 bs 0) j2) ->
  forall h', ipv4_decode fck ftl true (flip_at (flip_at bs i1 j1) i2 j2) <> Ok h'.
Proof.
  intros fck ftl bs h i1 j1 i2 j2 Hb H Hi1 Hi2.
  exact (double_flip_rejected (ipv4_decode fck ftl true) (firstn 20) [] (Forall_nil _) eq_refl (bytes_firstn 20)
           (firstn_flip_cover 20) (firstn_nth_cover 20) (ipv4_accepted_verifies fck ftl) bs h i1 j1 i2 j2 Hb H
           (firstn20_length _ _ _ _ _ _ H Hi1) (firstn20_length _ _ _ _ _ _ H Hi2)).
Qed.
Print Assumptions C18_ipv4_double_flip_rejected.
Theorem C18_udp_double_flip_rejected : forall bs plen sa da h i1 j1 i2 j2, bytes bs -> u32 sa -> u32 da ->
  udp_decode true bs plen sa da = Ok h ->
  (i1 < length bs)%nat -> (i2 < length bs)%nat -> 0 <= j1 < 8 -> 0 <= j2 < 8 -> (i1 <> i2 \/ j1 <> j2) ->
  ~ (bit_exp i1 j1 = bit_exp i2 j2 /\ Z.testbit (nth i1 bs 0) j1 <> Z.testbit (nth i2 bs 0) j2) ->
  forall h', udp_decode true (flip_at (flip_at bs i1 j1) i2 j2) plen sa da <> Ok h'.
Proof.
  intros bs plen sa da h i1 j1 i2 j2 Hb Hsa Hda.
  exact (double_flip_rejected (fun bs => udp_decode true bs plen sa da) (fun bs => bs) (pseudo sa da 17 plen)
           (pseudo_bytes _ _ _ _ (byte_lit 17 eq_refl)) eq_refl (fun _ B => B) (fun _ _ _ _ => eq_refl) (fun _ _ _ => eq_refl)
           (udp_accepted_verifies plen sa da Hsa Hda) bs h i1 j1 i2 j2 Hb).
Qed.
Print Assumptions C18_udp_double_flip_rejected.
Theorem C18_tcp_double_flip_rejected : forall fck bs plen sa da h i1 j1 i2 j2, bytes bs -> u32 sa -> u32 da -> 0 <= plen ->
  tcp_decode fck true bs plen sa da = Ok h ->
  (i1 < length bs)%nat -> (i2 < length bs)%nat -> 0 <= j1 < 8 -> 0 <= j2 < 8 -> (i1 <> i2 \/ j1 <> j2) ->
  ~ (bit_exp i1 j1 = bit_exp i2 j2 /\ Z.testbit (nth i1 bs 0) j1 <> Z.testbit (nth i2 bs 0) j2) ->
  forall h', tcp_decode fck true (flip_at (flip_at bs i1 j1) i2 j2) plen sa da <> Ok h'.
Proof.
  intros fck bs plen sa da h i1 j1 i2 j2 Hb Hsa Hda Hp.
  exact (double_flip_rejected (fun bs => tcp_decode fck true bs plen sa da) (fun bs => bs) (pseudo sa da 6 plen)
           (pseudo_bytes _ _ _ _ (byte_lit 6 eq_refl)) eq_refl (fun _ B => B) (fun _ _ _ _ => eq_refl) (fun _ _ _ => eq_refl)
           (tcp_accepted_verifies fck plen sa da Hsa Hda Hp) bs h i1 j1 i2 j2 Hb).
Qed.
Print Assumptions C18_tcp_double_flip_rejected.
