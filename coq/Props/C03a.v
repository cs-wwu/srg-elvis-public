(* C03 (a) - property theorems only: every move of an endpoint is an edge of the
   RFC 9293 Figure 5 diagram (closed under the composite moves of one arrival).
   rfc_edge, rfc_path, one_arrival are defined in Proofs/TcbEdges.v. *)
From Elvis Require Import Model.Base Model.U32 Model.Tcb Proofs.TcbEdges Proofs.TcbInv Proofs.TcbC17.
Local Open Scope Z_scope.

Theorem C03_edges : forall t s t' r,
  process_segment t s = Ok (t', r) -> rfc_edge (st t) (st t') = true.
Proof. exact process_segment_edge. Qed.
Print Assumptions C03_edges.

Theorem C03_edges_arrives : forall t s t' r,
  segment_arrives t s = Ok (t', r) -> rfc_path (st t) (st t').
Proof. exact segment_arrives_path. Qed.
Print Assumptions C03_edges_arrives.

Theorem C03_edges_arrives_one : forall t s t' r,
  in_segs t = [] -> segment_arrives t s = Ok (t', r) -> rfc_edge (st t) (st t') = true.
Proof. exact segment_arrives_edge_one. Qed.
Print Assumptions C03_edges_arrives_one.

Theorem C03_edges_close : forall t, rfc_edge (st t) (st (fst (tcb_close t))) = true.
Proof.
  intros t. destruct (tcb_close_exact t) as [[-> ->]|[[-> ->]|[[-> ->]|[-> _]]]]; try reflexivity. apply rfc_edge_refl.
Qed.
Print Assumptions C03_edges_close.

Theorem C03_close_exact : forall t,
  (st t = SynReceived /\ st (fst (tcb_close t)) = FinWait1) \/
  (st t = Established /\ st (fst (tcb_close t)) = FinWait1) \/
  (st t = CloseWait /\ st (fst (tcb_close t)) = LastAck) \/
  (fst (tcb_close t) = t /\ snd (tcb_close t) = CloseClosing).
Proof. exact tcb_close_exact. Qed.
Print Assumptions C03_close_exact.

Theorem C03_edges_time : forall t dt, st (fst (advance_time t dt)) = st t.
Proof. exact advance_time_st. Qed.
Print Assumptions C03_edges_time.
Theorem C03_edges_segments : forall t t' segs, tcb_segments t = Ok (t', segs) -> st t' = st t.
Proof. exact tcb_segments_st. Qed.
Print Assumptions C03_edges_segments.
Theorem C03_edges_send : forall t b, st (tcb_send t b) = st t.
Proof. exact tcb_send_st. Qed.
Print Assumptions C03_edges_send.
Theorem C03_edges_receive : forall t, st (fst (tcb_receive t)) = st t.
Proof. exact tcb_receive_st. Qed.
Print Assumptions C03_edges_receive.

(* the TCB is deleted only by a RST that got past the sequence check, or in
   LAST-ACK by the acknowledgment of our FIN *)
Theorem C03_deleted_only_when : forall t s t' r,
  process_segment t s = Ok (t', r) -> should_delete r = true ->
  (c_rst (h_ctl (s_hdr s)) = true /\ ps_rst t' (s_hdr s) = Some r) \/
  (r = PFinalizeClose /\ c_ack (h_ctl (s_hdr s)) = true /\ st t = LastAck /\ st t' = LastAck /\
   is_fin_acked t' = true).
Proof. exact process_segment_deleted. Qed.
Print Assumptions C03_deleted_only_when.

Theorem C03_deleted_by_rst : forall t h r, ps_rst t h = Some r ->
  match st t with
  | SynSent => r = (if h_seq h =? rcv_nxt t then PConnectionReset else PBlindReset)
  | SynReceived => r = (if listen_init t then PReturnToListen else PConnectionRefused)
  | Established | FinWait1 | FinWait2 | CloseWait => r = PConnectionReset
  | Closing | LastAck | TimeWait => r = PFinalizeClose
  end.
Proof. exact ps_rst_by_state. Qed.
Print Assumptions C03_deleted_by_rst.

Theorem C03_deleted_only_when_arrives : forall t s t',
  in_segs t = [] -> segment_arrives t s = Ok (t', AClose) ->
  exists r, process_segment t s = Ok (t', r) /\ should_delete r = true /\
    ((c_rst (h_ctl (s_hdr s)) = true /\ ps_rst t' (s_hdr s) = Some r) \/
     (r = PFinalizeClose /\ c_ack (h_ctl (s_hdr s)) = true /\ st t = LastAck /\ st t' = LastAck /\
      is_fin_acked t' = true)).
Proof. exact segment_arrives_close_one. Qed.
Print Assumptions C03_deleted_only_when_arrives.

(* the same with segments waiting in the reassembly heap: the closing result
   comes from one process_segment call, on the new segment or on a queued one,
   reached along diagram edges *)
Theorem C03_deleted_only_when_arrives_any : forall t s t',
  segment_arrives t s = Ok (t', AClose) ->
  exists t0 s0 r, (s0 = s \/ In s0 (in_segs t)) /\ rfc_path (st t) (st t0) /\
    process_segment t0 s0 = Ok (t', r) /\ should_delete r = true /\
    ((c_rst (h_ctl (s_hdr s0)) = true /\ ps_rst t' (s_hdr s0) = Some r) \/
     (r = PFinalizeClose /\ c_ack (h_ctl (s_hdr s0)) = true /\ st t0 = LastAck /\ st t' = LastAck /\
      is_fin_acked t' = true)).
Proof. exact segment_arrives_close. Qed.
Print Assumptions C03_deleted_only_when_arrives_any.

(* rfc_edge is exactly "stay" or one of the fourteen pairs of rfc_table *)
Theorem C03_edge_table : forall a b, rfc_edge a b = true <-> a = b \/ In (a, b) rfc_table.
Proof. exact rfc_edge_table. Qed.
Print Assumptions C03_edge_table.
