(* C06 - ARP resolves an IP address to its owner's (or the gateway's) MAC.
   Property theorems only; each is closed by a lemma of Proofs/ or derived from general ones in a few lines; statements are pinned.

   Vocabulary (Model/ArpProto.v, Proofs/ArpProtoFacts.v):
     config          machines (MAC, addresses it may claim, preconfigured subnets) on one network, MTU
     wf_cfg cfg      claimed addresses are pairwise distinct over all machines, MACs are distinct
                     and below the broadcast MAC, preconfigured subnets belong to claimed addresses
     step cfg s (t,l) one move of the timed transition system at instant t: LListen / LSetSubnet /
                     LStart m rid pair slot (Arp::resolve up to its first await) / LPoll rid (one poll
                     of timeout(RESEND_DELAY, get_mac)) / LDeliver, LDrop, LDup of one frame copy
     run, reachable  sequences of moves from [init cfg]
     target sub p    the address resolve() looks up (arp.rs:185-200)
     r_dest, r_sub, r_pair, r_born, r_phase   a resolver: looked-up address, the subnet entry read at
                     its start, the pair it was called with, start instant, PWait tries deadline |
                     PDone status instant cause (CCache | CBudget | CSend)
     is_wait s rid m D / is_done s rid m D st   resolver rid runs on machine m, looks up D, and is
                     waiting / has returned st
     owner_mac cfg s ip mac   mac is the MAC of a machine that listens on ip, may claim ip, and is the
                     only machine that may claim ip
     BUDGET          RESEND_TRIES * RESEND_DELAY = 2 s
   All theorems quantify over every well-formed configuration (any number of machines, any claims,
   masks, gateways), every resolver/target pair, every interleaving of resolver polls with frame
   deliveries, drops and duplications (any loss pattern, per receiver), and every timing that the
   virtual clock allows. *)
From Coq Require Import NArith ZArith List.
From Elvis Require Import Model.Base Model.Subnet Model.ArpProto Proofs.ArpProtoFacts.
Import ListNotations.

(* ------------------------------------------------------------------ which address is looked up *)

(* the gateway exactly when a subnet is configured for the local address and the remote address
   is outside it (masked addresses differ); the remote address itself otherwise *)
Theorem C06_target_rule : forall (sub : option subnet_info) (p : pair),
  (forall sn, sub = Some sn ->
     N.land (p_local p) (sn_mask sn) <> N.land (p_remote p) (sn_mask sn) -> target sub p = sn_gw sn) /\
  (forall sn, sub = Some sn ->
     N.land (p_local p) (sn_mask sn) = N.land (p_remote p) (sn_mask sn) -> target sub p = p_remote p) /\
  (sub = None -> target sub p = p_remote p).
Proof.
  intros sub p. rewrite target_eq. repeat split;
    [intros sn -> H; apply N.eqb_neq in H; rewrite H|intros sn -> H; rewrite H, N.eqb_refl|intros ->]; reflexivity.
Qed.
Print Assumptions C06_target_rule.

(* same rule through Ipv4Net::contains of Model/Subnet.v (property C09's network arithmetic) *)
Theorem C06_target_rule_contains : forall (sn : subnet_info) (p : pair),
  target (Some sn) p =
  if contains (net_new (p_local p) (sn_mask sn)) (p_remote p) then p_remote p else sn_gw sn.
Proof. intros sn p. rewrite target_eq. reflexivity. Qed.
Print Assumptions C06_target_rule_contains.

(* a resolver looks up target(subnet entry of its local address after listen(local), its pair) *)
Theorem C06_start_records : forall cfg s t m rid p slot s',
  step cfg s (t, LStart m rid p slot) = Ok s' ->
  exists r, st_res s' rid = Some r /\ r_mach r = m /\ r_pair r = p /\ r_born r = t /\
    r_sub r = match ms_local (listen (st_machs s m) (p_local p)) (p_local p) with
              | Some inner => inner | None => None end /\
    r_dest r = target (r_sub r) p.
Proof.
  intros cfg s t m rid p slot s' H. exists (started cfg s t m p). split; [exact (start_res _ _ _ _ _ _ _ _ H)|repeat split].
Qed.
Print Assumptions C06_start_records.

(* ------------------------------------------------------------------ never another machine's MAC *)

(* invariant: every resolved entry of every ARP table is the MAC of the machine that claimed the address *)
Theorem C06_table_truthful : forall cfg s m ip mac,
  wf_cfg cfg -> reachable cfg s ->
  ms_table (st_machs s m) ip = Some (SOk mac) -> owner_mac cfg s ip mac.
Proof. exact table_truthful. Qed.
Print Assumptions C06_table_truthful.

(* every MAC returned by resolve is the MAC of the owner of the looked-up address (the remote
   address, or the gateway by the target rule) - never any other machine's *)
Theorem C06_never_wrong : forall cfg s rid r mac t c,
  wf_cfg cfg -> reachable cfg s ->
  st_res s rid = Some r -> r_phase r = PDone (SOk mac) t c ->
  r_dest r = target (r_sub r) (r_pair r) /\ owner_mac cfg s (r_dest r) mac.
Proof. exact never_wrong. Qed.
Print Assumptions C06_never_wrong.

(* ------------------------------------------------------------------ one exchange suffices *)

(* 1. a request delivered to a machine that answers for its target puts the reply (that machine's
      MAC, the target address) in flight to the requester;
   2. any ARP packet delivered to a machine leaves sender_ip -> sender_mac in its table;
   3. once the table of machine m resolves D, every resolver of D on m that was still waiting at
      that moment, or starts afterwards, returns that MAC - whatever happens in between;
   4. conversely a resolver can only give up while no packet of D's owner has ever reached it *)
Theorem C06_succeeds_if_one_exchange :
  (forall cfg s t req o m s',
     wf_cfg cfg -> (ARP_SIZE <= cfg_mtu cfg)%N ->
     step cfg s (t, LDeliver req o) = Ok s' ->
     pk_oper req = Request -> listens s o (pk_tip req) ->
     (m < n_machs cfg)%nat -> pk_smac req = mac_of cfg m ->
     In (reply_of cfg o req, m) (st_net s') /\
     pk_oper (reply_of cfg o req) = Reply /\ pk_sip (reply_of cfg o req) = pk_tip req /\
     pk_smac (reply_of cfg o req) = mac_of cfg o) /\
  (forall cfg s t p m s',
     step cfg s (t, LDeliver p m) = Ok s' ->
     ms_table (st_machs s' m) (pk_sip p) = Some (SOk (pk_smac p))) /\
  (forall cfg s tr s' rid m D mac r st t c,
     wf_cfg cfg -> reachable cfg s -> run cfg s tr = Ok s' ->
     ms_table (st_machs s m) D = Some (SOk mac) ->
     (st_res s rid = None \/ exists r0 k dl, st_res s rid = Some r0 /\ r_phase r0 = PWait k dl) ->
     st_res s' rid = Some r -> r_mach r = m -> r_dest r = D -> r_phase r = PDone st t c ->
     st = SOk mac) /\
  (forall cfg s x s' rid r k dl r' t c,
     step cfg s x = Ok s' ->
     st_res s rid = Some r -> r_phase r = PWait k dl ->
     st_res s' rid = Some r' -> r_phase r' = PDone SFailed t c ->
     forall mac, ms_table (st_machs s (r_mach r)) (r_dest r) <> Some (SOk mac)).
Proof.
  exact (conj (fun cfg s t req o m s' _ => exchange_request cfg s t req o m s')
           (conj exchange_reply (conj succeeds failure_means_unheard))).
Qed.
Print Assumptions C06_succeeds_if_one_exchange.

(* ------------------------------------------------------------------ bounded failure, no hang *)

(* 1. an address nobody may claim is never resolved to any MAC;
   2. timing of every resolver: while waiting it has sent 1..RESEND_TRIES requests, its deadline is
      start + tries*RESEND_DELAY and has not passed; once finished, it finished within
      [start, start + BUDGET], on the exhausted-budget path with Err at exactly start + BUDGET;
   3. (restated for failures) *)
Theorem C06_bounded_failure :
  (forall cfg s rid r mac t c,
     wf_cfg cfg -> reachable cfg s ->
     (forall o, (o < n_machs cfg)%nat -> ~ In (r_dest r) (claims_of cfg o)) ->
     st_res s rid = Some r -> r_phase r <> PDone (SOk mac) t c) /\
  (forall cfg s rid r,
     wf_cfg cfg -> reachable cfg s -> st_res s rid = Some r ->
     (r_born r <= st_now s)%Z /\
     match r_phase r with
     | PWait k dl =>
         (1 <= k <= RESEND_TRIES)%N /\ dl = (r_born r + Z.of_N k * RESEND_DELAY)%Z /\ (st_now s <= dl)%Z
     | PDone st t c =>
         (r_born r <= t <= st_now s)%Z /\ (t <= r_born r + BUDGET)%Z /\
         (c = CBudget -> st = SFailed /\ t = (r_born r + BUDGET)%Z) /\
         (c = CSend -> st = SFailed)
     end) /\
  (forall cfg s rid r t c,
     wf_cfg cfg -> reachable cfg s -> st_res s rid = Some r -> r_phase r = PDone SFailed t c ->
     (r_born r <= t <= r_born r + BUDGET)%Z /\ (c = CBudget -> t = (r_born r + BUDGET)%Z)).
Proof.
  exact (conj unclaimed_never_ok (conj (fun cfg s rid r _ => resolver_timing cfg s rid r)
                                       (fun cfg s rid r t c _ => failure_cause cfg s rid r t c))).
Qed.
Print Assumptions C06_bounded_failure.

(* a cached failure always stems from a resolver of that address on that machine whose own budget
   was exhausted (so an Err obtained from the cache is also a bounded-retry failure) *)
Theorem C06_cached_failure_origin : forall cfg s m ip,
  wf_cfg cfg -> reachable cfg s -> ms_table (st_machs s m) ip = Some SFailed ->
  exists rid r t, st_res s rid = Some r /\ r_mach r = m /\ r_dest r = ip /\
                  r_phase r = PDone SFailed t CBudget.
Proof. exact (fun cfg s m ip _ Hre => InvD_reachable cfg s Hre m ip). Qed.
Print Assumptions C06_cached_failure_origin.

(* no hang: whenever a resolver is waiting, the poll of some waiting resolver is a move of the
   model at an instant no later than the waiting resolver's deadline and within the polled
   resolver's budget; together with the deadline bound of C06_bounded_failure nobody waits
   beyond start + BUDGET *)
Theorem C06_never_hangs : forall cfg s rid r k dl,
  wf_cfg cfg -> reachable cfg s -> st_res s rid = Some r -> r_phase r = PWait k dl ->
  exists rid0 r0 t0 s',
    step cfg s (t0, LPoll rid0) = Ok s' /\ st_res s rid0 = Some r0 /\
    (st_now s <= t0 <= r_born r0 + BUDGET)%Z /\ (t0 <= dl)%Z.
Proof. exact (fun cfg s rid r k dl _ => never_hangs cfg s rid r k dl). Qed.
Print Assumptions C06_never_hangs.

(* ------------------------------------------------------------------ same answer *)

(* all successful resolutions of one address agree - any machines, any time *)
Theorem C06_same_answer_ok : forall cfg s rid1 rid2 r1 r2 mac1 mac2 t1 t2 c1 c2,
  wf_cfg cfg -> reachable cfg s ->
  st_res s rid1 = Some r1 -> st_res s rid2 = Some r2 -> r_dest r1 = r_dest r2 ->
  r_phase r1 = PDone (SOk mac1) t1 c1 -> r_phase r2 = PDone (SOk mac2) t2 c2 -> mac1 = mac2.
Proof.
  intros cfg s rid1 rid2 r1 r2 mac1 mac2 t1 t2 c1 c2 Hwf Hre H1 H2 Hd P1 P2.
  apply (owner_mac_functional cfg s s (r_dest r2)); [rewrite <- Hd|]; eapply never_wrong; eauto.
Qed.
Print Assumptions C06_same_answer_ok.

(* the unrestricted statement "concurrent resolvers of the same address on one machine get the
   same answer" is FALSE for the code as it is: a run (recorded from the implementation) in which
   resolver 1 exhausts its budget and returns Err, the reply to its last request arrives at that
   very instant after the failure was cached, and resolver 2 - same machine, same address, started
   100 ms later, still waiting - returns Ok.  Their lifetimes overlap. *)
Theorem C06_same_answer_refuted :
  exists cfg tr s r1 r2 t1 t2 c1 c2 mac,
    wf_cfg cfg /\ run cfg (init cfg) tr = Ok s /\
    st_res s 1%N = Some r1 /\ st_res s 2%N = Some r2 /\
    r_mach r1 = r_mach r2 /\ r_dest r1 = r_dest r2 /\ c1 <> CSend /\ c2 <> CSend /\
    r_phase r1 = PDone SFailed t1 c1 /\ r_phase r2 = PDone (SOk mac) t2 c2 /\
    (r_born r1 < t2)%Z /\ (r_born r2 < t1)%Z.
Proof. exact same_answer_refuted. Qed.
Print Assumptions C06_same_answer_refuted.

(* positive theorem with the exact excluding hypothesis: if no ARP packet of an address is ever
   delivered to a machine that holds a cached failure for that address (in particular: no reply
   is still in flight when a budget runs out), ALL resolvers of that address on that machine -
   concurrent or not - get the same answer (send errors aside) *)
Theorem C06_same_answer : forall cfg tr s rid1 rid2 r1 r2 st1 st2 t1 t2 c1 c2,
  wf_cfg cfg -> run cfg (init cfg) tr = Ok s -> no_late_answer cfg (init cfg) tr ->
  st_res s rid1 = Some r1 -> st_res s rid2 = Some r2 ->
  r_mach r1 = r_mach r2 -> r_dest r1 = r_dest r2 ->
  r_phase r1 = PDone st1 t1 c1 -> r_phase r2 = PDone st2 t2 c2 -> c1 <> CSend -> c2 <> CSend ->
  st1 = st2.
Proof.
  intros cfg tr s rid1 rid2 r1 r2 st1 st2 t1 t2 c1 c2 Hwf Hrun Hn H1 H2 Hm Hd P1 P2 C1 C2.
  apply (same_answer_unflipped cfg s rid1 rid2 r1 r2 st1 st2 t1 t2 c1 c2 Hwf); auto;
    [exists tr; exact Hrun|exact (unflipped_run cfg tr s Hrun Hn (r_mach r1) (r_dest r1))].
Qed.
Print Assumptions C06_same_answer.

(* state form: agreement holds for an address on a machine as long as no cached failure of that
   address was overwritten there *)
Theorem C06_same_answer_unflipped : forall cfg s rid1 rid2 r1 r2 st1 st2 t1 t2 c1 c2,
  wf_cfg cfg -> reachable cfg s ->
  st_res s rid1 = Some r1 -> st_res s rid2 = Some r2 ->
  r_mach r1 = r_mach r2 -> r_dest r1 = r_dest r2 ->
  r_phase r1 = PDone st1 t1 c1 -> r_phase r2 = PDone st2 t2 c2 -> c1 <> CSend -> c2 <> CSend ->
  ms_flipped (st_machs s (r_mach r1)) (r_dest r1) = false ->
  st1 = st2.
Proof. exact same_answer_unflipped. Qed.
Print Assumptions C06_same_answer_unflipped.

(* sharper form for concurrency (the hypothesis the design anticipated): two resolvers of one
   address on one machine that are waiting at the same moment finish with the same answer,
   provided no packet of that address overwrites a cached failure WHILE a resolver of it is still
   waiting on that machine (late_answer_to_waiter: exactly the step of C06_same_answer_refuted).
   Overwriting a cached failure after everybody has returned is allowed. *)
Theorem C06_same_answer_concurrent : forall cfg sa tr s rid1 rid2 m D st1 st2,
  wf_cfg cfg -> (ARP_SIZE <= cfg_mtu cfg)%N -> reachable cfg sa -> rid1 <> rid2 ->
  is_wait sa rid1 m D -> is_wait sa rid2 m D ->
  run cfg sa tr = Ok s -> no_late_answer_to_waiter cfg sa tr ->
  is_done s rid1 m D st1 -> is_done s rid2 m D st2 -> st1 = st2.
Proof.
  intros cfg sa tr s rid1 rid2 m D st1 st2 Hwf Hmtu Hre _. apply same_answer_tracked; assumption.
Qed.
Print Assumptions C06_same_answer_concurrent.

Example C06_example_concurrent_hypotheses :
  exists sa s,
    run wcfg_subnet (init wcfg_subnet) (firstn 4 wtrace_agree) = Ok sa /\
    is_wait sa 1%N 0%nat 167772162%N /\ is_wait sa 2%N 0%nat 167772162%N /\
    run wcfg_subnet sa (skipn 4 wtrace_agree) = Ok s /\
    no_late_answer_to_waiter wcfg_subnet sa (skipn 4 wtrace_agree) /\
    is_done s 1%N 0%nat 167772162%N (SOk 1) /\ is_done s 2%N 0%nat 167772162%N (SOk 1).
Proof. exact concurrent_hypotheses_satisfiable. Qed.
Print Assumptions C06_example_concurrent_hypotheses.

(* ------------------------------------------------------------------ trace validation *)

(* an accepted trace is a run of the model on a well-formed configuration whose final state gives
   every observed resolver exactly the observed result and instant, accounts for every resolver
   of the run and leaves no model frame undelivered *)
Theorem C06_validate_sound : forall cfg tr os,
  validate cfg tr os = Accept ->
  wf_cfg cfg /\
  exists s, run cfg (init cfg) tr = Ok s /\ st_net s = [] /\
    (forall o, In o os -> exists r c, st_res s (o_rid o) = Some r /\
                                      r_phase r = PDone (o_status o) (o_at o) c) /\
    (forall rid, In rid (st_rids s) -> exists o, In o os /\ o_rid o = rid).
Proof. exact validate_sound. Qed.
Print Assumptions C06_validate_sound.

(* hence the property holds of the observed results of an accepted trace *)
Theorem C06_validate_property : forall cfg tr os,
  validate cfg tr os = Accept ->
  exists s, run cfg (init cfg) tr = Ok s /\
    forall o, In o os ->
      exists r c, st_res s (o_rid o) = Some r /\ r_phase r = PDone (o_status o) (o_at o) c /\
        r_dest r = target (r_sub r) (r_pair r) /\
        (forall mac, o_status o = SOk mac -> owner_mac cfg s (r_dest r) mac) /\
        (r_born r <= o_at o <= r_born r + BUDGET)%Z /\
        (c = CBudget -> o_status o = SFailed /\ o_at o = (r_born r + BUDGET)%Z).
Proof. exact validate_property. Qed.
Print Assumptions C06_validate_property.

(* results-only validation (multi-thread runs): every accepted MAC is the MAC of the one machine
   that may claim the address selected by the target rule *)
Theorem C06_validate_results_sound : forall cfg os,
  validate_results cfg os = true ->
  wf_cfg cfg /\
  forall o mac, In o os -> ro_status o = SOk mac ->
    exists i, (i < n_machs cfg)%nat /\ mac = mac_of cfg i /\
              In (target (ro_sub o) (ro_pair o)) (claims_of cfg i) /\
              forall j, (j < n_machs cfg)%nat -> In (target (ro_sub o) (ro_pair o)) (claims_of cfg j) -> j = i.
Proof. exact validate_results_sound. Qed.
Print Assumptions C06_validate_results_sound.

(* ------------------------------------------------------------------ the hypotheses are satisfiable *)

(* a recorded run without late answers: two concurrent resolvers on a machine with a /24 subnet,
   one for an on-subnet address, one for 192.168.1.1 which the rule sends to the gateway; both
   return the gateway/owner MAC *)
Example C06_example_hypotheses :
  wf_cfg wcfg_subnet /\ no_late_answer wcfg_subnet (init wcfg_subnet) wtrace_agree /\
  exists s r1 r2,
    run wcfg_subnet (init wcfg_subnet) wtrace_agree = Ok s /\
    st_res s 1%N = Some r1 /\ st_res s 2%N = Some r2 /\
    r_dest r1 = 167772162%N /\ r_dest r2 = 167772162%N /\ p_remote (r_pair r2) = 3232235777%N /\
    r_phase r1 = PDone (SOk 1) 0 CCache /\ r_phase r2 = PDone (SOk 1) 0 CCache.
Proof. exact hypotheses_satisfiable. Qed.
Print Assumptions C06_example_hypotheses.

(* a recorded run for an address nobody claims: Err after exactly 2 s *)
Example C06_example_unclaimed :
  exists s r,
    run wcfg (init wcfg) wtrace_unclaimed = Ok s /\ st_res s 1%N = Some r /\
    r_phase r = PDone SFailed 2000000000 CBudget /\ r_born r = 0%Z.
Proof. exact unclaimed_example. Qed.
Print Assumptions C06_example_unclaimed.
