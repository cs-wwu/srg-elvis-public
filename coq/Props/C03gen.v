(* C03, second tie by translation: coq/Gen/StateGen.v is regenerated on every run by tools/translate_state.py from
   state.rs (enum State, derived PartialEq) and tcb.rs (arm groups of every `match self.state` of impl Tcb, as
   dispatch tables state -> arm index, and every comparison of self.state with a literal).  The hand model
   Model/Tcb.v has the same states in the same order and branches exactly along the generated tables.
   state.rs itself declares no predicate methods; the state predicates of the TCB are these arm groups.
   [to_model] / [of_model], the [*_arm] restatements of the model code per arm index: Proofs/StateGen.v. *)
From Elvis Require Import Model.Base Model.U32 Model.Tcb Model.RsSem Gen.StateGen Proofs.StateGen.
Local Open Scope Z_scope.

(* the enum: same variants, same declaration order, derived equality = state_eqb *)
Theorem C03gen_state_is_model :
  (forall s, to_model (of_model s) = s) /\ (forall s, of_model (to_model s) = s) /\
  map to_model g_State_all =
    [SynSent; SynReceived; Established; FinWait1; FinWait2; CloseWait; Closing; LastAck; TimeWait] /\
  (forall s, In s g_State_all) /\
  map g_State_index g_State_all = [0; 1; 2; 3; 4; 5; 6; 7; 8] /\
  (forall a b, g_State_eqb (of_model a) (of_model b) = state_eqb a b) /\
  (forall a b, g_State_eqb a b = true <-> a = b).
Proof.
  split; [intros []; reflexivity|]. split; [intros []; reflexivity|]. split; [reflexivity|].
  split; [intros []; cbn; tauto|]. split; [reflexivity|]. split; [intros [] []; reflexivity|].
  intros [] []; split; intros H; first [reflexivity | discriminate H].
Qed.
Print Assumptions C03gen_state_is_model.

(* the user calls: send accepts text in exactly the states of arm 0, receive has one arm, close has its three
   arms, segments segmentizes in exactly the states of arm 0 *)
Theorem C03gen_calls_follow_tables :
  (forall s, accepts_send s = (g_Tcb_send_m1 (of_model s) =? 0)) /\
  (forall t bytes, tcb_send t bytes =
     match g_Tcb_send_m1 (of_model (st t)) with 0 => set_out_text t (out_text t ++ bytes) | _ => t end) /\
  (forall s, g_Tcb_receive_m1 s = 0) /\
  (forall t, tcb_close t =
     match g_Tcb_close_m1 (of_model (st t)) with
     | 0 => (queue_pending_fin (set_st (set_fin_pending t true) FinWait1), CloseOk)
     | 1 => (queue_pending_fin (set_st (set_fin_pending t true) LastAck), CloseOk)
     | _ => (t, CloseClosing)
     end) /\
  (forall s, segmentizes s = (g_Tcb_segments_m1 (of_model s) =? 0)).
Proof.
  repeat split; try (intros []; reflexivity); intros t; intros; unfold tcb_send, tcb_close;
    destruct (st t); reflexivity.
Qed.
Print Assumptions C03gen_calls_follow_tables.

(* process_segment: every stage of the hand model is its per-arm code selected by the generated arm index *)
Theorem C03gen_process_segment_follows_tables :
  (forall t text_len h,
     match st t with
     | SynSent => false
     | _ => negb (is_seq_ok t text_len (h_seq h) (c_syn (h_ctl h)) (c_fin (h_ctl h)))
     end = seq_bad_arm (g_Tcb_process_segment_m1 (of_model (st t))) t text_len h) /\
  (forall t h, ps_ack t h =
     if negb (c_ack (h_ctl h)) then (t, None) else ps_ack_arm (g_Tcb_process_segment_m2 (of_model (st t))) t h) /\
  (forall t h, ps_rst t h =
     if negb (c_rst (h_ctl h)) then None else ps_rst_arm (g_Tcb_process_segment_m3 (of_model (st t))) t h) /\
  (forall t h, ps_syn t h =
     if negb (c_syn (h_ctl h)) then (t, None) else ps_syn_arm (g_Tcb_process_segment_m4 (of_model (st t))) t h) /\
  (forall t h text, ps_text t h text =
     if zlen text =? 0 then Ok t else ps_text_arm (g_Tcb_process_segment_m5 (of_model (st t))) t h text) /\
  (forall t h text_len, ps_fin t h text_len =
     if negb (c_fin (h_ctl h)) then t else
     let t1 := ps_fin_pre t h text_len in ps_fin_arm (g_Tcb_process_segment_m6 (of_model (st t1))) t1).
Proof.
  exact (conj gen_ps_seq_check (conj gen_ps_ack (conj gen_ps_rst (conj gen_ps_syn (conj gen_ps_text gen_ps_fin))))).
Qed.
Print Assumptions C03gen_process_segment_follows_tables.

(* the comparisons of self.state with a literal (segment_arrives l.365, process_segment l.591 / l.640) *)
Theorem C03gen_comparisons : forall s,
  g_Tcb_segment_arrives_c1 (of_model s) = negb (state_eqb s SynSent) /\
  g_Tcb_process_segment_c1 (of_model s) = state_eqb s SynSent /\
  g_Tcb_process_segment_c2 (of_model s) = negb (state_eqb s SynSent).
Proof. intros []; repeat split; reflexivity. Qed.
Print Assumptions C03gen_comparisons.

(* nothing else in impl Tcb looks at the state: the translator's complete lists are the tables / comparisons
   above; abort (not in the hand model) has its table recorded *)
Theorem C03gen_tables_complete :
  (g_Tcb_state_tables =
     [g_Tcb_send_m1; g_Tcb_receive_m1; g_Tcb_close_m1; g_Tcb_abort_m1; g_Tcb_segments_m1;
      g_Tcb_process_segment_m1; g_Tcb_process_segment_m2; g_Tcb_process_segment_m3; g_Tcb_process_segment_m4;
      g_Tcb_process_segment_m5; g_Tcb_process_segment_m6] /\
   g_Tcb_state_comparisons = [g_Tcb_segment_arrives_c1; g_Tcb_process_segment_c1; g_Tcb_process_segment_c2]) /\
  map g_Tcb_abort_m1 g_State_all = [1; 0; 0; 0; 0; 0; 1; 1; 1].
Proof. repeat split; reflexivity. Qed.
Print Assumptions C03gen_tables_complete.
