(* C19 - a network description means what it says (parser part).  Property theorems only; each is
   closed by a lemma of Proofs/ or derived from general ones in a few lines; statements are pinned.
   Reading guide.  [core_parse] is the model of core_parser after the repair .cache/ndl/fix.patch,
   [general_parser get_type] the model of one "[Type k='v' ...]" line.  [render] is the canonical
   tab-indented text of a description, [render4] the same with four spaces per level, [crlf] turns
   every LF into CR LF.  Maps are association lists in insertion order; the parser inserts in text
   order, so equality of lists below is equality of maps.  [wf_sim] = [psim] (what the grammar can
   carry: keys without '=' / ']' that do not start with white space, values in escaped form without
   ']', distinct keys per line, network ids present and distinct, every network with an address
   line, every machine with its three non-empty sections) and [csim] (no CR and no run of four
   spaces inside keys and values).  Err codes: [ecode class line]. *)
From Elvis Require Import Model.Base Model.Ndl Proofs.NdlFacts Proofs.NdlRound Proofs.NdlFile
  Proofs.NdlRewrite Proofs.NdlReject Proofs.NdlWitness Proofs.NdlSound.
Local Open Scope Z_scope.

(* ---- parsing is the inverse of rendering -------------------------------------------------- *)

(* one line: any type, any well-formed arguments, any number k of line ends, anything behind it *)
Theorem C19_line : forall d a k rest ln,
  Forall parg a -> NoDup (map fst a) -> not_nl_head rest ->
  general_parser get_type (render_sec d a ++ repeat c_nl k ++ rest) ln
  = Ok (d, a, rest, ln + Z.of_nat k).
Proof. exact general_parser_render. Qed.
Print Assumptions C19_line.

Theorem C19_roundtrip : forall s, wf_sim s -> core_parse (render s) = Ok s.
Proof. intros s H. exact (proj1 (core_parse_renderings s H)). Qed.
Print Assumptions C19_roundtrip.

Theorem C19_roundtrip_spaces : forall s, wf_sim s -> core_parse (render4 s) = Ok s.
Proof. intros s H. exact (proj1 (proj2 (core_parse_renderings s H))). Qed.
Print Assumptions C19_roundtrip_spaces.

(* CR LF line ends are invisible for every text (well-formed or not); hence the CRLF renderings *)
Theorem C19_roundtrip_crlf :
  (forall t, core_parse (crlf t) = core_parse t) /\
  (forall s, wf_sim s ->
  core_parse (crlf (render s)) = Ok s /\ core_parse (crlf (render4 s)) = Ok s).
Proof. split; [exact core_parse_crlf|]. intros s H. exact (proj2 (proj2 (core_parse_renderings s H))). Qed.
Print Assumptions C19_roundtrip_crlf.


(* the hypotheses are satisfiable: a description with an escaped quote, '[' and '=' in a value *)
Theorem C19_wf_satisfiable : wf_sim (ex_with t_its).
Proof. apply (core_parse_sound (render (ex_with t_its))). vm_compute. reflexivity. Qed.
Print Assumptions C19_wf_satisfiable.

(* "any argument values" does not hold: each hypothesis on values is needed.  In each witness the
   value satisfies all the other conditions: a]b (the section is cut at the first bracket), a run of
   four spaces (becomes a tab), a CR (removed), and it's: a quote that is not preceded by a backslash
   cannot be carried at all (and the backslash of an escaped quote stays in the value: see t_its in
   C19_wf_satisfiable). *)
Theorem C19_roundtrip_refuted :
  (wf_val v_rbr /\ clean v_rbr /\ core_parse (render (ex_with v_rbr)) = Err (ecode E_EXTRA 11)) /\
  (wf_val v_sp4 /\ ~ In c_rbr v_sp4 /\ ~ In c_cr v_sp4 /\
  core_parse (render (ex_with v_sp4)) = Ok (ex_with [97; 9; 98]%N)) /\
  (wf_val v_cr /\ ~ In c_rbr v_cr /\ norun4 0 v_cr = true /\
  core_parse (render (ex_with v_cr)) = Ok (ex_with [97; 98]%N)) /\
  (~ In c_rbr v_quote /\ clean v_quote /\
  core_parse (render (ex_with v_quote)) = Err (ecode E_EXTRA 11)).
Proof. exact (conj refuted_rbr (conj refuted_sp4 (conj refuted_cr refuted_quote))). Qed.
Print Assumptions C19_roundtrip_refuted.


(* ---- soundness of acceptance ---------------------------------------------------------------- *)

(* Whatever text is accepted, the structure returned is well-formed: every line has distinct,
   well-formed arguments, every network has an id (all distinct) and at least one address line,
   every machine has its Networks, Protocols and Applications sections, each non-empty and with
   items of the right kind.  Contrapositive: a text whose only readings violate one of these
   (missing required section, duplicate network id, duplicate argument, wrong nesting) is rejected,
   in every context. *)
Theorem C19_accept_sound : forall txt s, core_parse txt = Ok s -> wf_sim s.
Proof. exact core_parse_sound. Qed.
Print Assumptions C19_accept_sound.

(* ... and rendering it canonically (in any of the renderings) and parsing again returns it *)
Theorem C19_parse_render_idempotent : forall txt s, core_parse txt = Ok s ->
  core_parse (render s) = Ok s /\ core_parse (render4 s) = Ok s /\
  core_parse (crlf (render s)) = Ok s /\ core_parse (crlf (render4 s)) = Ok s.
Proof. intros txt s H. exact (core_parse_renderings s (core_parse_sound txt s H)). Qed.
Print Assumptions C19_parse_render_idempotent.

(* ---- well-formed prefixes are consumed (the contexts of the rejection lemmas) --------------- *)

Theorem C19_prefix :
  (forall l0 l acc ln fuel tail,
  Forall pnetwork l -> NoDup (map fst (acc ++ l)) ->
  (count_leading c_tab tail < 2)%nat -> not_nl_head tail ->
  (length (flat_map render_network l ++ tail) < fuel)%nat ->
  exists fuel', (length tail < fuel')%nat /\
    networks_loop get_type fuel 1 l0 acc (flat_map render_network l ++ tail) ln
    = networks_loop get_type fuel' 1 l0 (acc ++ l) tail (ln + lines_networks l)) /\
  (forall l0 l acc ln fuel tail,
  Forall pmachine l -> (count_leading c_tab tail < 2)%nat -> not_nl_head tail ->
  (length (flat_map render_machine l ++ tail) < fuel)%nat ->
  exists fuel', (length tail < fuel')%nat /\
    machines_loop get_type fuel 1 l0 acc (flat_map render_machine l ++ tail) ln
    = machines_loop get_type fuel' 1 l0 (acc ++ l) tail (ln + lines_machines l)).
Proof. exact (conj networks_loop_peel machines_loop_peel). Qed.
Print Assumptions C19_prefix.


(* ---- structural errors are rejected ---------------------------------------------------------- *)

(* duplicate argument: any line, any position, anything behind it *)
Theorem C19_reject_duplicate_argument : forall d a rem ln,
  Forall parg a -> ~ NoDup (map fst a) ->
  general_parser get_type (render_sec d a ++ rem) ln = Err (ecode E_DUPARG ln).
Proof.
  intros d a rem ln Ha Hn. rewrite (general_parser_render_sec d a rem ln Ha).
  destruct (dupcheck [] a) eqn:E; [apply dupcheck_nodup in E; contradiction|reflexivity].
Qed.
Print Assumptions C19_reject_duplicate_argument.

(* unknown section type: the bracket content starts with none of the ten type words *)
Theorem C19_reject_unknown_type : forall content rem ln,
  ~ In c_rbr content -> unknown_type content ->
  general_parser get_type (c_lbr :: content ++ c_rbr :: rem) ln = Err (ecode E_DECTYPE (-1)).
Proof. exact general_parser_unknown. Qed.
Print Assumptions C19_reject_unknown_type.

(* a line the line parser rejects (the two classes above, broken brackets or quotes) stops every
   loop of the parser that has it at its head, whatever was accumulated before *)
Theorem C19_reject_line_error_propagates : forall s nt ln e,
  is_nil s = false -> count_leading c_tab s = nt ->
  general_parser get_type (skipn nt s) ln = Err e ->
  (forall f nets ms, nt = 0%nat -> core_loop get_type (S f) nets ms s ln = Err e) /\
  (forall f l0 acc, networks_loop get_type (S f) nt l0 acc s ln = Err (wrapline l0 e)) /\
  (forall f l0 acc, network_loop get_type (S f) nt l0 acc s ln = Err (wrapline l0 e)) /\
  (forall f l0 acc, machines_loop get_type (S f) nt l0 acc s ln = Err (wrapline l0 e)) /\
  (forall f l0 req a b c, machine_loop get_type (S f) nt l0 req a b c s ln = Err (wrapline l0 e)) /\
  (forall f expect l0 acc, items_loop get_type (S f) expect nt l0 acc s ln = Err (wrapline l0 e)).
Proof.
  intros s nt ln e Hn Ht Hg. split; [intros f nets ms ->; exact (core_loop_head_fails f nets ms s ln e Hn Hg)|].
  exact (conj (networks_loop_head_fails s nt ln e Hn Ht Hg) (conj (network_loop_head_fails s nt ln e Hn Ht Hg)
        (conj (machines_loop_head_fails s nt ln e Hn Ht Hg) (conj (machine_loop_head_fails s nt ln e Hn Ht Hg)
              (items_loop_head_fails s nt ln e Hn Ht Hg))))).
Qed.
Print Assumptions C19_reject_line_error_propagates.

(* wrong nesting 1: at the top level only Template, Networks and Machines may be declared *)
Theorem C19_reject_wrong_nesting :
  (forall f nets ms d a tail ln,
  d <> Template -> d <> Networks -> d <> Machines -> pargs a -> not_nl_head tail ->
  core_loop get_type (S f) nets ms (render_line 0 d a ++ tail) ln = Err (ecode E_CANNOT ln)) /\
  ((forall f nt l0 acc s ln, is_nil s = false -> (nt < count_leading c_tab s)%nat ->
     networks_loop get_type (S f) nt l0 acc s ln = Err (ecode E_TABCOUNT ln)) /\
  (forall f nt l0 acc s ln, is_nil s = false -> (nt < count_leading c_tab s)%nat ->
     machines_loop get_type (S f) nt l0 acc s ln = Err (ecode E_TABCOUNT ln)) /\
  (forall f nt l0 req a b c s ln, is_nil s = false -> (nt < count_leading c_tab s)%nat ->
     machine_loop get_type (S f) nt l0 req a b c s ln = Err (ecode E_TABCOUNT ln)) /\
  (forall f nt l0 acc i tail ln, pitem IP i -> not_nl_head tail -> (nt < count_leading c_tab tail)%nat ->
     network_loop get_type (S f) nt l0 acc (render_item nt i ++ tail) ln = Err (ecode E_TABCOUNT (ln + 1))) /\
  (forall f expect nt l0 acc i tail ln, pitem expect i -> not_nl_head tail ->
     (nt < count_leading c_tab tail)%nat ->
     items_loop get_type (S f) expect nt l0 acc (render_item nt i ++ tail) ln = Err (ecode E_TABCOUNT (ln + 1)))) /\
  ((forall f l0 acc n d a tail ln, d <> Network -> pargs a -> not_nl_head tail ->
     networks_loop get_type (S f) n l0 acc (render_line n d a ++ tail) ln = Err (ecode E_EXPECTED (ln + 1))) /\
  (forall f l0 acc n d a tail ln, d <> IP -> pargs a -> not_nl_head tail ->
     network_loop get_type (S f) n l0 acc (render_line n d a ++ tail) ln = Err (ecode E_EXPECTED ln)) /\
  (forall f l0 acc n d a tail ln, d <> Machine -> pargs a -> not_nl_head tail ->
     machines_loop get_type (S f) n l0 acc (render_line n d a ++ tail) ln = Err (ecode E_EXPECTED (ln + 1))) /\
  (forall f l0 req x y z n d a tail ln, req_contains d req = false -> pargs a -> not_nl_head tail ->
     machine_loop get_type (S f) n l0 req x y z (render_line n d a ++ tail) ln = Err (ecode E_UNEXPECTED ln)) /\
  (forall f expect l0 acc n d a tail ln, d <> expect -> pargs a -> not_nl_head tail ->
     items_loop get_type (S f) expect n l0 acc (render_line n d a ++ tail) ln = Err (ecode E_EXPECTED ln))).
Proof.
  exact (conj core_loop_cannot_declare
    (conj (conj networks_loop_too_deep (conj machines_loop_too_deep (conj machine_loop_too_deep
             (conj network_loop_child_too_deep items_loop_child_too_deep))))
          (conj networks_loop_wrong_type (conj network_loop_wrong_type (conj machines_loop_wrong_type
             (conj machine_loop_unexpected items_loop_wrong_type)))))).
Qed.
Print Assumptions C19_reject_wrong_nesting.

(* wrong nesting 2: a line indented deeper than its place allows *)

(* wrong nesting 3: a line of the wrong kind for its place (an IP directly under Networks, a
   Network among addresses, an Application among Protocols, a second Protocols section or a loose
   item in a machine, anything but a Machine under Machines) *)

(* missing required section: a machine with one of its three sections left out (or all of them),
   a section header or a network line with nothing nested under it *)
Theorem C19_reject_missing_section :
  (forall args sec1 its1 sec2 its2 rest ln,
     (sec1, sec2) = (Networks, Protocols) \/ (sec1, sec2) = (Networks, Applications) \/
     (sec1, sec2) = (Protocols, Applications) ->
     its1 <> [] -> Forall (pitem (item_type_of sec1)) its1 ->
     its2 <> [] -> Forall (pitem (item_type_of sec2)) its2 ->
     (count_leading c_tab rest < 2)%nat -> not_nl_head rest ->
     machine_parser get_type args (msec sec1 its1 ++ msec sec2 its2 ++ rest) 2 ln
     = Err (ecode E_REQUIRED (ln - 1))) /\
  (forall args rest ln, (count_leading c_tab rest < 2)%nat ->
     machine_parser get_type args rest 2 ln = Err (ecode E_REQUIRED (ln - 1))) /\
  (forall expect s nt ln, count_leading c_tab s <> nt ->
     items_parser get_type expect s nt ln = Err (ecode E_FORMAT (-1))) /\
  (forall dec args s nt ln, count_leading c_tab s <> nt ->
     network_parser get_type dec args s nt ln = Err (ecode E_TABSGOT ln)).
Proof. exact (conj machine_missing_one (conj machine_missing_all (conj items_parser_empty network_parser_empty))). Qed.
Print Assumptions C19_reject_missing_section.

(* duplicate network id: behind any well-formed networks, whatever follows the offending block *)
Theorem C19_reject_duplicate_network_id : forall pre kn tail ln,
  Forall pnetwork pre -> NoDup (map fst pre) -> pnetwork kn -> In (fst kn) (map fst pre) ->
  (count_leading c_tab tail < 2)%nat -> not_nl_head tail ->
  networks_parser get_type (flat_map render_network pre ++ render_network kn ++ tail) 1 ln
  = Err (ecode E_DUPID (ln - 1)).
Proof. exact networks_parser_dup. Qed.
Print Assumptions C19_reject_duplicate_network_id.
