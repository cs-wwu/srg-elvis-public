(* C14 part 1 (IPv4 / UDP / TCP decoders) - property theorems only.
   The models carry every panic site of the Rust as a [Panic] value; the three decoders contain
   none on their own (no indexing, no unwrap, no checked arithmetic: they read through
   BytesExt, `>>`, `&`, `as`), except the checksum adder `sum + carry` (utility.rs l.24), which
   the last theorem shows unreachable for every sequence of 16-bit words.  Quantified over ALL
   lists of integers (not only bytes), every length, every packet_len / address argument, both
   builds and both repair switches. *)
From Elvis Require Import Model.Base Model.Bytes Model.Checksum Model.Ipv4Hdr Model.UdpHdr Model.TcpHdr
  Proofs.BytesFacts Proofs.ChecksumFacts Proofs.Ipv4HdrFacts Proofs.UdpHdrFacts Proofs.TcpHdrFacts.
Local Open Scope Z_scope.

Theorem C14_ipv4_decode_total : forall fck ftl ck bs s, ipv4_decode fck ftl ck bs <> Panic s.
Proof. intros. apply is_panic_false. unfold ipv4_decode. no_panic. Qed.
Print Assumptions C14_ipv4_decode_total.
Theorem C14_ipv4_decode_no_fuel : forall fck ftl ck bs, ipv4_decode fck ftl ck bs <> OutOfFuel.
Proof. intros. unfold ipv4_decode. no_fuel. Qed.
Print Assumptions C14_ipv4_decode_no_fuel.
(* short input is an error value *)
Theorem C14_ipv4_decode_short : forall fck ftl ck bs, (length bs < 20)%nat ->
  exists e, ipv4_decode fck ftl ck bs = Err e.
Proof. exact ipv4_decode_short. Qed.
Print Assumptions C14_ipv4_decode_short.

Theorem C14_udp_decode_total : forall ck bs plen sa da s, udp_decode ck bs plen sa da <> Panic s.
Proof. intros. apply is_panic_false. unfold udp_decode. no_panic. Qed.
Print Assumptions C14_udp_decode_total.
Theorem C14_udp_decode_no_fuel : forall ck bs plen sa da, udp_decode ck bs plen sa da <> OutOfFuel.
Proof. intros. unfold udp_decode. no_fuel. Qed.
Print Assumptions C14_udp_decode_no_fuel.
Theorem C14_udp_decode_short : forall ck bs plen sa da, (length bs < 8)%nat ->
  udp_decode ck bs plen sa da = Err EU_HTS.
Proof. exact udp_decode_short. Qed.
Print Assumptions C14_udp_decode_short.

Theorem C14_tcp_decode_total : forall fck ck bs plen sa da s, tcp_decode fck ck bs plen sa da <> Panic s.
Proof. intros. apply is_panic_false. unfold tcp_decode. no_panic. Qed.
Print Assumptions C14_tcp_decode_total.
Theorem C14_tcp_decode_no_fuel : forall fck ck bs plen sa da, tcp_decode fck ck bs plen sa da <> OutOfFuel.
Proof. intros. unfold tcp_decode. no_fuel. Qed.
Print Assumptions C14_tcp_decode_no_fuel.
Theorem C14_tcp_decode_short : forall fck ck bs plen sa da, (length bs < 20)%nat ->
  exists e, tcp_decode fck ck bs plen sa da = Err e.
Proof. exact tcp_decode_short. Qed.
Print Assumptions C14_tcp_decode_short.

(* the only arithmetic the decoders reach: Checksum::add_u16.  Its checked addition cannot
   overflow, for any accumulator state and any sequence of u16 arguments, and it computes the
   pure [add16] the codec models use *)
Theorem C14_checksum_adder_no_panic : forall vs acc, u16 acc -> Forall u16 vs ->
  add_all_checked acc vs = Ok (fold_left add16 vs acc) /\ u16 (fold_left add16 vs acc).
Proof. exact add_all_checked_ok. Qed.
Print Assumptions C14_checksum_adder_no_panic.

(* for the record (encoders are outside C14): the two builders that take a `usize` length panic
   exactly on usize overflow of `text_len + header` *)
Theorem C14_udp_build_panics_iff : forall ck sa sp da dp text tlen,
  (exists s, udp_build ck sa sp da dp text tlen = Panic s) <-> usize_max < tlen + 8.
Proof. exact udp_build_panics_iff. Qed.
Print Assumptions C14_udp_build_panics_iff.
Theorem C14_tcp_build_panics_iff : forall ck h sa da text tlen,
  (exists s, tcp_build ck h sa da text tlen = Panic s) <-> usize_max_t < tlen + 20.
Proof. exact tcp_build_panics_iff. Qed.
Print Assumptions C14_tcp_build_panics_iff.
